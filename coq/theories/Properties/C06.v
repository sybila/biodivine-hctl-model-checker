(** C06 -- printing and parsing are inverse; stored text and height are consistent.
    Statements and the last step of each proof; the lemmas are in Proofs/RoundTrip.v.

    Definitions used (from Proofs/RoundTrip.v; their defining equations are restated below
    as checked theorems):

      consistent s        every node of the record tree [s] stores
                          text = render (forget node) and h = height (forget node)
      tokens_of t         the token list of the rendered text of [t]: [[tok_of t]], where a
                          compound node is ONE group token holding the operator and operand
                          tokens, and the constants are the proposition tokens True / False
      unreserved t        no proposition name of [t] is true/True/1/false/False/0
      well_named ea ext t the side condition of the character-level round trip, relative to
                          the classification [ea] of code points >= 128 and the syntax
                          mode [ext] (extended syntax: wild cards and domains):
        - variable, wild-card and domain names are non-empty words of name characters;
        - a proposition name is such a word and moreover (a) is not reserved, (b) is not
          exactly one of the operator words EX AX EF AF EG AG EU AU EW AW 3 V (longer names
          such as "EXa", "AUx", "3x" are fine), (c) does not start with a white-space
          character (automatic below code point 128 and for real Unicode; needed because
          [ea] is arbitrary);
        - wild cards and domains occur only with [ext = true]; a jump has no domain.
      [C06_prop_condition_exact] shows that (a) and (b) are exactly what is needed for a
      proposition name, [C06_leading_ws_dropped] what happens without (c), and the
      counterexamples at the end that the remaining conditions cannot be dropped. *)
From HCTL Require Import Base Syntax Tokenizer Parser Pipeline.
From HCTL Require Import ParserFacts RoundTrip.

(** * Stored fields *)

Theorem C06_consistent_def :
  forall (text : str) (h : nat) (sh : sshape),
    consistent (SNode text h sh) <->
    text = render (forget (SNode text h sh)) /\
    h = height (forget (SNode text h sh)) /\
    match sh with
    | STerminal _ => True
    | SUnary _ c => consistent c
    | SBinary _ l r => consistent l /\ consistent r
    | SHybrid _ _ _ c => consistent c
    end.
Proof. intros; reflexivity. Qed.

Theorem C06_fields_consistent :
  forall t : tree, consistent (annotate t) /\ forget (annotate t) = t.
Proof. intros; split; [apply consistent_annotate|apply forget_annotate]. Qed.

Theorem C06_root_fields :
  forall t : tree, stext (annotate t) = render t /\ sheight (annotate t) = height t.
Proof. intros; split; [apply annotate_text|apply annotate_height]. Qed.

Theorem C06_consistent_fields :
  forall s : snode,
    consistent s -> stext s = render (forget s) /\ sheight s = height (forget s).
Proof. intros s H; split; [apply consistent_text|apply consistent_height]; exact H. Qed.

(** nodes assembled directly with the constructors from consistent children *)
Theorem C06_mk_atom : forall a : atom,
  consistent (mk_atom a) /\ forget (mk_atom a) = Terminal a.
Proof. intros; split; [apply consistent_mk_atom|reflexivity]. Qed.

Theorem C06_mk_unary : forall (c : snode) (o : unop),
  consistent c ->
  consistent (mk_unary c o) /\ forget (mk_unary c o) = Unary o (forget c).
Proof. intros; split; [apply consistent_mk_unary; assumption|reflexivity]. Qed.

Theorem C06_mk_binary : forall (l r : snode) (o : binop),
  consistent l -> consistent r ->
  consistent (mk_binary l r o) /\ forget (mk_binary l r o) = Binary o (forget l) (forget r).
Proof. intros; split; [apply consistent_mk_binary; assumption|reflexivity]. Qed.

Theorem C06_mk_hybrid : forall (c : snode) (x : str) (d : option str) (o : hybop),
  consistent c ->
  consistent (mk_hybrid c x d o) /\ forget (mk_hybrid c x d o) = Hybrid o x d (forget c).
Proof. intros; split; [apply consistent_mk_hybrid; assumption|reflexivity]. Qed.

(** * Token level *)

Theorem C06_tokens_of_def :
  (forall t, tokens_of t = [tok_of t]) /\
  (forall n, tok_of (Terminal (AProp n)) = TAtom (AProp n)) /\
  (forall x, tok_of (Terminal (AVar x)) = TAtom (AVar x)) /\
  (forall p, tok_of (Terminal (AWild p)) = TAtom (AWild p)) /\
  tok_of (Terminal ATrue) = TAtom (AProp s_True) /\
  tok_of (Terminal AFalse) = TAtom (AProp s_False) /\
  (forall o c, tok_of (Unary o c) = TGroup (TUn o :: tokens_of c)) /\
  (forall o l r, tok_of (Binary o l r) = TGroup (tokens_of l ++ TBin o :: tokens_of r)) /\
  (forall o x d c, tok_of (Hybrid o x d c) = TGroup (THyb o x d :: tokens_of c)).
Proof. repeat split. Qed.

Theorem C06_unreserved_def :
  (forall n, unreserved (Terminal (AProp n)) <-> atom_of_prop_name n = AProp n) /\
  (forall a, (forall n, a <> AProp n) -> unreserved (Terminal a)) /\
  (forall o c, unreserved (Unary o c) <-> unreserved c) /\
  (forall o l r, unreserved (Binary o l r) <-> unreserved l /\ unreserved r) /\
  (forall o x d c, unreserved (Hybrid o x d c) <-> unreserved c).
Proof.
  repeat match goal with |- _ /\ _ => split end; try (intros; reflexivity).
  intros a H; destruct a; try exact I. exfalso; eapply H; reflexivity.
Qed.

Theorem C06_tokens_grammar :
  forall t : tree, unreserved t -> G (tokens_of t) t.
Proof. exact G_tokens_of. Qed.

Theorem C06_tokens_roundtrip :
  forall t : tree, unreserved t -> parse_tokens (tokens_of t) = Ok t.
Proof. exact parse_tokens_of. Qed.

(** * Character level *)

Theorem C06_well_named_def : forall (ea : N -> bool) (ext : bool),
  (forall n, name_ok ea n <-> n <> [] /\ List.Forall (fun c => is_name_char ea c = true) n) /\
  (forall n, well_named ea ext (Terminal (AProp n)) <->
     name_ok ea n /\ head_not_ws n /\ atom_of_prop_name n = AProp n /\ ~ In n op_words) /\
  (forall x, well_named ea ext (Terminal (AVar x)) <-> name_ok ea x) /\
  (forall p, well_named ea ext (Terminal (AWild p)) <-> ext = true /\ name_ok ea p) /\
  (well_named ea ext (Terminal ATrue) <-> True) /\
  (well_named ea ext (Terminal AFalse) <-> True) /\
  (forall o c, well_named ea ext (Unary o c) <-> well_named ea ext c) /\
  (forall o l r, well_named ea ext (Binary o l r) <->
     well_named ea ext l /\ well_named ea ext r) /\
  (forall o x c, well_named ea ext (Hybrid o x None c) <->
     name_ok ea x /\ True /\ well_named ea ext c) /\
  (forall o x l c, well_named ea ext (Hybrid o x (Some l) c) <->
     name_ok ea x /\ (ext = true /\ o <> Jump /\ name_ok ea l) /\ well_named ea ext c).
Proof. intros; repeat match goal with |- _ /\ _ => split end; intros; reflexivity. Qed.

Theorem C06_op_words_def :
  op_words = [[c_E; c_X]; [c_A; c_X]; [c_E; c_F]; [c_A; c_F]; [c_E; c_G]; [c_A; c_G];
              [c_E; c_U]; [c_A; c_U]; [c_E; c_W]; [c_A; c_W]; [c_three]; [c_V]].
Proof. reflexivity. Qed.

Theorem C06_head_not_ws_def :
  head_not_ws [] /\ (forall c n, head_not_ws (c :: n) <-> is_ws c = false).
Proof. split; [exact I|intros; reflexivity]. Qed.

(** below code point 128 condition (c) is automatic *)
Theorem C06_head_not_ws_ascii : forall (ea : N -> bool) (n : str),
  List.Forall (fun c => (c < 128)%N) n ->
  List.Forall (fun c => is_name_char ea c = true) n -> head_not_ws n.
Proof. exact head_not_ws_ascii. Qed.

Theorem C06_well_named_unreserved : forall (ea : N -> bool) (ext : bool) (t : tree),
  well_named ea ext t -> unreserved t.
Proof. exact well_named_unreserved. Qed.

(** the lemmas about the tokenizer on concatenations *)
Theorem C06_collect_name_app : forall (ea : N -> bool) (n rest : str),
  List.Forall (fun c => is_name_char ea c = true) n ->
  peek_name_char ea rest = false ->
  collect_name ea (n ++ rest) = (n, rest).
Proof. exact collect_name_word. Qed.

(** one step of [tok] reads one rendered subformula (followed by a non-name character) *)
Theorem C06_tok_render : forall (ea : N -> bool) (ext : bool) (t : tree),
  well_named ea ext t ->
  forall (f : nat) (rest : str) (top : bool) (acc : list token),
    peek_name_char ea rest = false -> length (render t) <= S f ->
    tok ea (S f) (render t ++ rest) top ext acc = tok ea f rest top ext (tok_of t :: acc).
Proof.
  intros ea ext t Hw f rest top acc Hr Hf; apply tok_render; auto;
    pose proof (need_lt ea ext t Hw); lia.
Qed.

Theorem C06_tokenize_render : forall (ea : N -> bool) (ext : bool) (t : tree),
  well_named ea ext t -> tokenize ea ext (render t) = Ok (tokens_of t).
Proof. exact tokenize_render. Qed.

(** the round trip, in the extended syntax ... *)
Theorem C06_roundtrip : forall (ea : N -> bool) (t : tree),
  well_named ea true t -> parse_formula ea true (render t) = Ok t.
Proof. intros ea t; exact (parse_formula_render ea true t). Qed.

(** ... and in either syntax ([well_named ea false t] excludes wild cards and domains) *)
Theorem C06_roundtrip_ext : forall (ea : N -> bool) (ext : bool) (t : tree),
  well_named ea ext t -> parse_formula ea ext (render t) = Ok t.
Proof. exact parse_formula_render. Qed.

Theorem C06_render_injective : forall (ea : N -> bool) (ext : bool) (t t' : tree),
  well_named ea ext t -> well_named ea ext t' -> render t = render t' -> t = t'.
Proof. exact render_injective. Qed.

(** the condition on proposition names is exact *)
Theorem C06_prop_condition_exact : forall (ea : N -> bool) (ext : bool) (n : str),
  name_ok ea n -> head_not_ws n ->
  (parse_formula ea ext (render (Terminal (AProp n))) = Ok (Terminal (AProp n))
   <-> atom_of_prop_name n = AProp n /\ ~ In n op_words).
Proof. exact prop_roundtrip_iff. Qed.

Theorem C06_leading_ws_dropped : forall (ea : N -> bool) (ext : bool) (c : N) (cs : str),
  is_ws c = true -> parse_formula ea ext (c :: cs) = parse_formula ea ext cs.
Proof. exact leading_ws_dropped. Qed.

(** [well_named] can be checked by computation *)
Theorem C06_well_named_check : forall (ea : N -> bool) (ext : bool) (t : tree),
  well_namedb ea ext t = true -> well_named ea ext t.
Proof. exact well_namedb_sound. Qed.

(** * Examples (non-vacuity) and counterexamples (necessity of the side conditions) *)

Definition ex_ea : N -> bool := fun _ => false.
Definition ex_x : str := [120%N].          (* x *)
Definition ex_d : str := [100%N; 49%N].    (* d1 *)
(** (!{x}: ((AG EXa) EU (~(3{x} in %d1%: ({x} & (%d1% => True)))))) *)
Definition ex_tree : tree :=
  Hybrid Bind ex_x None
    (Binary EU (Unary AG (Terminal (AProp [c_E; c_X; 97%N])))
       (Unary Not (Hybrid Exists ex_x (Some ex_d)
          (Binary And (Terminal (AVar ex_x))
             (Binary Imp (Terminal (AWild ex_d)) (Terminal ATrue)))))).

Example C06_ex_well_named : well_named ex_ea true ex_tree.
Proof. apply C06_well_named_check. reflexivity. Qed.

Example C06_ex_roundtrip : parse_formula ex_ea true (render ex_tree) = Ok ex_tree.
Proof. apply C06_roundtrip. exact C06_ex_well_named. Qed.

(** a proposition called EX is printed as "EX" and read as the operator *)
Example C06_ex_operator_word :
  tokenize ex_ea true (render (Terminal (AProp [c_E; c_X]))) = Ok [TUn EX].
Proof. reflexivity. Qed.

(** a proposition called true comes back as the constant *)
Example C06_ex_reserved :
  parse_formula ex_ea true (render (Terminal (AProp s_true))) = Ok (Terminal ATrue).
Proof. reflexivity. Qed.

(** the domain of a jump is printed but cannot be read *)
Example C06_ex_jump_domain :
  parse_formula ex_ea true (render (Hybrid Jump ex_x (Some ex_d) (Terminal ATrue)))
  = Err ELex.
Proof. reflexivity. Qed.

(** wild cards and domains cannot be read in the plain syntax *)
Example C06_ex_plain_syntax :
  parse_formula ex_ea false (render (Terminal (AWild ex_d))) = Err ELex /\
  parse_formula ex_ea false (render (Hybrid Bind ex_x (Some ex_d) (Terminal ATrue)))
  = Err ELex.
Proof. split; reflexivity. Qed.

(** names must be non-empty words of name characters: "{}" and "{a b}" are rejected *)
Example C06_ex_bad_names :
  parse_formula ex_ea true (render (Terminal (AVar []))) = Err ELex /\
  parse_formula ex_ea true (render (Terminal (AVar [97%N; c_space; 98%N]))) = Err ELex.
Proof. split; reflexivity. Qed.

(** without the conditions [render] is not injective: the proposition "True" and the
    constant print the same *)
Example C06_ex_not_injective :
  render (Terminal (AProp s_True)) = render (Terminal ATrue).
Proof. reflexivity. Qed.

Print Assumptions C06_consistent_def.
Print Assumptions C06_fields_consistent.
Print Assumptions C06_root_fields.
Print Assumptions C06_consistent_fields.
Print Assumptions C06_mk_atom.
Print Assumptions C06_mk_unary.
Print Assumptions C06_mk_binary.
Print Assumptions C06_mk_hybrid.
Print Assumptions C06_tokens_of_def.
Print Assumptions C06_unreserved_def.
Print Assumptions C06_tokens_grammar.
Print Assumptions C06_tokens_roundtrip.
Print Assumptions C06_well_named_def.
Print Assumptions C06_op_words_def.
Print Assumptions C06_head_not_ws_def.
Print Assumptions C06_head_not_ws_ascii.
Print Assumptions C06_well_named_unreserved.
Print Assumptions C06_collect_name_app.
Print Assumptions C06_tok_render.
Print Assumptions C06_tokenize_render.
Print Assumptions C06_roundtrip.
Print Assumptions C06_roundtrip_ext.
Print Assumptions C06_render_injective.
Print Assumptions C06_prop_condition_exact.
Print Assumptions C06_leading_ws_dropped.
Print Assumptions C06_well_named_check.
Print Assumptions C06_ex_well_named.
Print Assumptions C06_ex_roundtrip.
Print Assumptions C06_ex_operator_word.
Print Assumptions C06_ex_reserved.
Print Assumptions C06_ex_jump_domain.
Print Assumptions C06_ex_plain_syntax.
Print Assumptions C06_ex_bad_names.
Print Assumptions C06_ex_not_injective.
