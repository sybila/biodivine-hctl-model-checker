(** P18 -- the specification-level oracle [sem_eval] (Spec/Sem.v) computes [sat]
    (Spec/HCTL.v), the same specification that the symbolic model meets (C01).

    Reading guide (all definitions are those of Spec/Sem.v, Spec/Kripke.v, Spec/HCTL.v):
    - [G := mk_genv p n k upd]: the graph of the model (update tables lifted by [expand]);
      [Lpn n p] = parameter bits ++ state bits, [Ln n] = state bits;
    - [col_is p c v]: valuation [v] has colour [c] on the [p] parameter bits;
      [state_is n s v]: [v] holds the state [s] on the [n] state bits;
    - [lift c rho s]: the valuation with colour [c], state [s] and copy [e] = state [rho e];
      [lift_dom c rho v]: [v] has colour [c] and copies [rho] (any state) -- the valuations
      pointwise equal to some [lift c rho s]; this set is closed under moves;
    - [sspec n D X P]: the tree [X] over [Ln n] is shaped and, for every valuation [v] of the
      domain [D], [smem n X v = true <-> P v] ([smem] only reads the state bits of [v]);
    - [ctx_Gamma n p ctxs l v]: the context set stored under label [l] in [ctxs] contains
      (the colour and state of) [v] -- the [Gamma] of [sat] that the oracle implements;
    - [depth_named d t], [qdepth t] (Proofs/PrepFacts.v): variables named by quantifier depth
      ([xs (S e)] = e+1 characters 'x', stored in copy [e]), as produced by [preprocess];
    - [Dom n p c d env v]: [v] has colour [c] and, for every depth [e < d], [env] maps
      [xs (S e)] to a state that copy [e] of [v] holds.
    Standing hypotheses: the update tables are shaped over [Lpn n p]; [length names <= n]. *)
From HCTL Require Import Base Syntax Preprocess TT Ops Eval Pipeline Kripke HCTL Sem.
From HCTL Require Import TTFacts EvalPure PrepFacts IndepFacts SemFacts2 OracleTermination.

Theorem Oracle_tabulate : forall (L : layout) (f : val -> bool) (v : val),
  (forall u w, agree L u w -> f u = f w) -> mem L (tabulate L f) v = f v.
Proof. exact mem_tabulate. Qed.

Theorem Oracle_fix_iter : forall (fuel : nat) (F : sset -> sset) (x r : sset),
  fix_iter fuel F x = Ok r -> F r = r /\ exists j, r = Nat.iter j F x.
Proof. exact fix_iter_spec. Qed.

Theorem Oracle_enabled : forall (n p k : nat) (upd : list tt),
  List.Forall (shaped (Lpn n p)) upd ->
  forall (c s v : val) (i : nat), col_is p c v -> state_is n s v ->
  enabled (mk_genv p n k upd) i v = xorb (upd_at n p upd c s i) (v (TS i)).
Proof. exact enabled_upd_at. Qed.

Theorem Oracle_succs : forall (n p k : nat) (upd : list tt),
  List.Forall (shaped (Lpn n p)) upd ->
  forall (c v u : val), col_is p c v ->
  (In u (succs n p upd c v) <->
   (exists i, i < n /\ enabled (mk_genv p n k upd) i v = true /\ u = vflip (TS i) v)
   \/ (vsteady (mk_genv p n k upd) v /\ u = v)).
Proof. exact in_succs. Qed.

Theorem Oracle_ex_members : forall (n p k : nat) (upd : list tt),
  List.Forall (shaped (Lpn n p)) upd ->
  forall (c : val) (X : sset) (v : val), col_is p c v ->
  (smem n (s_ex n p upd c X) v = true <-> EXs (mk_genv p n k upd) (fun u => smem n X u = true) v).
Proof. exact smem_s_ex. Qed.

Theorem Oracle_ax_members : forall (n p k : nat) (upd : list tt),
  List.Forall (shaped (Lpn n p)) upd ->
  forall (c : val) (X : sset) (v : val), col_is p c v ->
  (smem n (s_ax n p upd c X) v = true <-> AXs (mk_genv p n k upd) (fun u => smem n X u = true) v).
Proof. exact smem_s_ax. Qed.

(** every operator, over any domain [D] of valuations of colour [c] closed under moves *)
Section Operators.
Variables (n p k : nat) (upd : list tt).
Hypothesis upd_shaped : List.Forall (shaped (Lpn n p)) upd.
Variables (c : val) (D : val -> Prop).
Hypothesis D_col : forall v, D v -> col_is p c v.
Hypothesis D_flip : forall v i, D v -> D (vflip (TS i) v).
Local Notation G := (mk_genv p n k upd).

Theorem Oracle_ex : forall A P, sspec n D A P -> sspec n D (s_ex n p upd c A) (EXs G P).
Proof. intros; eapply sspec_ex; eauto. Qed.
Theorem Oracle_ax : forall A P, sspec n D A P -> sspec n D (s_ax n p upd c A) (AXs G P).
Proof. intros; eapply sspec_ax; eauto. Qed.
Theorem Oracle_eu : forall A B P Q R, sspec n D A P -> sspec n D B Q ->
  s_eu n p upd c A B = Ok R -> sspec n D R (EUs G P Q).
Proof. intros; eapply sspec_eu; eauto. Qed.
Theorem Oracle_au : forall A B P Q R, sspec n D A P -> sspec n D B Q ->
  s_au n p upd c A B = Ok R -> sspec n D R (AUs G P Q).
Proof. intros; eapply sspec_au; eauto. Qed.
Theorem Oracle_ew : forall A B P Q R, sspec n D A P -> sspec n D B Q ->
  s_ew n p upd c A B = Ok R -> sspec n D R (EWs G P Q).
Proof. intros; eapply sspec_ew; eauto. Qed.
Theorem Oracle_aw : forall A B P Q R, sspec n D A P -> sspec n D B Q ->
  s_aw n p upd c A B = Ok R -> sspec n D R (AWs G P Q).
Proof. intros; eapply sspec_aw; eauto. Qed.
Theorem Oracle_eg : forall A P R, sspec n D A P ->
  s_eg n p upd c A = Ok R -> sspec n D R (EGs G P).
Proof. intros; eapply sspec_eg; eauto. Qed.
Theorem Oracle_ag : forall A P R, sspec n D A P ->
  s_ag n p upd c A = Ok R -> sspec n D R (AGs G P).
Proof. intros; eapply sspec_ag; eauto. Qed.
End Operators.

(** the domain of the lifted valuations, and reading a [sspec] at [lift c rho s] *)
Theorem Oracle_lift_domain : forall (n p : nat) (c : val) (rho : nat -> val),
  (forall v, lift_dom c rho v -> col_is p c v) /\
  (forall v i, lift_dom c rho v -> lift_dom c rho (vflip (TS i) v)) /\
  (forall s, lift_dom c rho (lift c rho s)) /\
  (forall X P, sspec n (lift_dom c rho) X P -> forall s, smem n X s = true <-> P (lift c rho s)).
Proof.
  intros n p c rho. split; [apply lift_dom_col|]. split; [apply lift_dom_flip|].
  split; [apply lift_dom_lift | apply sspec_lift].
Qed.

(** state-level statement, e.g. for E[. U .] and EG (the other operators are alike) *)
Theorem Oracle_eu_lift : forall (n p k : nat) (upd : list tt),
  List.Forall (shaped (Lpn n p)) upd ->
  forall (c : val) (rho : nat -> val) A B P Q R,
  sspec n (lift_dom c rho) A P -> sspec n (lift_dom c rho) B Q ->
  s_eu n p upd c A B = Ok R ->
  forall s, smem n R s = true <-> EUs (mk_genv p n k upd) P Q (lift c rho s).
Proof.
  intros; eapply sspec_lift; eapply sspec_eu; eauto using lift_dom_col, lift_dom_flip.
Qed.

Theorem Oracle_eg_lift : forall (n p k : nat) (upd : list tt),
  List.Forall (shaped (Lpn n p)) upd ->
  forall (c : val) (rho : nat -> val) A P R,
  sspec n (lift_dom c rho) A P ->
  s_eg n p upd c A = Ok R ->
  forall s, smem n R s = true <-> EGs (mk_genv p n k upd) P (lift c rho s).
Proof.
  intros; eapply sspec_lift; eapply sspec_eg; eauto using lift_dom_col, lift_dom_flip.
Qed.

Theorem Oracle_sem : forall (n p k : nat) (upd : list tt) (names : list str) (ctxs : list (str * tt)),
  List.Forall (shaped (Lpn n p)) upd -> length names <= n ->
  forall (t : tree) (c : val) (d : nat) (env : list (str * val)) (X : sset),
  depth_named d t -> d + qdepth t <= k ->
  sem n p upd names ctxs c env t = Ok X ->
  sspec n (Dom n p c d env) X (sat (mk_genv p n k upd) names (ctx_Gamma n p ctxs) t).
Proof. exact sem_sound. Qed.

Theorem Oracle_sem_lift : forall (n p k : nat) (upd : list tt) (names : list str) (ctxs : list (str * tt)),
  List.Forall (shaped (Lpn n p)) upd -> length names <= n ->
  forall (t : tree) (c : val) (d : nat) (env : list (str * val)) (rho : nat -> val) (X : sset),
  depth_named d t -> d + qdepth t <= k ->
  (forall e, e < d -> alookup str_eqb (xs (S e)) env = Some (rho e)) ->
  sem n p upd names ctxs c env t = Ok X ->
  shaped (Ln n) X /\
  forall s, smem n X s = true <->
            sat (mk_genv p n k upd) names (ctx_Gamma n p ctxs) t (lift c rho s).
Proof. exact sem_lift. Qed.

Theorem Oracle_sem_closed : forall (n p k : nat) (upd : list tt) (names : list str) (ctxs : list (str * tt)),
  List.Forall (shaped (Lpn n p)) upd -> length names <= n ->
  forall (t : tree) (c : val) (X : sset),
  depth_named 0 t -> qdepth t <= k ->
  sem n p upd names ctxs c [] t = Ok X ->
  shaped (Ln n) X /\
  forall v, col_is p c v ->
    (smem n X v = true <-> sat (mk_genv p n k upd) names (ctx_Gamma n p ctxs) t v).
Proof. exact sem_closed. Qed.

Theorem Oracle_sem_eval : forall (n p k : nat) (upd : list tt) (names : list str) (ctxs : list (str * tt)),
  List.Forall (shaped (Lpn n p)) upd -> length names <= n ->
  forall (unit_pn : tt) (t : tree) (R : tt),
  shaped (Lpn n p) unit_pn -> depth_named 0 t -> qdepth t <= k ->
  sem_eval n p upd names ctxs unit_pn t = Ok R ->
  shaped (Lpn n p) R /\
  forall v, mem (Lpn n p) R v = true <->
    (mem (Lpn n p) unit_pn v = true /\ sat (mk_genv p n k upd) names (ctx_Gamma n p ctxs) t v).
Proof. exact sem_eval_sound. Qed.

Theorem Oracle_sem_eval_lift : forall (n p k : nat) (upd : list tt) (names : list str) (ctxs : list (str * tt)),
  List.Forall (shaped (Lpn n p)) upd -> length names <= n ->
  forall (unit_pn : tt) (t : tree) (R : tt),
  shaped (Lpn n p) unit_pn -> depth_named 0 t -> qdepth t <= k ->
  sem_eval n p upd names ctxs unit_pn t = Ok R ->
  forall (c : val) (rho : nat -> val) (s : val),
    mem (Lpn n p) R (join c s) = true <->
    (mem (Lpn n p) unit_pn (join c s) = true /\
     sat (mk_genv p n k upd) names (ctx_Gamma n p ctxs) t (lift c rho s)).
Proof. exact sem_eval_lift. Qed.

(** on the output of [preprocess] *)
Theorem Oracle_sem_eval_preprocessed :
  forall (n p k : nat) (upd : list tt) (names : list str) (ctxs : list (str * tt)) (unit_pn : tt),
  List.Forall (shaped (Lpn n p)) upd -> length names <= n -> shaped (Lpn n p) unit_pn ->
  forall (props : list str) (t t' : tree) (R : tt),
  preprocess props t = Ok t' -> qdepth t <= k ->
  sem_eval n p upd names ctxs unit_pn t' = Ok R ->
  shaped (Lpn n p) R /\
  forall v, mem (Lpn n p) R v = true <->
    (mem (Lpn n p) unit_pn v = true /\ sat (mk_genv p n k upd) names (ctx_Gamma n p ctxs) t' v).
Proof. exact sem_eval_preprocessed. Qed.

(** for plain closed formulae the oracle returns the very tree the model returns (sanitised) *)
Theorem Oracle_agrees_with_model :
  forall (n p k : nat) (upd : list tt) (names : list str) (ctxs : list (str * tt)) (unit_pn : tt),
  List.Forall (shaped (Lpn n p)) upd -> length names <= n -> shaped (Lpn n p) unit_pn ->
  forall (sw : switches) (t : tree) (Rm S Ro : tt),
  (forall v w, (forall j, v (TP j) = w (TP j)) ->
     mem (Lpn n p) unit_pn v = mem (Lpn n p) unit_pn w) ->
  let G := mk_genv p n k upd in
  let U := expand not_extra (mk_layout p n k) unit_pn in
  plainf t -> supported G t -> closed_copies G t ->
  depth_named 0 t -> qdepth t <= k ->
  peval G names sw (steady_of G U) t U = Ok Rm ->
  sanitize G Rm = Ok S ->
  sem_eval n p upd names ctxs unit_pn t = Ok Ro ->
  S = Ro.
Proof. exact oracle_agrees_with_model. Qed.

(** totality: the oracle never runs out of fuel and never panics (no hypothesis) *)

Theorem Oracle_loops_terminate : forall (n p : nat) (upd : list tt) (c : val) (A B : sset),
  shaped (Ln n) A -> shaped (Ln n) B ->
  (exists r, s_eu n p upd c A B = Ok r /\ shaped (Ln n) r) /\
  (exists r, s_au n p upd c A B = Ok r /\ shaped (Ln n) r) /\
  (exists r, s_ew n p upd c A B = Ok r /\ shaped (Ln n) r) /\
  (exists r, s_aw n p upd c A B = Ok r /\ shaped (Ln n) r) /\
  (exists r, s_eg n p upd c A = Ok r /\ shaped (Ln n) r) /\
  (exists r, s_ag n p upd c A = Ok r /\ shaped (Ln n) r).
Proof.
  intros n p upd c A B SA SB.
  repeat split; auto using s_eu_terminates, s_au_terminates, s_ew_terminates, s_aw_terminates,
    s_eg_terminates, s_ag_terminates.
Qed.

Theorem Oracle_sem_total : forall (n p : nat) (upd : list tt) (names : list str) (ctxs : list (str * tt))
  (t : tree) (c : val) (env : list (str * val)),
  (exists X, sem n p upd names ctxs c env t = Ok X /\ shaped (Ln n) X) \/
  (exists e, sem n p upd names ctxs c env t = Err e).
Proof. exact sem_fine. Qed.

Theorem Oracle_sem_eval_total : forall (n p : nat) (upd : list tt) (names : list str)
  (ctxs : list (str * tt)) (unit_pn : tt) (t : tree),
  (exists R, sem_eval n p upd names ctxs unit_pn t = Ok R) \/
  (exists e, sem_eval n p upd names ctxs unit_pn t = Err e).
Proof. exact sem_eval_total. Qed.

Print Assumptions Oracle_tabulate.
Print Assumptions Oracle_fix_iter.
Print Assumptions Oracle_enabled.
Print Assumptions Oracle_succs.
Print Assumptions Oracle_ex_members.
Print Assumptions Oracle_ax_members.
Print Assumptions Oracle_ex.
Print Assumptions Oracle_ax.
Print Assumptions Oracle_eu.
Print Assumptions Oracle_au.
Print Assumptions Oracle_ew.
Print Assumptions Oracle_aw.
Print Assumptions Oracle_eg.
Print Assumptions Oracle_ag.
Print Assumptions Oracle_lift_domain.
Print Assumptions Oracle_eu_lift.
Print Assumptions Oracle_eg_lift.
Print Assumptions Oracle_sem.
Print Assumptions Oracle_sem_lift.
Print Assumptions Oracle_sem_closed.
Print Assumptions Oracle_sem_eval.
Print Assumptions Oracle_sem_eval_lift.
Print Assumptions Oracle_sem_eval_preprocessed.
Print Assumptions Oracle_agrees_with_model.
Print Assumptions Oracle_loops_terminate.
Print Assumptions Oracle_sem_total.
Print Assumptions Oracle_sem_eval_total.
