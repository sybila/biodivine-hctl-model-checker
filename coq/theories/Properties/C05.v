(** C05 -- the parser accepts exactly the documented grammar and never drops input.
    The proofs behind the statements are in Proofs/ParserFacts.v.

    The grammar is defined in Proofs/ParserFacts.v as three mutually inductive relations
    between token lists and trees (a parenthesised group is the single token [TGroup ts]):

      G ts t    a formula, or the content of a group:
                  G_hyb  : G ts t -> G (THyb o x d :: ts) (Hybrid o x d t)
                  G_expr : L 6 ts t -> G ts t
      L n ts t  an expression whose top-level binary operators have class < n, with
                op_level: EU/AU/EW/AW = 0, And = 1, Xor = 2, Or = 3, Imp = 4, Iff = 5
                  L_unary : U ts t -> L 0 ts t
                  L_bin   : op_level o = n -> L n l a -> L (S n) r b ->
                            L (S n) (l ++ TBin o :: r) (Binary o a b)
                  L_skip  : L n ts t -> L (S n) ts t
      U ts t    unary operators applied to an atom or a group
                  U_un    : U ts t -> U (TUn o :: ts) (Unary o t)
                  U_prop  : U [TAtom (AProp n)] (Terminal (atom_of_prop_name n))
                  U_var   : U [TAtom (AVar x)] (Terminal (AVar x))
                  U_wild  : U [TAtom (AWild p)] (Terminal (AWild p))
                  U_group : G ts t -> U [TGroup ts] t

    i.e. unary operators bind tightest, then the binary temporal operators, then
    & ^ | => <=>; every binary operator is right-associative (left operand one class
    lower, right operand the same class); hybrid operators bind weakest and occur only at
    the start of a formula or of a group.  [C05_grammar_rules] restates the rules as a
    checked theorem. *)
From HCTL Require Import Base Syntax Parser.
From HCTL Require Import ParserFacts.

(** the rules above, as checked statements *)
Theorem C05_grammar_rules :
  (forall o x d ts t, G ts t -> G (THyb o x d :: ts) (Hybrid o x d t)) /\
  (forall ts t, L 6 ts t -> G ts t) /\
  (forall ts t, U ts t -> L 0 ts t) /\
  (forall n o l r a b, op_level o = n -> L n l a -> L (S n) r b ->
     L (S n) (l ++ TBin o :: r) (Binary o a b)) /\
  (forall n ts t, L n ts t -> L (S n) ts t) /\
  (forall o ts t, U ts t -> U (TUn o :: ts) (Unary o t)) /\
  (forall name, U [TAtom (AProp name)] (Terminal (atom_of_prop_name name))) /\
  (forall x, U [TAtom (AVar x)] (Terminal (AVar x))) /\
  (forall p, U [TAtom (AWild p)] (Terminal (AWild p))) /\
  (forall ts t, G ts t -> U [TGroup ts] t).
Proof.
  exact (conj G_hyb (conj G_expr (conj L_unary (conj L_bin (conj L_skip
        (conj U_un (conj U_prop (conj U_var (conj U_wild U_group))))))))).
Qed.

(** ... and nothing else is derivable: the relations are the least ones closed under the
    rules (mutual induction principle) *)
Theorem C05_grammar_least :
  forall (PG : list token -> tree -> Prop) (PL : nat -> list token -> tree -> Prop)
         (PU : list token -> tree -> Prop),
    (forall o x d ts t, PG ts t -> PG (THyb o x d :: ts) (Hybrid o x d t)) ->
    (forall ts t, PL 6 ts t -> PG ts t) ->
    (forall ts t, PU ts t -> PL 0 ts t) ->
    (forall n o l r a b, op_level o = n -> PL n l a -> PL (S n) r b ->
       PL (S n) (l ++ TBin o :: r) (Binary o a b)) ->
    (forall n ts t, PL n ts t -> PL (S n) ts t) ->
    (forall o ts t, PU ts t -> PU (TUn o :: ts) (Unary o t)) ->
    (forall name, PU [TAtom (AProp name)] (Terminal (atom_of_prop_name name))) ->
    (forall x, PU [TAtom (AVar x)] (Terminal (AVar x))) ->
    (forall p, PU [TAtom (AWild p)] (Terminal (AWild p))) ->
    (forall ts t, PG ts t -> PU [TGroup ts] t) ->
    (forall ts t, G ts t -> PG ts t) /\
    (forall n ts t, L n ts t -> PL n ts t) /\
    (forall ts t, U ts t -> PU ts t).
Proof. intros; apply GLU_mutind; eauto. Qed.

(** splitting at the first token satisfying a predicate *)
Theorem C05_split_first_some :
  forall (p : token -> bool) (ts l : list token) (x : token) (r : list token),
    split_first p ts = Some (l, x, r) <->
    ts = l ++ x :: r /\ p x = true /\ List.Forall (fun y => p y = false) l.
Proof.
  intros; split; [apply split_first_some|].
  intros (-> & Px & Fl). apply split_first_app; assumption.
Qed.

Theorem C05_split_first_none :
  forall (p : token -> bool) (ts : list token),
    split_first p ts = None <-> List.Forall (fun y => p y = false) ts.
Proof. intros; split; [apply split_first_none | apply split_first_none_intro]. Qed.

Theorem C05_parse_sound :
  forall (ts : list token) (t : tree), parse_tokens ts = Ok t -> G ts t.
Proof. exact parse_sound. Qed.

(** completeness: every derivable pair is produced; in particular the fuel
    [parse_fuel ts] chosen by [parse_tokens] always suffices *)
Theorem C05_parse_complete :
  forall (ts : list token) (t : tree), G ts t -> parse_tokens ts = Ok t.
Proof. exact parse_complete. Qed.

Theorem C05_parse_exact :
  forall (ts : list token) (t : tree), parse_tokens ts = Ok t <-> G ts t.
Proof. intros; split; [apply parse_sound | apply parse_complete]. Qed.

(** the grammar is unambiguous *)
Theorem C05_grammar_functional :
  forall (ts : list token) (t t' : tree), G ts t -> G ts t' -> t = t'.
Proof.
  intros ts t t' H H'.
  apply parse_complete in H. apply parse_complete in H'.
  rewrite H in H'. injection H' as <-. reflexivity.
Qed.

(** the parser never panics and never runs out of fuel, on any token list *)
Theorem C05_no_panic :
  forall (ts : list token) (p : panicsite), parse_tokens ts <> Panic p.
Proof.
  intros ts p H. pose proof (parse_tokens_yields ts) as O. rewrite H in O. exact O.
Qed.

Theorem C05_no_out_of_fuel :
  forall (ts : list token), parse_tokens ts <> OutOfFuel.
Proof.
  intros ts H. pose proof (parse_tokens_yields ts) as O. rewrite H in O. exact O.
Qed.

Theorem C05_outcomes :
  forall (ts : list token),
    (exists t, parse_tokens ts = Ok t) \/ parse_tokens ts = Err EParse.
Proof. exact parse_tokens_benign. Qed.

(** everything outside the grammar is rejected with a parse error *)
Theorem C05_parse_reject :
  forall (ts : list token), (forall t, ~ G ts t) -> parse_tokens ts = Err EParse.
Proof.
  intros ts H. destruct (parse_tokens_benign ts) as [(t & Ht)|Ht]; [|exact Ht].
  exfalso. exact (H t (parse_sound _ _ Ht)).
Qed.

(** no token is dropped, duplicated or reordered: reading the operators and atoms of the
    tree in order gives back the input without its parentheses ([strip] flattens the
    groups), up to the spelling of constants ([norm_tok] maps the proposition names
    true/True/1 and false/False/0 to the constant atoms and is the identity elsewhere) *)
Theorem C05_no_token_dropped :
  forall (ts : list token) (t : tree),
    parse_tokens ts = Ok t -> leaves t = map norm_tok (strip ts).
Proof. intros ts t H; eapply leaves_strip, parse_sound; exact H. Qed.

Theorem C05_no_token_dropped_grammar :
  forall (ts : list token) (t : tree), G ts t -> leaves t = map norm_tok (strip ts).
Proof. exact leaves_strip. Qed.

Theorem C05_no_token_dropped_length :
  forall (ts : list token) (t : tree),
    G ts t -> length (leaves t) = length (strip ts).
Proof. intros ts t H. rewrite (leaves_strip ts t H). apply map_length. Qed.

(** operator tokens (unary, binary, hybrid with variable and domain) are preserved
    literally and in order *)
Theorem C05_no_token_dropped_operators :
  forall (ts : list token) (t : tree),
    G ts t ->
    filter (fun x => negb (is_atom_tok x)) (leaves t) =
    filter (fun x => negb (is_atom_tok x)) (strip ts).
Proof. intros ts t H. rewrite (leaves_strip ts t H). apply filter_ops_norm. Qed.

Theorem C05_no_token_dropped_atoms :
  forall (ts : list token) (t : tree),
    G ts t ->
    filter is_atom_tok (leaves t) = map norm_tok (filter is_atom_tok (strip ts)).
Proof. intros ts t H. rewrite (leaves_strip ts t H). apply filter_atoms_norm. Qed.

(** [strip] really removes all group structure *)
Theorem C05_strip_no_group :
  forall (ts : list token), List.Forall not_group (strip ts).
Proof.
  induction ts as [|x ts IH]; [constructor|].
  rewrite strip_cons. apply Forall_app; split; [apply strip_tok_no_group|exact IH].
Qed.

(** Examples (non-vacuity; precedence and right-associativity).
    a & b | c & d  =  (a & b) | (c & d);   a => b => c  =  a => (b => c);
    !{x}: AG p EU ~q  =  !{x}: ((AG p) EU (~q));   (3{x}: p) & q needs the parentheses. *)
Definition ex_p (n : N) : token := TAtom (AProp [n]).
Definition ex_t (n : N) : tree := Terminal (AProp [n]).

Example C05_ex_prec :
  G [ex_p 97; TBin And; ex_p 98; TBin Or; ex_p 99; TBin And; ex_p 100]
    (Binary Or (Binary And (ex_t 97) (ex_t 98)) (Binary And (ex_t 99) (ex_t 100))).
Proof. apply C05_parse_sound. reflexivity. Qed.

Example C05_ex_right_assoc :
  G [ex_p 97; TBin Imp; ex_p 98; TBin Imp; ex_p 99]
    (Binary Imp (ex_t 97) (Binary Imp (ex_t 98) (ex_t 99))).
Proof. apply C05_parse_sound. reflexivity. Qed.

Example C05_ex_hybrid_temporal :
  G [THyb Bind [120%N] None; TUn AG; ex_p 112; TBin EU; TUn Not; ex_p 113]
    (Hybrid Bind [120%N] None
       (Binary EU (Unary AG (ex_t 112)) (Unary Not (ex_t 113)))).
Proof. apply C05_parse_sound. reflexivity. Qed.

Example C05_ex_hybrid_inside_rejected :
  parse_tokens [ex_p 113; TBin And; THyb Exists [120%N] None; ex_p 112] = Err EParse
  /\ G [ex_p 113; TBin And; TGroup [THyb Exists [120%N] None; ex_p 112]]
       (Binary And (ex_t 113) (Hybrid Exists [120%N] None (ex_t 112))).
Proof. split; [reflexivity|apply C05_parse_sound; reflexivity]. Qed.

Print Assumptions C05_grammar_rules.
Print Assumptions C05_grammar_least.
Print Assumptions C05_split_first_some.
Print Assumptions C05_split_first_none.
Print Assumptions C05_parse_sound.
Print Assumptions C05_parse_complete.
Print Assumptions C05_parse_exact.
Print Assumptions C05_grammar_functional.
Print Assumptions C05_no_panic.
Print Assumptions C05_no_out_of_fuel.
Print Assumptions C05_outcomes.
Print Assumptions C05_parse_reject.
Print Assumptions C05_no_token_dropped.
Print Assumptions C05_no_token_dropped_grammar.
Print Assumptions C05_no_token_dropped_length.
Print Assumptions C05_no_token_dropped_operators.
Print Assumptions C05_no_token_dropped_atoms.
Print Assumptions C05_strip_no_group.
Print Assumptions C05_ex_prec.
Print Assumptions C05_ex_right_assoc.
Print Assumptions C05_ex_hybrid_temporal.
Print Assumptions C05_ex_hybrid_inside_rejected.
