(** C12b -- graph-theoretic meaning of the two pattern formulae.  Statements only; proofs in
    Proofs/SccFacts.v.

    The implementation evaluates  !{x}: AG EF {x}  with a library routine documented to return
    "all states lying in a bottom (terminal) strongly connected component of the coloured
    asynchronous state-transition graph" and  !{x}: AX {x}  with one returning "all steady
    states (states without an enabled transition)".  The model represents both routines by the
    meaning of the formulae (C12); here that meaning is shown to be the documented one.

    Definitions (Proofs/SccFacts.v), for a network G with n = g_n G variables:

      move G v w   :=  exists i, i < n /\ enabled G i v = true /\ veq w (vflip (TS i) v)
                       one proper asynchronous transition (the artificial self-loop of a
                       steady valuation is NOT a move);
      reach G v w  :=  reflexive-transitive closure of [move G], up to pointwise equality of
                       valuations [veq] (C12b_reach_unfold);
      terminal G v :=  forall w, reach G v w -> reach G w v
      strongly_connected G S := forall a b, S a -> S b -> reach G a b
      succ_closed G S        := forall a b, S a -> move G a b -> S b
      bottom_scc G S := (exists v, S v) /\ respects S /\ strongly_connected G S /\ succ_closed G S

    A move flips one state bit TS i, i < n, and nothing else, so [reach] relates valuations of
    the same colour (TP bits) and the same spare copies (TX bits) only
    (C12b_reach_same_colour_and_copies): it is reachability inside the state-transition graph
    of one colour.  No restriction to the unit set is needed for the characterisations; the
    unit only constrains the colour and is therefore closed under [reach] (C12b_unit_closed).

    Well-formedness: [wf_env] of Proofs/Main.v, of which only [wf_upd_extras] (update functions
    do not read the spare copies) is used by the semantic theorems; the evaluator theorems use
    all of it.  [LayoutFacts.wf_instance] and [SccFacts.ex_wf] are instances. *)
From HCTL Require Import Base Syntax MarkDup TT Ops Eval Pipeline Kripke HCTL Paths.
From HCTL Require Import SemFacts EvalPure Main PathFacts LayoutFacts SccFacts.

Theorem C12b_reach_unfold : forall G v w,
  reach G v w <-> (veq v w \/ exists u, move G v u /\ reach G u w).
Proof. exact reach_unfold. Qed.
Print Assumptions C12b_reach_unfold.

Theorem C12b_move_def : forall G v w,
  move G v w <-> exists i, i < g_n G /\ enabled G i v = true /\ veq w (vflip (TS i) v).
Proof. exact (fun G v w => iff_refl _). Qed.
Print Assumptions C12b_move_def.

Theorem C12b_reach_trans : forall G u v w, reach G u v -> reach G v w -> reach G u w.
Proof. exact reach_trans. Qed.
Print Assumptions C12b_reach_trans.

(** counting the self-loops of steady valuations ([step] of Spec/Paths.v) gives the same
    reachability relation *)
Theorem C12b_self_loops_irrelevant : forall G v w, reach_loops G v w <-> reach G v w.
Proof. exact reach_loops_iff. Qed.
Print Assumptions C12b_self_loops_irrelevant.

(** [reach v w]: some path of the specification that starts in v visits w; equivalently
    EF "is w" holds at v *)
Theorem C12b_reach_is_path_reachability : forall G v w,
  reach G v w <-> exists pi, path G pi /\ veq (pi 0) v /\ exists j, veq (pi j) w.
Proof. exact reach_iff_path. Qed.
Print Assumptions C12b_reach_is_path_reachability.

Theorem C12b_reach_is_EF : forall G v w, reach G v w <-> EFs G (fun u => veq u w) v.
Proof. exact reach_iff_EF. Qed.
Print Assumptions C12b_reach_is_EF.

(** AG is "everywhere reachable" *)
Theorem C12b_AG_is_all_reachable : forall G (P : val -> Prop) v, respects P ->
  (AGs G P v <-> forall w, reach G v w -> P w).
Proof. exact AG_iff_reach. Qed.
Print Assumptions C12b_AG_is_all_reachable.

(** reachable valuations have the same colour and the same spare copies (and the same
    unused state bits) *)
Theorem C12b_reach_same_colour_and_copies : forall G v w, reach G v w ->
  (forall j, w (TP j) = v (TP j)) /\ (forall i e, w (TX i e) = v (TX i e)) /\
  (forall i, g_n G <= i -> w (TS i) = v (TS i)).
Proof. exact reach_frame. Qed.
Print Assumptions C12b_reach_same_colour_and_copies.

(** a move changes the valuation: the transition graph has no real self-transition *)
Theorem C12b_no_real_self_transition : forall G v w, move G v w -> ~ veq w v.
Proof. exact move_neq. Qed.
Print Assumptions C12b_no_real_self_transition.

(** reachability does not read the spare copies *)
Theorem C12b_reach_ignores_copies : forall G names U, wf_env G names U ->
  forall a b, reach G a b -> forall a', agree_ne a a' -> reach G a' (graft a' b).
Proof. intros G names U WF. exact (reach_transfer G (wf_upd_extras _ _ _ WF)). Qed.
Print Assumptions C12b_reach_ignores_copies.

(** !{x}: AG EF {x}  =  "lies in a terminal SCC" *)
Theorem C12b_attractor_is_bottom_scc :
  forall (G : genv) (names : list str) (U : tt), wf_env G names U ->
  forall (Gamma : str -> val -> Prop) x e v, var_of G x = Some e -> e < g_k G ->
    (sat G names Gamma (Hybrid Bind x None (Unary AG (Unary EF (Terminal (AVar x))))) v <->
     (forall w, reach G v w -> reach G w v)).
Proof. intros G names U WF Gamma x e v Ev _. exact (attractor_formula_terminal G (wf_upd_extras _ _ _ WF) names Gamma x e v Ev). Qed.
Print Assumptions C12b_attractor_is_bottom_scc.

Theorem C12b_terminal_def : forall G v, terminal G v <-> (forall w, reach G v w -> reach G w v).
Proof. exact (fun G v => iff_refl _). Qed.
Print Assumptions C12b_terminal_def.

(** the set of such valuations is closed under [reach] *)
Theorem C12b_terminal_closed : forall G v w, terminal G v -> reach G v w -> terminal G w.
Proof. exact terminal_closed. Qed.
Print Assumptions C12b_terminal_closed.

(** for each of them, the reachable set is a bottom SCC that contains it *)
Theorem C12b_terminal_component_is_bottom_scc : forall G v, terminal G v ->
  bottom_scc G (reach G v) /\ reach G v v.
Proof. exact terminal_bottom_scc. Qed.
Print Assumptions C12b_terminal_component_is_bottom_scc.

Theorem C12b_bottom_scc_def : forall G (S : val -> Prop),
  bottom_scc G S <->
  ((exists v, S v) /\ respects S /\ (forall a b, S a -> S b -> reach G a b) /\
   (forall a b, S a -> move G a b -> S b)).
Proof. exact (fun G S => iff_refl _). Qed.
Print Assumptions C12b_bottom_scc_def.

Theorem C12b_terminal_iff_in_bottom_scc : forall G v,
  terminal G v <-> exists S, bottom_scc G S /\ S v.
Proof. exact terminal_iff_bottom_scc. Qed.
Print Assumptions C12b_terminal_iff_in_bottom_scc.

(** a bottom SCC is closed under the successors of [step] (self-loops included), is the set
    reachable from any member, and is a maximal strongly connected set *)
Theorem C12b_bottom_scc_step_closed : forall G (S : val -> Prop) a b,
  respects S -> succ_closed G S -> S a -> step G a b -> S b.
Proof. exact succ_closed_step. Qed.
Print Assumptions C12b_bottom_scc_step_closed.

Theorem C12b_bottom_scc_is_reach_set : forall G (S : val -> Prop) v, bottom_scc G S -> S v ->
  forall w, S w <-> reach G v w.
Proof. exact bottom_scc_is_reach_set. Qed.
Print Assumptions C12b_bottom_scc_is_reach_set.

Theorem C12b_bottom_scc_maximal : forall G (S T : val -> Prop), bottom_scc G S ->
  strongly_connected G T -> (exists a, S a /\ T a) -> forall b, T b -> S b.
Proof. exact bottom_scc_maximal. Qed.
Print Assumptions C12b_bottom_scc_maximal.

(** the formula holds exactly on the union of the bottom SCCs *)
Theorem C12b_bottom_scc_members_satisfy :
  forall (G : genv) (names : list str) (U : tt), wf_env G names U ->
  forall (Gamma : str -> val -> Prop) (S : val -> Prop) x e v, var_of G x = Some e -> e < g_k G ->
    bottom_scc G S -> S v ->
    sat G names Gamma (Hybrid Bind x None (Unary AG (Unary EF (Terminal (AVar x))))) v.
Proof. intros G names U WF Gamma S x e v Ev _. exact (bottom_scc_sat G (wf_upd_extras _ _ _ WF) names Gamma S x e v Ev). Qed.
Print Assumptions C12b_bottom_scc_members_satisfy.

Theorem C12b_satisfying_lie_in_bottom_scc :
  forall (G : genv) (names : list str) (U : tt), wf_env G names U ->
  forall (Gamma : str -> val -> Prop) x e v, var_of G x = Some e -> e < g_k G ->
    sat G names Gamma (Hybrid Bind x None (Unary AG (Unary EF (Terminal (AVar x))))) v ->
    bottom_scc G (reach G v) /\ reach G v v.
Proof. intros G names U WF Gamma x e v Ev _. exact (sat_bottom_scc G (wf_upd_extras _ _ _ WF) names Gamma x e v Ev). Qed.
Print Assumptions C12b_satisfying_lie_in_bottom_scc.

(** !{x}: AX {x}  =  "no variable is enabled" (deadlock; the only successor is the
    self-loop) *)
Theorem C12b_steady_is_fixed_point :
  forall (G : genv) (names : list str) (U : tt), wf_env G names U ->
  forall (Gamma : str -> val -> Prop) x e v, var_of G x = Some e -> e < g_k G ->
    (sat G names Gamma (Hybrid Bind x None (Unary AX (Terminal (AVar x)))) v <->
     (forall i, i < g_n G -> enabled G i v = false)).
Proof. intros G names U WF Gamma x e v Ev _. exact (steady_formula_vsteady G (wf_upd_extras _ _ _ WF) names Gamma x e v Ev). Qed.
Print Assumptions C12b_steady_is_fixed_point.

Theorem C12b_vsteady_def : forall G v, vsteady G v <-> (forall i, i < g_n G -> enabled G i v = false).
Proof. exact (fun G v => iff_refl _). Qed.
Print Assumptions C12b_vsteady_def.

Theorem C12b_steady_no_move : forall G v, vsteady G v <-> forall w, ~ move G v w.
Proof. exact vsteady_no_move. Qed.
Print Assumptions C12b_steady_no_move.

Theorem C12b_steady_only_self_loop : forall G v, vsteady G v <-> forall w, step G v w -> veq w v.
Proof. exact vsteady_only_loop. Qed.
Print Assumptions C12b_steady_only_self_loop.

(** steady states are one-element bottom SCCs *)
Theorem C12b_steady_subset_attractor :
  forall (G : genv) (names : list str) (U : tt), wf_env G names U ->
  forall (Gamma : str -> val -> Prop) x e v, var_of G x = Some e -> e < g_k G ->
    sat G names Gamma (Hybrid Bind x None (Unary AX (Terminal (AVar x)))) v ->
    sat G names Gamma (Hybrid Bind x None (Unary AG (Unary EF (Terminal (AVar x))))) v.
Proof. intros G names U WF Gamma x e v Ev _. exact (steady_formula_implies_attractor_formula G (wf_upd_extras _ _ _ WF) names Gamma x e v Ev). Qed.
Print Assumptions C12b_steady_subset_attractor.

Theorem C12b_steady_is_terminal : forall G v, vsteady G v -> terminal G v.
Proof. exact vsteady_terminal. Qed.
Print Assumptions C12b_steady_is_terminal.

(** steady = no valuation other than itself is reachable *)
Theorem C12b_only_self_reachable_iff_steady : forall G v,
  vsteady G v <-> forall w, reach G v w -> veq v w.
Proof. exact vsteady_iff_reach_self. Qed.
Print Assumptions C12b_only_self_reachable_iff_steady.

(** the unit only constrains the colour, so it is closed under [reach] *)
Theorem C12b_unit_closed : forall G names U, wf_env G names U ->
  forall v w, reach G v w -> mem (g_L G) U w = mem (g_L G) U v.
Proof. exact unit_closed_reach. Qed.
Print Assumptions C12b_unit_closed.

(** what the model of compute_attractor_states returns: the valuations of the unit that lie
    in a terminal SCC; and it always returns *)
Theorem C12b_attractors_are_bottom_sccs :
  forall (G : genv) (names : list str) (U : tt), wf_env G names U ->
  forall e R, e < g_k G -> attractors G U e = Ok R ->
  forall v, mem (g_L G) R v = true <->
            (mem (g_L G) U v = true /\ forall w, reach G v w -> reach G w v).
Proof. exact attractors_terminal. Qed.
Print Assumptions C12b_attractors_are_bottom_sccs.

Theorem C12b_attractors_total :
  forall (G : genv) (names : list str) (U : tt), wf_env G names U ->
  forall e, exists R, attractors G U e = Ok R.
Proof. exact attractors_total. Qed.
Print Assumptions C12b_attractors_total.

(** the precomputed steady-state set: the valuations of the unit without an enabled update *)
Theorem C12b_steady_of_is_deadlocks :
  forall (G : genv) (names : list str) (U : tt), wf_env G names U ->
  forall v, mem (g_L G) (steady_of G U) v = true <->
            (mem (g_L G) U v = true /\ forall i, i < g_n G -> enabled G i v = false).
Proof.
  intros G names U WF v.
  exact (OpsFacts.mem_steady_of G (wf_nodup _ _ _ WF) (wf_upd_shaped _ _ _ WF) (wf_TS_in _ _ _ WF) U v (wf_U_shaped _ _ _ WF)).
Qed.
Print Assumptions C12b_steady_of_is_deadlocks.

(** through [eval_node], whatever the pattern switch *)
Theorem C12b_eval_node_attractor :
  forall (G : genv) (names : list str) (U : tt), wf_env G names U ->
  forall sw x e c R c', var_of G x = Some e -> duplicates c = [] ->
  eval_node G names sw (steady_of G U)
    (Hybrid Bind x None (Unary AG (Unary EF (Terminal (AVar x))))) U c = Ok (R, c') ->
  forall v, mem (g_L G) R v = true <->
            (mem (g_L G) U v = true /\ forall w, reach G v w -> reach G w v).
Proof. exact eval_node_attractor_terminal. Qed.
Print Assumptions C12b_eval_node_attractor.

Theorem C12b_eval_node_steady :
  forall (G : genv) (names : list str) (U : tt), wf_env G names U ->
  forall sw x e c R c', var_of G x = Some e -> duplicates c = [] ->
  eval_node G names sw (steady_of G U)
    (Hybrid Bind x None (Unary AX (Terminal (AVar x)))) U c = Ok (R, c') ->
  forall v, mem (g_L G) R v = true <->
            (mem (g_L G) U v = true /\ forall i, i < g_n G -> enabled G i v = false).
Proof. exact eval_node_steady_vsteady. Qed.
Print Assumptions C12b_eval_node_steady.

(** the hypotheses are satisfiable *)
Example C12b_wf_instance :
  wf_env (mk_genv 1 2 1 [const (Lpn 1 2) true; lit (Lpn 1 2) (TS 0)]) [[97%N]; [98%N]]
         (expand not_extra (mk_layout 1 2 1) (const (Lpn 1 2) true)) /\
  var_of (mk_genv 1 2 1 [const (Lpn 1 2) true; lit (Lpn 1 2) (TS 0)]) [120%N] = Some 0 /\
  0 < g_k (mk_genv 1 2 1 [const (Lpn 1 2) true; lit (Lpn 1 2) (TS 0)]).
Proof. exact (conj wf_instance (conj eq_refl (le_n 1))). Qed.
Print Assumptions C12b_wf_instance.

(** non-vacuity: the network  a = !a, b = false  (no parameter, one spare copy).
    (0,0) <-> (1,0) is a bottom SCC with exactly two members; (0,1) is transient: it is in the
    unit, reaches (0,0) and cannot be reached back; [attractors] reports the former and not
    the latter. *)
Example C12b_example_wf : wf_env ex_G ex_names ex_U.
Proof. exact ex_wf. Qed.
Print Assumptions C12b_example_wf.

Example C12b_example :
  exists R, attractors ex_G ex_U 0 = Ok R /\
    mem (g_L ex_G) R s00 = true /\ terminal ex_G s00 /\
    reach ex_G s00 s10 /\ reach ex_G s10 s00 /\ ~ veq s00 s10 /\
    (forall w, reach ex_G s00 w -> veq s00 w \/ veq s10 w) /\
    mem (g_L ex_G) ex_U s01 = true /\ mem (g_L ex_G) R s01 = false /\ ~ terminal ex_G s01 /\
    reach ex_G s01 s00 /\ ~ reach ex_G s00 s01.
Proof. exact ex_bottom_and_transient. Qed.
Print Assumptions C12b_example.
