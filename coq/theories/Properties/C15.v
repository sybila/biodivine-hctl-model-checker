(** C15 -- sanitised results equal the raw ones and do not depend on the number of spare
    copies.  The proofs are in Proofs/IndepFacts.v. *)
From HCTL Require Import Base Syntax TT Ops Eval Pipeline Kripke HCTL.
From HCTL Require Import EvalPure Main LayoutFacts IndepFacts.

(** [restrict]: a well-shaped set that does not depend on the dropped levels projects onto the
    kept levels, and the projection has the same members *)
Theorem C15_restrict_indep :
  forall (keep : tag -> bool) (L : layout) (t : tt), NoDup L -> shaped L t ->
  (forall v w, (forall g, keep g = true -> v g = w g) -> mem L t v = mem L t w) ->
  exists s, restrict keep L t = Some s /\ shaped (filter keep L) s /\
            forall v, mem (filter keep L) s v = mem L t v.
Proof. exact restrict_indep_Some. Qed.

(** conversely, a successful projection has the same members as the original, which
    therefore does not depend on the dropped levels *)
Theorem C15_restrict_Some :
  forall (keep : tag -> bool) (L : layout) (t s : tt), restrict keep L t = Some s ->
  (forall v, mem (filter keep L) s v = mem L t v) /\
  (forall v w, (forall g, keep g = true -> v g = w g) -> mem L t v = mem L t w).
Proof. intros; split; [eapply restrict_mem | eapply restrict_Some_indep]; eauto. Qed.

(** sanitising the result of a closed formula never panics and returns the same set *)
Theorem C15_sanitize_eq_raw :
  forall (G : genv) (names : list str) (U : tt), wf_env G names U ->
  forall (sw : switches) (t : tree) (R : tt),
    plainf t -> supported G t -> closed_copies G t ->
    peval G names sw (steady_of G U) t U = Ok R ->
    exists S, sanitize G R = Ok S /\ shaped (filter not_extra (g_L G)) S /\
              forall v, mem (filter not_extra (g_L G)) S v = mem (g_L G) R v.
Proof. exact sanitize_eq_raw. Qed.

(** whenever [sanitize] succeeds, the sanitised set has the members of the raw one *)
Theorem C15_sanitize_Ok :
  forall (G : genv) (R S : tt), sanitize G R = Ok S ->
  (forall v, mem (filter not_extra (g_L G)) S v = mem (g_L G) R v) /\
  (forall v w, (forall g, not_extra g = true -> v g = w g) -> mem (g_L G) R v = mem (g_L G) R w).
Proof. exact sanitize_Ok_indep. Qed.

(** the meaning of a formula whose variables fit into both graphs does not depend on k *)
Theorem C15_sat_k_independent :
  forall (p n k k' : nat) (upd_pn : list tt) (names : list str),
  List.Forall (shaped (Lpn p n)) upd_pn ->
  forall (Gamma : str -> val -> Prop) (t : tree) (v : val),
  (forall l v w, (forall j, v (TP j) = w (TP j)) -> (forall i, v (TS i) = w (TS i)) ->
     (Gamma l v <-> Gamma l w)) ->
  supported (mk_genv p n k upd_pn) t -> supported (mk_genv p n k' upd_pn) t ->
  (sat (mk_genv p n k upd_pn) names Gamma t v <-> sat (mk_genv p n k' upd_pn) names Gamma t v).
Proof.
  intros p n k k' upd_pn names Hu Gamma t v HG Hs Hs'.
  apply (sat_k_independent p n k k' upd_pn names Hu Gamma (fun _ => True)); try assumption.
  - apply copies_ok_top. intro e. exact I.
  - split; [reflexivity|]. split; reflexivity.
Qed.

(** two numbers k, k' of spare copies: for a closed plain formula supported in both graphs
    both sanitised results exist, they are the same tree over the canonical layout
    [Lpn p n] (parameters ++ states), and this tree is the set of (colour, state) pairs of
    the unit that satisfy the formula *)
Theorem C15_k_independent :
  forall (p n k k' : nat) (upd_pn : list tt) (unit_pn : tt) (names : list str),
  List.Forall (shaped (Lpn p n)) upd_pn ->
  shaped (Lpn p n) unit_pn ->
  (forall v w, (forall j, v (TP j) = w (TP j)) -> mem (Lpn p n) unit_pn v = mem (Lpn p n) unit_pn w) ->
  length names <= n ->
  forall (sw sw' : switches) (t : tree) (R R' : tt),
  let G := mk_genv p n k upd_pn in
  let G' := mk_genv p n k' upd_pn in
  let U := expand not_extra (mk_layout p n k) unit_pn in
  let U' := expand not_extra (mk_layout p n k') unit_pn in
  plainf t -> supported G t -> supported G' t -> closed_copies G t ->
  peval G names sw (steady_of G U) t U = Ok R ->
  peval G' names sw' (steady_of G' U') t U' = Ok R' ->
  exists S, sanitize G R = Ok S /\ sanitize G' R' = Ok S /\ shaped (Lpn p n) S /\
    forall (Gamma : str -> val -> Prop) v, mem (Lpn p n) S v = true <->
      (mem (Lpn p n) unit_pn v = true /\ sat G names Gamma t v).
Proof. exact k_independent. Qed.

(** the equational form *)
Theorem C15_k_independent_eq :
  forall (p n k k' : nat) (upd_pn : list tt) (unit_pn : tt) (names : list str),
  List.Forall (shaped (Lpn p n)) upd_pn ->
  shaped (Lpn p n) unit_pn ->
  (forall v w, (forall j, v (TP j) = w (TP j)) -> mem (Lpn p n) unit_pn v = mem (Lpn p n) unit_pn w) ->
  length names <= n ->
  forall (sw sw' : switches) (t : tree) (R R' S S' : tt),
  let G := mk_genv p n k upd_pn in
  let G' := mk_genv p n k' upd_pn in
  let U := expand not_extra (mk_layout p n k) unit_pn in
  let U' := expand not_extra (mk_layout p n k') unit_pn in
  plainf t -> supported G t -> supported G' t -> closed_copies G t ->
  peval G names sw (steady_of G U) t U = Ok R ->
  peval G' names sw' (steady_of G' U') t U' = Ok R' ->
  sanitize G R = Ok S -> sanitize G' R' = Ok S' -> S = S'.
Proof.
  intros p n k k' upd_pn unit_pn names Hu Hun Hc Hn sw sw' t R R' S S' G G' U U'
         Hpl Hs Hs' Hcl H H' E E'.
  destruct (k_independent p n k k' upd_pn unit_pn names Hu Hun Hc Hn sw sw' t R R'
              Hpl Hs Hs' Hcl H H') as [S0 [E0 [E0' _]]].
  subst G G'. congruence.
Qed.

Print Assumptions C15_restrict_indep.
Print Assumptions C15_restrict_Some.
Print Assumptions C15_sanitize_eq_raw.
Print Assumptions C15_sanitize_Ok.
Print Assumptions C15_sat_k_independent.
Print Assumptions C15_k_independent.
Print Assumptions C15_k_independent_eq.
