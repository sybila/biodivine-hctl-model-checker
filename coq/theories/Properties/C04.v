(** C04 -- sub-formula caching and batch evaluation are observationally transparent: the case
    of an evaluation context that marks no duplicates ([mark_duplicates] found none, or the
    caller asked for none).  Then the cache is neither consulted nor filled: [eval_node] is the
    cache-free evaluator [peval], for every self-loop set, every unit and every plain formula,
    with no side condition on names or on the graph, and a batch is evaluated formula by
    formula.  With duplicates marked and the cache in use: C04b.v (plain formulae, standard
    self-loop set), C04c.v (any self-loop set; wild-cards and variable domains). *)
From HCTL Require Import Base Syntax MarkDup TT Ops Eval Pipeline Kripke HCTL.
From HCTL Require Import EvalPure LayoutFacts.

Theorem C04_transparent_without_duplicates_partial :
  forall (w : world) (k : nat) sw steady ts c rs,
    List.Forall plainf ts -> duplicates c = [] ->
    eval_all (genv_of w k) (w_names w) sw steady (unit_of w k) ts c = Ok rs ->
    List.Forall2 (fun t R => peval (genv_of w k) (w_names w) sw steady t (unit_of w k) = Ok R) ts rs.
Proof. exact eval_all_nodup. Qed.
Print Assumptions C04_transparent_without_duplicates_partial.

(** a single formula evaluated alone: [eval_node] is [peval], and the context still marks no
    duplicates *)
Theorem C04_single_is_peval_partial :
  forall G names sw steady t U c, plainf t -> duplicates c = [] ->
    exists c', duplicates c' = [] /\
      eval_node G names sw steady t U c = bind (peval G names sw steady t U) (fun r => Ok (r, c')).
Proof. exact eval_node_nodup. Qed.
Print Assumptions C04_single_is_peval_partial.
