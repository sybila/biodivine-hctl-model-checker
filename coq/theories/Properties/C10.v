(** C10 -- pre-computed results can be substituted for (closed) sub-formulae.
    The proofs live in theories/Proofs/SubstFacts.v; the corollaries are derived here.

    Vocabulary (SubstFacts.v):
    - [subst_closed psi w t]: every occurrence of the sub-tree [psi] in [t] is replaced by the
      wild-card proposition [Terminal (AWild w)]; occurrences are recognised with [tree_eqb]
      of Model/Syntax.v, which decides equality of trees (C10_tree_eqb_reflects).
    - [fresh_label w t]: [w] is no label of [t], neither of a wild-card proposition nor of a
      quantifier domain.  [fresh_outside psi w t] is the weaker condition that is really
      needed: [w] is no label of [t] OUTSIDE the occurrences of [psi]
      (C10_fresh_label_outside).
    - [ctx_with Gamma w P]: the context [Gamma] with label [w] re-bound to the predicate [P].
    - [subst_list], [ctx_list], [ctx_all], [fresh_list]: several replacements.
    - [subterm psi t]: [psi] occurs in [t].

    Findings worth knowing:
    - Neither the semantic step nor the evaluator step needs [psi] to be closed: [sat] reads a
      wild-card at the current valuation, spare copies included, so the raw result of an open
      sub-formula (evaluated on the top-level unit) can stand for it as well.  Closedness is
      what makes the raw result independent of the spare copies inside the unit
      (C10_closed_result_ignores_copies) and therefore what makes its SANITISED form exist
      (C10_closed_sanitize_defined); handing back the lifted sanitised set is covered by
      C10_substitute_sanitized / C10_substitute_closed_sanitized.
    - The raw result [Rpsi] is exact inside the unit only (outside it is arbitrary: wild-card
      sets are not intersected with the unit), so it does NOT satisfy [wild_sets_ok] for the
      context "[w] means [psi]".  The proofs bind [w] to "membership in the given set" and
      show that the two contexts give every formula the same meaning at the valuations of
      the unit, which is closed under everything [sat] moves along
      (C10_substitute_sat_unit).  Accordingly the conclusions are equalities of membership
      INSIDE the unit.
    - The label [w] may even occur as a domain label in the domain map handed to the
      evaluator, as long as the formula does not use it (C10_substitute_eval_gen). *)
From HCTL Require Import Base Syntax Canon MarkDup TT Ops Eval Pipeline Kripke HCTL.
From HCTL Require Import TTFacts EvalPure Main LayoutFacts IndepFacts.
From HCTL Require Import ExtSem ExtFacts ExtEval ExtLink SubstFacts.

Theorem C10_tree_eqb_reflects : forall a b : tree, tree_eqb a b = true <-> a = b.
Proof. exact BaseFacts.tree_eqb_eq. Qed.

(** the substitution, spelled out *)
Theorem C10_subst_closed_unfold :
  forall (psi : tree) (w : str) (t : tree),
    subst_closed psi w t =
    if tree_eqb psi t then Terminal (AWild w)
    else match t with
         | Terminal a => Terminal a
         | Unary o a => Unary o (subst_closed psi w a)
         | Binary o a b => Binary o (subst_closed psi w a) (subst_closed psi w b)
         | Hybrid o x d a => Hybrid o x d (subst_closed psi w a)
         end.
Proof. intros psi w t; destruct t; reflexivity. Qed.

Theorem C10_subst_closed_self :
  forall (psi : tree) (w : str), subst_closed psi w psi = Terminal (AWild w).
Proof. exact subst_closed_self. Qed.

Theorem C10_subst_closed_absent :
  forall (psi : tree) (w : str) (t : tree), ~ subterm psi t -> subst_closed psi w t = t.
Proof. exact subst_closed_absent. Qed.

Theorem C10_fresh_label_outside :
  forall (psi : tree) (w : str) (t : tree), fresh_label w t -> fresh_outside psi w t.
Proof. exact fresh_label_outside. Qed.

(** if [w] means [psi], replacing [psi] by [%w%] changes nothing, at any valuation *)
Theorem C10_substitute_sat :
  forall (G : genv) (names : list str) (Gamma : str -> val -> Prop)
         (psi : tree) (w : str) (t : tree),
    fresh_label w t ->
    forall v : val,
      sat G names (ctx_with Gamma w (sat G names Gamma psi)) (subst_closed psi w t) v <->
      sat G names Gamma t v.
Proof. intros G names Gamma psi w t Hf. apply substitute_sat, fresh_label_outside, Hf. Qed.

(** the same under the weaker freshness condition *)
Theorem C10_substitute_sat_outside :
  forall (G : genv) (names : list str) (Gamma : str -> val -> Prop)
         (psi : tree) (w : str) (t : tree),
    fresh_outside psi w t ->
    forall v : val,
      sat G names (ctx_with Gamma w (sat G names Gamma psi)) (subst_closed psi w t) v <->
      sat G names Gamma t v.
Proof. exact substitute_sat. Qed.

(** relative to the unit: the new context need only be right at the valuations of the unit *)
Theorem C10_substitute_sat_unit :
  forall (G : genv) (names : list str) (Utop : tt), wf_env G names Utop ->
  forall (Gamma Gamma2 : str -> val -> Prop) (psi : tree) (w : str) (t : tree),
    (forall (l : str) (v : val), l <> w -> mem (g_L G) Utop v = true ->
                                 (Gamma2 l v <-> Gamma l v)) ->
    (forall v : val, mem (g_L G) Utop v = true -> (Gamma2 w v <-> sat G names Gamma psi v)) ->
    fresh_outside psi w t ->
    forall v : val, mem (g_L G) Utop v = true ->
      (sat G names Gamma2 (subst_closed psi w t) v <-> sat G names Gamma t v).
Proof. exact subst_sat_unit. Qed.

(** contexts that agree on the labels of a formula give it the same meaning *)
Theorem C10_sat_ctx_agree :
  forall (G : genv) (names : list str) (Gamma Gamma2 : str -> val -> Prop)
         (Lab : str -> Prop) (t : tree),
    (forall (l : str) (v : val), Lab l -> (Gamma2 l v <-> Gamma l v)) ->
    labels_ok Lab t ->
    forall v : val, sat G names Gamma2 t v <-> sat G names Gamma t v.
Proof. exact sat_ctx_agree. Qed.

(** several replacements, one after the other ([ctx_list]: sub-formula i is read in the
    context of the replacements made before it) *)
Theorem C10_substitute_sat_list :
  forall (G : genv) (names : list str) (ps : list (tree * str))
         (Gamma : str -> val -> Prop) (t : tree),
    fresh_list ps t ->
    forall v : val,
      sat G names (ctx_list G names Gamma ps) (subst_list ps t) v <-> sat G names Gamma t v.
Proof. exact substitute_sat_list. Qed.

(** several simultaneous replacements: new, pairwise different labels that occur neither in
    [t] nor in the sub-formulae; label [w_i] means [psi_i] in the ORIGINAL context
    ([ctx_all]) *)
Theorem C10_substitute_sat_simultaneous :
  forall (G : genv) (names : list str) (ps : list (tree * str))
         (Gamma : str -> val -> Prop) (t : tree),
    NoDup (map snd ps) ->
    (forall q : tree * str, In q ps -> fresh_label (snd q) t) ->
    (forall q q' : tree * str, In q ps -> In q' ps -> fresh_label (snd q) (fst q')) ->
    forall v : val,
      sat G names (ctx_all G names Gamma ps) (subst_list ps t) v <-> sat G names Gamma t v.
Proof. exact substitute_sat_simultaneous. Qed.

(** C10 for the cache-free extended evaluator: under the hypotheses of C02_extended_correct,
    evaluating the substituted formula with [w] bound to the raw result of [psi] gives,
    inside the unit, the members of the result for [t].  ([psi] need not be closed.) *)
Theorem C10_substitute_eval :
  forall (G : genv) (names : list str) (Utop : tt), wf_env G names Utop ->
  forall (Gamma : str -> val -> Prop) (sw : switches) (wild doms : list (str * tt)),
    wild_sets_ok G Gamma wild -> dom_sets_ok G Gamma doms ->
  forall (psi : tree) (w : str) (t : tree) (Rpsi R R' : tt),
    scoped G [] t -> scoped G [] psi -> fresh_label w t ->
    peval_ext G names sw (steady_of G Utop) wild doms psi Utop = Ok Rpsi ->
    peval_ext G names sw (steady_of G Utop) wild doms t Utop = Ok R ->
    peval_ext G names sw (steady_of G Utop) ((w, Rpsi) :: wild) doms
              (subst_closed psi w t) Utop = Ok R' ->
    forall v : val, mem (g_L G) Utop v = true -> mem (g_L G) R' v = mem (g_L G) R v.
Proof.
  intros G names Utop WF Gamma sw wild doms Hw Hd psi w t Rpsi R R' Hsc Hsp Hf.
  apply (substitute_eval G names Utop WF Gamma sw wild doms Hw Hd); try assumption.
  apply fresh_label_outside, Hf.
Qed.

(** when [psi] occurs in [t] its scoping is inherited *)
Theorem C10_substitute_eval_subterm :
  forall (G : genv) (names : list str) (Utop : tt), wf_env G names Utop ->
  forall (Gamma : str -> val -> Prop) (sw : switches) (wild doms : list (str * tt)),
    wild_sets_ok G Gamma wild -> dom_sets_ok G Gamma doms ->
  forall (psi : tree) (w : str) (t : tree) (Rpsi R R' : tt),
    scoped G [] t -> subterm psi t -> fresh_outside psi w t ->
    peval_ext G names sw (steady_of G Utop) wild doms psi Utop = Ok Rpsi ->
    peval_ext G names sw (steady_of G Utop) wild doms t Utop = Ok R ->
    peval_ext G names sw (steady_of G Utop) ((w, Rpsi) :: wild) doms
              (subst_closed psi w t) Utop = Ok R' ->
    forall v : val, mem (g_L G) Utop v = true -> mem (g_L G) R' v = mem (g_L G) R v.
Proof.
  intros G names Utop WF Gamma sw wild doms Hw Hd psi w t Rpsi R R' Hsc Hsub.
  apply (substitute_eval G names Utop WF Gamma sw wild doms Hw Hd); [exact Hsc|].
  exact (scoped_subterm G psi t [] Hsc Hsub).
Qed.

(** a plain [psi] evaluated by the plain evaluator of C01 *)
Theorem C10_substitute_eval_plain :
  forall (G : genv) (names : list str) (Utop : tt), wf_env G names Utop ->
  forall (Gamma : str -> val -> Prop) (sw : switches) (wild doms : list (str * tt)),
    wild_sets_ok G Gamma wild -> dom_sets_ok G Gamma doms ->
  forall (psi : tree) (w : str) (t : tree) (Rpsi R R' : tt),
    scoped G [] t -> scoped G [] psi -> plainf psi -> fresh_outside psi w t ->
    peval G names sw (steady_of G Utop) psi Utop = Ok Rpsi ->
    peval_ext G names sw (steady_of G Utop) wild doms t Utop = Ok R ->
    peval_ext G names sw (steady_of G Utop) ((w, Rpsi) :: wild) doms
              (subst_closed psi w t) Utop = Ok R' ->
    forall v : val, mem (g_L G) Utop v = true -> mem (g_L G) R' v = mem (g_L G) R v.
Proof.
  intros G names Utop WF Gamma sw wild doms Hw Hd psi w t Rpsi R R' Hsc Hsp Hpl Hf HP.
  apply (substitute_eval G names Utop WF Gamma sw wild doms Hw Hd); try assumption.
  rewrite (peval_ext_plain G names sw (steady_of G Utop) wild doms psi Utop Hpl). exact HP.
Qed.

(** the general form: [w] bound to ANY set that inside the unit is the meaning of [psi]; the
    other labels bound as before (the domain map may even bind [w]: the substituted formula
    does not use it as a domain); the new result is a well-formed set *)
Theorem C10_substitute_eval_gen :
  forall (G : genv) (names : list str) (Utop : tt), wf_env G names Utop ->
  forall (Gamma : str -> val -> Prop) (sw : switches) (wild doms : list (str * tt)),
    wild_sets_ok G Gamma wild -> dom_sets_ok G Gamma doms ->
  forall (psi : tree) (w : str) (S : tt) (t : tree) (wild' doms' : list (str * tt))
         (R R' : tt),
    scoped G [] t -> fresh_outside psi w t ->
    shaped (g_L G) S ->
    (forall v : val, mem (g_L G) Utop v = true ->
                     (mem (g_L G) S v = true <-> sat G names Gamma psi v)) ->
    alookup str_eqb w wild' = Some S ->
    (forall l : str, l <> w -> alookup str_eqb l wild' = alookup str_eqb l wild) ->
    (forall l : str, l <> w -> alookup str_eqb l doms' = alookup str_eqb l doms) ->
    peval_ext G names sw (steady_of G Utop) wild doms t Utop = Ok R ->
    peval_ext G names sw (steady_of G Utop) wild' doms' (subst_closed psi w t) Utop = Ok R' ->
    shaped (g_L G) R' /\
    forall v : val, mem (g_L G) Utop v = true -> mem (g_L G) R' v = mem (g_L G) R v.
Proof. exact substitute_eval_gen. Qed.

(** the raw result of a closed (extended) formula does not read the spare copies inside the
    unit, when the context sets read colours and states only *)
Theorem C10_closed_result_ignores_copies :
  forall (G : genv) (names : list str) (Utop : tt), wf_env G names Utop ->
  forall (Gamma : str -> val -> Prop) (sw : switches) (wild doms : list (str * tt)),
    wild_sets_ok G Gamma wild -> dom_sets_ok G Gamma doms ->
  forall (psi : tree) (Rpsi : tt),
    (forall (l : str) (v w : val),
        (forall j : nat, v (TP j) = w (TP j)) -> (forall i : nat, v (TS i) = w (TS i)) ->
        (Gamma l v <-> Gamma l w)) ->
    scoped G [] psi -> closed_copies G psi ->
    peval_ext G names sw (steady_of G Utop) wild doms psi Utop = Ok Rpsi ->
    forall v w : val, mem (g_L G) Utop v = true ->
      (forall j : nat, v (TP j) = w (TP j)) -> (forall i : nat, v (TS i) = w (TS i)) ->
      mem (g_L G) Rpsi v = mem (g_L G) Rpsi w.
Proof. exact closed_result_ignores_copies. Qed.

(** the raw result of a closed plain formula can be sanitised *)
Theorem C10_closed_sanitize_defined :
  forall (G : genv) (names : list str) (Utop : tt), wf_env G names Utop ->
  forall (sw : switches) (psi : tree) (Rpsi : tt),
    plainf psi -> supported G psi -> closed_copies G psi ->
    peval G names sw (steady_of G Utop) psi Utop = Ok Rpsi ->
    exists S0 : tt, sanitize G Rpsi = Ok S0.
Proof. exact closed_sanitize_defined. Qed.

(** whenever the raw result can be sanitised, the sanitised set lifted back to the layout
    with spare copies ([Pipeline.lift] is [expand not_extra] of the layout) can stand for
    the sub-formula *)
Theorem C10_substitute_sanitized :
  forall (G : genv) (names : list str) (Utop : tt), wf_env G names Utop ->
  forall (Gamma : str -> val -> Prop) (sw : switches) (wild doms : list (str * tt)),
    wild_sets_ok G Gamma wild -> dom_sets_ok G Gamma doms ->
  forall (psi : tree) (w : str) (t : tree) (Rpsi S0 R R' : tt),
    scoped G [] t -> plainf psi -> supported G psi -> fresh_outside psi w t ->
    peval G names sw (steady_of G Utop) psi Utop = Ok Rpsi ->
    sanitize G Rpsi = Ok S0 ->
    peval_ext G names sw (steady_of G Utop) wild doms t Utop = Ok R ->
    peval_ext G names sw (steady_of G Utop) ((w, expand not_extra (g_L G) S0) :: wild) doms
              (subst_closed psi w t) Utop = Ok R' ->
    forall v : val, mem (g_L G) Utop v = true -> mem (g_L G) R' v = mem (g_L G) R v.
Proof. exact substitute_sanitized. Qed.

(** both together: closed plain sub-formula, sanitised pre-computed result *)
Theorem C10_substitute_closed_sanitized :
  forall (G : genv) (names : list str) (Utop : tt), wf_env G names Utop ->
  forall (Gamma : str -> val -> Prop) (sw : switches) (wild doms : list (str * tt))
         (psi : tree) (w : str) (t : tree) (Rpsi R : tt),
    wild_sets_ok G Gamma wild -> dom_sets_ok G Gamma doms ->
    scoped G [] t -> plainf psi -> supported G psi -> closed_copies G psi ->
    fresh_outside psi w t ->
    peval G names sw (steady_of G Utop) psi Utop = Ok Rpsi ->
    peval_ext G names sw (steady_of G Utop) wild doms t Utop = Ok R ->
    exists S0 : tt, sanitize G Rpsi = Ok S0 /\
      forall R' : tt,
        peval_ext G names sw (steady_of G Utop) ((w, expand not_extra (g_L G) S0) :: wild) doms
                  (subst_closed psi w t) Utop = Ok R' ->
        forall v : val, mem (g_L G) Utop v = true -> mem (g_L G) R' v = mem (g_L G) R v.
Proof.
  intros G names Utop WF Gamma sw wild doms psi w t Rpsi R Hw Hd Hsc Hpl Hsup Hcl Hf HP HR.
  destruct (closed_sanitize_defined G names Utop WF sw psi Rpsi Hpl Hsup Hcl HP) as [S0 HS].
  exists S0. split; [exact HS|]. intros R' HR'.
  exact (substitute_sanitized G names Utop WF Gamma sw wild doms Hw Hd psi w t Rpsi S0 R R'
           Hsc Hpl Hsup Hf HP HS HR HR').
Qed.

(** [eval_node], driven as the extended entry points drive it (no sub-formula marked as
    duplicate): the set for [w] is appended to the wild-card sets *)

Theorem C10_substitute_eval_node :
  forall (G : genv) (names : list str) (Utop : tt), wf_env G names Utop ->
  forall (Gamma : str -> val -> Prop) (sw : switches) (wprops dprops : list (str * tt)),
    (forall (l : str) (s : tt), In (l, s) wprops ->
       shaped (g_L G) s /\ forall v : val, mem (g_L G) s v = true <-> Gamma l v) ->
    (forall (l : str) (s : tt), In (l, s) dprops ->
       shaped (g_L G) s /\ extras_indep G s /\
       forall v : val, mem (g_L G) s v = true <-> Gamma l v) ->
  forall (psi : tree) (w : str) (S : tt) (t : tree) (R R' : tt) (c1 c2 : ectx),
    scoped G [] t -> linkable t -> linkable (Terminal (AWild w)) -> fresh_outside psi w t ->
    shaped (g_L G) S ->
    (forall v : val, mem (g_L G) Utop v = true ->
                     (mem (g_L G) S v = true <-> sat G names Gamma psi v)) ->
    eval_node G names sw (steady_of G Utop) t Utop
              (extend_context wprops dprops (ctx_new [])) = Ok (R, c1) ->
    eval_node G names sw (steady_of G Utop) (subst_closed psi w t) Utop
              (extend_context (wprops ++ [(w, S)]) dprops (ctx_new [])) = Ok (R', c2) ->
    forall v : val, mem (g_L G) Utop v = true -> mem (g_L G) R' v = mem (g_L G) R v.
Proof. exact substitute_eval_node. Qed.

(** ... with the set computed by [eval_node] itself on [psi] *)
Theorem C10_substitute_eval_node_result :
  forall (G : genv) (names : list str) (Utop : tt), wf_env G names Utop ->
  forall (Gamma : str -> val -> Prop) (sw : switches) (wprops dprops : list (str * tt)),
    (forall (l : str) (s : tt), In (l, s) wprops ->
       shaped (g_L G) s /\ forall v : val, mem (g_L G) s v = true <-> Gamma l v) ->
    (forall (l : str) (s : tt), In (l, s) dprops ->
       shaped (g_L G) s /\ extras_indep G s /\
       forall v : val, mem (g_L G) s v = true <-> Gamma l v) ->
  forall (psi : tree) (w : str) (t : tree) (Rpsi R R' : tt) (c0 c1 c2 : ectx),
    scoped G [] t -> scoped G [] psi -> linkable t -> linkable psi ->
    linkable (Terminal (AWild w)) -> fresh_outside psi w t ->
    eval_node G names sw (steady_of G Utop) psi Utop
              (extend_context wprops dprops (ctx_new [])) = Ok (Rpsi, c0) ->
    eval_node G names sw (steady_of G Utop) t Utop
              (extend_context wprops dprops (ctx_new [])) = Ok (R, c1) ->
    eval_node G names sw (steady_of G Utop) (subst_closed psi w t) Utop
              (extend_context (wprops ++ [(w, Rpsi)]) dprops (ctx_new [])) = Ok (R', c2) ->
    forall v : val, mem (g_L G) Utop v = true -> mem (g_L G) R' v = mem (g_L G) R v.
Proof.
  intros G names Utop WF Gamma sw wprops dprops Hwp Hdp psi w t Rpsi R R' c0 c1 c2
         Hsc Hsp Hl Hlp Hlw Hf HP HR HR'.
  destruct (eval_node_ext_correct G names Utop WF Gamma sw wprops dprops Hwp Hdp
              psi Rpsi c0 Hsp Hlp HP) as [SP EP].
  exact (substitute_eval_node G names Utop WF Gamma sw wprops dprops Hwp Hdp
           psi w Rpsi t R R' c1 c2 Hsc Hl Hlw Hf SP EP HR HR').
Qed.

(** the side conditions survive the substitution *)
Theorem C10_scoped_subst :
  forall (G : genv) (psi : tree) (w : str) (t : tree) (bound : list nat),
    scoped G bound t -> scoped G bound (subst_closed psi w t).
Proof. exact scoped_subst. Qed.

Theorem C10_scoped_subterm :
  forall (G : genv) (psi t : tree) (bound : list nat),
    scoped G bound t -> subterm psi t -> scoped G [] psi.
Proof. exact scoped_subterm. Qed.

Theorem C10_linkable_subst :
  forall (psi : tree) (w : str), linkable (Terminal (AWild w)) ->
  forall t : tree, linkable t -> linkable (subst_closed psi w t).
Proof. exact linkable_subst. Qed.

(** empty contexts: the extended entry points are the plain ones *)

(** the evaluator *)
Theorem C10_empty_context :
  forall (G : genv) (names : list str) (sw : switches) (steady : tt) (t : tree) (U : tt),
    plainf t ->
    peval_ext G names sw steady [] [] t U = peval G names sw steady t U.
Proof. intros G names sw steady t U. apply peval_ext_plain. Qed.

(** extending a context by nothing *)
Theorem C10_extend_context_nil : forall c : ectx, extend_context [] [] c = c.
Proof. exact extend_context_nil. Qed.

(** [check_trees] with empty contexts does not depend on the [m_ext] switch: any trees, with
    or without cache *)
Theorem C10_check_trees_empty_context :
  forall (w : world) (k : nat) (m m' : mode) (ts : list tree),
    m_sanitize m = m_sanitize m' -> m_unsafe_ex m = m_unsafe_ex m' ->
    m_nocache m = m_nocache m' -> m_nopatterns m = m_nopatterns m' ->
    check_trees w k m ts [] [] = check_trees w k m' ts [] [].
Proof. exact check_trees_empty_context. Qed.

Theorem C10_check_trees_ext_switch :
  forall (w : world) (k : nat) (s u nc np : bool) (ts : list tree),
    check_trees w k {| m_ext := true; m_sanitize := s; m_unsafe_ex := u;
                       m_nocache := nc; m_nopatterns := np |} ts [] [] =
    check_trees w k {| m_ext := false; m_sanitize := s; m_unsafe_ex := u;
                       m_nocache := nc; m_nopatterns := np |} ts [] [].
Proof. intros. apply check_trees_empty_context; reflexivity. Qed.

(** hence the extended entry point on plain trees (no-cache mode, dirty results) is correct
    as the plain one is *)
Theorem C10_check_trees_ext_empty_correct :
  forall (w : world) (k : nat),
    List.Forall (shaped (Lpn (w_p w) (w_n w))) (w_upd w) ->
    shaped (Lpn (w_p w) (w_n w)) (w_unit w) ->
    (forall v v' : val, (forall j : nat, v (TP j) = v' (TP j)) ->
       mem (Lpn (w_p w) (w_n w)) (w_unit w) v = mem (Lpn (w_p w) (w_n w)) (w_unit w) v') ->
    length (w_names w) <= w_n w ->
  forall (Gamma : str -> val -> Prop) (m : mode) (ts : list tree) (rs : list tt),
    m_ext m = true -> m_sanitize m = false -> m_unsafe_ex m = false -> m_nocache m = true ->
    List.Forall plainf ts -> List.Forall (supported (genv_of w k)) ts ->
    check_trees w k m ts [] [] = Ok rs ->
    List.Forall2
      (fun (t : tree) (R : tt) => forall v : val,
         mem (g_L (genv_of w k)) R v = true <->
         (mem (g_L (genv_of w k)) (unit_of w k) v = true /\
          sat (genv_of w k) (w_names w) Gamma t v))
      ts rs.
Proof. exact check_trees_ext_empty_correct. Qed.

Print Assumptions C10_tree_eqb_reflects.
Print Assumptions C10_subst_closed_unfold.
Print Assumptions C10_subst_closed_self.
Print Assumptions C10_subst_closed_absent.
Print Assumptions C10_fresh_label_outside.
Print Assumptions C10_substitute_sat.
Print Assumptions C10_substitute_sat_outside.
Print Assumptions C10_substitute_sat_unit.
Print Assumptions C10_sat_ctx_agree.
Print Assumptions C10_substitute_sat_list.
Print Assumptions C10_substitute_sat_simultaneous.
Print Assumptions C10_substitute_eval.
Print Assumptions C10_substitute_eval_subterm.
Print Assumptions C10_substitute_eval_plain.
Print Assumptions C10_substitute_eval_gen.
Print Assumptions C10_closed_result_ignores_copies.
Print Assumptions C10_closed_sanitize_defined.
Print Assumptions C10_substitute_sanitized.
Print Assumptions C10_substitute_closed_sanitized.
Print Assumptions C10_substitute_eval_node.
Print Assumptions C10_substitute_eval_node_result.
Print Assumptions C10_scoped_subst.
Print Assumptions C10_scoped_subterm.
Print Assumptions C10_linkable_subst.
Print Assumptions C10_empty_context.
Print Assumptions C10_extend_context_nil.
Print Assumptions C10_check_trees_empty_context.
Print Assumptions C10_check_trees_ext_switch.
Print Assumptions C10_check_trees_ext_empty_correct.
