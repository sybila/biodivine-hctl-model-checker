(** C07 -- preprocessing validates binding and renames variables without changing meaning.
    Statements and the last step of each proof; the lemmas are in Proofs/PrepFacts.v.

    Vocabulary (all defined in PrepFacts.v, independently of [prep] and of its map):
    - [well_scoped props scope t]: every variable occurrence and jump target of [t] is in
      [scope], a quantifier (bind / exists / forall) binds a name that is not in scope and
      adds it for its body, every proposition is in [props];
    - [db env t]: the de Bruijn normal form of [t] (binders carry no name, a bound occurrence
      is the number of quantifiers between it and its binder, a free one keeps its name);
    - [xs n]: the string of [n] characters 'x';
    - [rename scope t]: [t] with the quantifier at depth [d] named [xs (S d)] and with every
      occurrence / jump target named after the depth of its own binder ([rename_var],
      [binder_depth]);
    - [depth_named d t]: in [t], seen below [d] quantifiers, the quantifier at depth [d'] is
      named [xs (S d')] and every occurrence / jump target is the name of an enclosing one;
    - [qdepth t]: the maximal number of nested quantifiers of [t] (jumps do not count). *)
From HCTL Require Import Base Syntax Preprocess.
From HCTL Require Import PrepFacts.

(** ** preprocessing accepts exactly the well-scoped formulae *)

Theorem C07_accepts_iff_well_scoped :
  forall (props : list str) (t : tree),
    (exists t', preprocess props t = Ok t') <-> well_scoped props [] t.
Proof. exact preprocess_accepts_iff_well_scoped. Qed.

(** the same for the generalised function, under the invariant of the map: [ren] maps the
    names in scope (and only them) to the 'x'-string of their binder's depth, and the last
    used name is the one of the innermost binder *)
Theorem C07_prep_accepts_iff_well_scoped :
  forall (props : list str) (t t' : tree) (scope : list str) (ren : list (str * str)),
    (forall x, alookup str_eqb x ren
               = option_map (fun i => xs (length scope - i)) (index x scope)) ->
    (prep props ren (xs (length scope)) t = Ok t'
     <-> well_scoped props scope t /\ t' = rename scope t).
Proof. exact prep_ok_iff. Qed.

(** it never panics and never runs out of fuel: the only failures are error values *)
Theorem C07_no_panic :
  forall (props : list str) (t : tree),
    (forall p, preprocess props t <> Panic p) /\ preprocess props t <> OutOfFuel.
Proof. exact preprocess_no_panic. Qed.

Theorem C07_ok_or_err :
  forall (props : list str) (t : tree),
    (exists t', preprocess props t = Ok t') \/ (exists e, preprocess props t = Err e).
Proof. exact preprocess_ok_or_err. Qed.

Theorem C07_rejects_ill_scoped :
  forall (props : list str) (t : tree),
    ~ well_scoped props [] t -> exists e, preprocess props t = Err e.
Proof. exact preprocess_rejects_ill_scoped. Qed.

(** ** the result is alpha-equivalent to the input *)

Theorem C07_alpha :
  forall (props : list str) (t t' : tree),
    preprocess props t = Ok t' -> db [] t' = db [] t.
Proof. exact preprocess_alpha. Qed.

(** ** names are determined by the quantifier depth *)

Theorem C07_xs_is_repeat : forall n : nat, xs n = repeat_n n c_x.
Proof. reflexivity. Qed.

(** the binder at depth [d] is named by [d + 1] characters 'x', every occurrence and every
    jump names an enclosing binder, and the number of variables of the result is the maximal
    quantifier nesting depth of the input *)
Theorem C07_names_by_depth :
  forall (props : list str) (t t' : tree),
    preprocess props t = Ok t' ->
    t' = rename [] t /\ depth_named 0 t' /\ num_hctl_vars t' = qdepth t.
Proof. exact preprocess_names_by_depth. Qed.

(** "names its binder": [rename] gives an occurrence of [x] the name of the innermost
    enclosing quantifier that binds [x] -- the one at depth [k] counted from the outside *)
Theorem C07_occurrence_names_its_binder :
  forall (scope : list str) (x : str),
    In x scope ->
    exists k, binder_depth scope x = Some k /\ k < length scope
              /\ rename_var scope x = repeat_n (S k) c_x.
Proof. exact rename_var_binder_depth. Qed.

Theorem C07_binder_depth_spec :
  forall (scope : list str) (x : str) (k : nat),
    binder_depth scope x = Some k ->
    nth_error (rev scope) k = Some x
    /\ forall k', k < k' -> nth_error (rev scope) k' <> Some x.
Proof. exact binder_depth_spec. Qed.

(** ** preprocessing is idempotent *)

Theorem C07_idempotent :
  forall (props : list str) (t t' : tree),
    preprocess props t = Ok t' -> preprocess props t' = Ok t'.
Proof. exact preprocess_idempotent. Qed.

Print Assumptions C07_accepts_iff_well_scoped.
Print Assumptions C07_prep_accepts_iff_well_scoped.
Print Assumptions C07_no_panic.
Print Assumptions C07_ok_or_err.
Print Assumptions C07_rejects_ill_scoped.
Print Assumptions C07_alpha.
Print Assumptions C07_xs_is_repeat.
Print Assumptions C07_names_by_depth.
Print Assumptions C07_occurrence_names_its_binder.
Print Assumptions C07_binder_depth_spec.
Print Assumptions C07_idempotent.
