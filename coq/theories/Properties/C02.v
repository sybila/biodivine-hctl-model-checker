(** C02 -- wild-card propositions and restricted quantifier domains have the documented
    meaning (evaluator without cache).
    This file contains only statements; the proofs live in theories/Proofs/Ext*.v.

    Vocabulary:
    - [peval_ext G names sw steady wild doms t U] (ExtEval.v): the cache-free evaluator of
      extended formulae.  [AWild l] returns the set of label [l] in [wild] as it is (not
      intersected with the unit); [Hybrid o x (Some dl) a] looks up the domain set, computes
      [compute_valid_domain_for_var], restricts the unit, returns early when the restricted
      unit is empty, otherwise evaluates the body ON THE RESTRICTED UNIT and closes the scope
      with [eval_hybrid_quantifier] -- exactly as [eval_node] does; the steady-state set
      handed down stays that of the top-level unit.
    - [spec_in G Uc A P] (ExtFacts.v): [A] is a shaped set and, at the valuations of the
      current unit [Uc], membership in [A] is exactly [P] (outside: arbitrary).
    - [unit_ok G Utop bound Uc] (ExtEval.v): the current unit is shaped, independent of the
      state bits, a subset of the top-level unit, and independent of every spare copy not in
      [bound] (the copies of the enclosing quantifiers with a domain).
    - [scoped G bound t] (ExtEval.v): every variable of [t] has a spare copy and no quantifier
      re-uses the copy of an enclosing quantifier with a domain.  Preprocessed formulae that
      pass the variable-support check are [scoped G []] (C02_preprocessed_scoped).
    - [wild_sets_ok] / [dom_sets_ok]: the sets of the labels are shaped and denote the context
      predicates [Gamma l]; domain sets do not read the spare copies.  (Nothing else is
      required: in particular context sets need NOT be subsets of the unit.)
    - [linkable t] (ExtLink.v): proposition names do not start with '%', and wild-card labels
      are their own canonical text (true for labels without parentheses and braces,
      C02_plain_label_linkable). *)
From HCTL Require Import Base Syntax Canon MarkDup Preprocess TT Ops Eval Kripke HCTL.
From HCTL Require Import EvalPure Main ExtSem ExtFacts ExtEval ExtLink.

(** ** 1. The three equivalences of the README, as statements about [sat] *)

(** !{x} in %d%: a   ==   !{x}: (%d% & a) *)
Theorem C02_bind_domain_equiv :
  forall (G : genv) (names : list str) (Gamma : str -> val -> Prop),
    ctx_ignores_copies Gamma ->
    forall (x d : str) (a : tree) (v : val),
      sat G names Gamma (Hybrid Bind x (Some d) a) v <->
      sat G names Gamma (Hybrid Bind x None (Binary And (Terminal (AWild d)) a)) v.
Proof. exact bind_domain_equiv. Qed.

(** 3{x} in %d%: @{x}: a   ==   3{x}: @{x}: (%d% & a) *)
Theorem C02_exists_domain_equiv :
  forall (G : genv) (names : list str) (Gamma : str -> val -> Prop),
    ctx_ignores_copies Gamma ->
    forall (x d : str) (a : tree) (v : val),
      sat G names Gamma (Hybrid Exists x (Some d) (Hybrid Jump x None a)) v <->
      sat G names Gamma
        (Hybrid Exists x None (Hybrid Jump x None (Binary And (Terminal (AWild d)) a))) v.
Proof. exact exists_domain_equiv. Qed.

(** V{x} in %d%: @{x}: a   ==   V{x}: @{x}: (%d% => a) *)
Theorem C02_forall_domain_equiv :
  forall (G : genv) (names : list str) (Gamma : str -> val -> Prop),
    ctx_ignores_copies Gamma ->
    forall (x d : str) (a : tree) (v : val),
      sat G names Gamma (Hybrid Forall x (Some d) (Hybrid Jump x None a)) v <->
      sat G names Gamma
        (Hybrid Forall x None (Hybrid Jump x None (Binary Imp (Terminal (AWild d)) a))) v.
Proof. exact forall_domain_equiv. Qed.

(** ** 2. Empty domains, as statements about [sat]
    ([domain_empty_at Gamma d v]: no state of the colour of [v] is in the domain; other
    colours are irrelevant) *)

Theorem C02_exists_empty_domain_sat :
  forall (G : genv) (names : list str) (Gamma : str -> val -> Prop)
         (x d : str) (a : tree) (v : val),
    domain_empty_at Gamma d v -> ~ sat G names Gamma (Hybrid Exists x (Some d) a) v.
Proof. exact exists_empty_domain. Qed.

Theorem C02_forall_empty_domain_sat :
  forall (G : genv) (names : list str) (Gamma : str -> val -> Prop)
         (x d : str) (a : tree) (v : val),
    var_of G x <> None -> domain_empty_at Gamma d v ->
    sat G names Gamma (Hybrid Forall x (Some d) a) v.
Proof. exact forall_empty_domain. Qed.

Theorem C02_bind_empty_domain_sat :
  forall (G : genv) (names : list str) (Gamma : str -> val -> Prop),
    ctx_ignores_copies Gamma ->
    forall (x d : str) (a : tree) (v : val),
      domain_empty_at Gamma d v -> ~ sat G names Gamma (Hybrid Bind x (Some d) a) v.
Proof. exact bind_empty_domain. Qed.

(** ** 3. The main theorem: the cache-free extended evaluator computes [sat] on the unit *)

Theorem C02_extended_correct :
  forall (G : genv) (names : list str) (Utop : tt), wf_env G names Utop ->
  forall (Gamma : str -> val -> Prop) (sw : switches) (wild doms : list (str * tt)),
    wild_sets_ok G Gamma wild -> dom_sets_ok G Gamma doms ->
  forall (t : tree) (R : tt),
    scoped G [] t ->
    peval_ext G names sw (steady_of G Utop) wild doms t Utop = Ok R ->
    shaped (g_L G) R /\
    forall v, mem (g_L G) Utop v = true ->
              (mem (g_L G) R v = true <-> sat G names Gamma t v).
Proof. exact peval_ext_correct. Qed.

(** the invariant behind it: in every scope, with current unit [Uc] (the top-level unit
    restricted by the domains of the enclosing quantifiers), whatever the evaluator returns is
    exact at the valuations of [Uc] *)
Theorem C02_extended_correct_in_scope :
  forall (G : genv) (names : list str) (Utop : tt), wf_env G names Utop ->
  forall (Gamma : str -> val -> Prop) (sw : switches) (wild doms : list (str * tt)),
    wild_sets_ok G Gamma wild -> dom_sets_ok G Gamma doms ->
  forall (t : tree) (bound : list nat) (Uc R : tt),
    unit_ok G Utop bound Uc -> scoped G bound t ->
    peval_ext G names sw (steady_of G Utop) wild doms t Uc = Ok R ->
    spec_in G Uc R (sat G names Gamma t).
Proof. exact peval_ext_sound. Qed.

(** the same with the context given as one map of sets, [Gamma l v := mem (set of l) v] *)
Theorem C02_extended_correct_ctx :
  forall (G : genv) (ctx : list (str * tt)), ctx_sets_ok G ctx ->
  forall (names : list str) (Utop : tt) (sw : switches) (wild doms : list (str * tt))
         (t : tree) (R : tt),
    wf_env G names Utop -> picked_from_ctx ctx wild -> picked_from_ctx ctx doms ->
    scoped G [] t ->
    peval_ext G names sw (steady_of G Utop) wild doms t Utop = Ok R ->
    shaped (g_L G) R /\
    forall v, mem (g_L G) Utop v = true ->
              (mem (g_L G) R v = true <-> sat G names (Gamma_of G ctx) t v).
Proof. exact peval_ext_correct_ctx. Qed.

Theorem C02_ctx_ignores_copies :
  forall (G : genv) (ctx : list (str * tt)),
    ctx_sets_ok G ctx -> ctx_ignores_copies (Gamma_of G ctx).
Proof. exact Gamma_of_ignores_copies. Qed.

(** preprocessed formulae that pass check_hctl_var_support are well scoped *)
Theorem C02_preprocessed_scoped :
  forall (G : genv) (props : list str) (t0 t : tree),
    preprocess props t0 = Ok t -> num_hctl_vars t <= g_k G -> scoped G [] t.
Proof. exact preprocessed_scoped. Qed.

(** on plain formulae the extended evaluator is the evaluator of C01 *)
Theorem C02_peval_ext_plain :
  forall (G : genv) (names : list str) (sw : switches) (steady : tt)
         (wild doms : list (str * tt)) (t : tree) (U : tt),
    plainf t -> peval_ext G names sw steady wild doms t U = peval G names sw steady t U.
Proof. exact peval_ext_plain. Qed.

(** ** 4. Empty domains, as the evaluator answers them *)

Theorem C02_exists_empty_domain :
  forall (G : genv) (names : list str) (Utop : tt), wf_env G names Utop ->
  forall (Gamma : str -> val -> Prop) (sw : switches) (wild doms : list (str * tt)),
    wild_sets_ok G Gamma wild -> dom_sets_ok G Gamma doms ->
  forall (x d : str) (a : tree) (R : tt) (v : val),
    scoped G [] (Hybrid Exists x (Some d) a) ->
    peval_ext G names sw (steady_of G Utop) wild doms (Hybrid Exists x (Some d) a) Utop = Ok R ->
    mem (g_L G) Utop v = true -> domain_empty_at Gamma d v -> mem (g_L G) R v = false.
Proof. exact peval_ext_exists_empty_domain. Qed.

Theorem C02_forall_empty_domain :
  forall (G : genv) (names : list str) (Utop : tt), wf_env G names Utop ->
  forall (Gamma : str -> val -> Prop) (sw : switches) (wild doms : list (str * tt)),
    wild_sets_ok G Gamma wild -> dom_sets_ok G Gamma doms ->
  forall (x d : str) (a : tree) (R : tt) (v : val),
    scoped G [] (Hybrid Forall x (Some d) a) ->
    peval_ext G names sw (steady_of G Utop) wild doms (Hybrid Forall x (Some d) a) Utop = Ok R ->
    mem (g_L G) Utop v = true -> domain_empty_at Gamma d v -> mem (g_L G) R v = true.
Proof. exact peval_ext_forall_empty_domain. Qed.

Theorem C02_bind_outside_domain :
  forall (G : genv) (names : list str) (Utop : tt), wf_env G names Utop ->
  forall (Gamma : str -> val -> Prop) (sw : switches) (wild doms : list (str * tt)),
    wild_sets_ok G Gamma wild -> dom_sets_ok G Gamma doms ->
  forall (x d : str) (a : tree) (R : tt) (v : val),
    scoped G [] (Hybrid Bind x (Some d) a) ->
    peval_ext G names sw (steady_of G Utop) wild doms (Hybrid Bind x (Some d) a) Utop = Ok R ->
    mem (g_L G) Utop v = true -> ~ Gamma d v -> mem (g_L G) R v = false.
Proof. exact peval_ext_bind_outside_domain. Qed.

(** the early return: no colour of the unit has a state in the domain, the body is not
    evaluated (so it can neither panic nor run out of fuel) *)
Theorem C02_early_return :
  forall (G : genv) (names : list str) (Utop : tt) (sw : switches)
         (wild doms : list (str * tt)) (o : hybop) (x dl : str) (a : tree)
         (dset : tt) (e : nat) (U : tt),
    o <> Jump -> alookup str_eqb dl doms = Some dset -> hctl_var_id G x = Ok e ->
    is_empty (tand U (compute_valid_domain_for_var G U dset e)) = true ->
    peval_ext G names sw (steady_of G Utop) wild doms (Hybrid o x (Some dl) a) U =
    Ok (match o with Forall => U | _ => empty G end).
Proof. exact peval_ext_early_return. Qed.

(** ** 5. The operator facts under the weak invariant (current unit [Uc]) *)

Theorem C02_ops_boolean :
  forall (G : genv) (names : list str) (Utop : tt), wf_env G names Utop ->
  forall (bound : list nat) (Uc : tt), unit_ok G Utop bound Uc ->
  forall (A B : tt) (P Q : val -> Prop),
    spec_in G Uc A P -> spec_in G Uc B Q ->
    spec_in G Uc (eval_neg Uc A) (fun w => ~ P w) /\
    spec_in G Uc (tand A B) (fun w => P w /\ Q w) /\
    spec_in G Uc (tor A B) (fun w => P w \/ Q w) /\
    spec_in G Uc (eval_imp Uc A B) (fun w => P w -> Q w) /\
    spec_in G Uc (eval_equiv Uc A B) (fun w => P w <-> Q w) /\
    spec_in G Uc (eval_xor Uc A B) (fun w => ~ (P w <-> Q w)).
Proof.
  intros G names Utop WF bound Uc HU A B P Q HA HB.
  pose proof (fun o R => in_binary_ok G names Utop WF bound Uc o A B P Q R HU HA HB) as Bin.
  split; [exact (in_unary_ok G names Utop WF bound Uc Not A P _ HU HA eq_refl)|].
  split; [exact (Bin And _ eq_refl)|]. split; [exact (Bin Or _ eq_refl)|].
  split; [exact (Bin Imp _ eq_refl)|]. split; [exact (Bin Iff _ eq_refl) | exact (Bin Xor _ eq_refl)].
Qed.

Theorem C02_ops_next :
  forall (G : genv) (names : list str) (Utop : tt), wf_env G names Utop ->
  forall (bound : list nat) (Uc : tt), unit_ok G Utop bound Uc ->
  forall (A : tt) (P : val -> Prop),
    spec_in G Uc A P ->
    spec_in G Uc (eval_ex G A (steady_of G Utop)) (EXs G P) /\
    spec_in G Uc (eval_ax G Uc A (steady_of G Utop)) (AXs G P).
Proof.
  intros G names Utop WF bound Uc HU A P HA.
  pose proof (fun o R => in_unary_ok G names Utop WF bound Uc o A P R HU HA) as Un.
  split; [exact (Un EX _ eq_refl) | exact (Un AX _ eq_refl)].
Qed.

Theorem C02_ops_fixpoint :
  forall (G : genv) (names : list str) (Utop : tt), wf_env G names Utop ->
  forall (bound : list nat) (Uc : tt), unit_ok G Utop bound Uc ->
  forall (A B : tt) (P Q : val -> Prop) (R : tt),
    spec_in G Uc A P -> spec_in G Uc B Q ->
    (eval_ef_saturated G Uc A = Ok R -> spec_in G Uc R (EFs G P)) /\
    (eval_af G Uc A (steady_of G Utop) = Ok R -> spec_in G Uc R (AFs G P)) /\
    (eval_eg G A (steady_of G Utop) = Ok R -> spec_in G Uc R (EGs G P)) /\
    (eval_ag G Uc A = Ok R -> spec_in G Uc R (AGs G P)) /\
    (eval_eu_saturated G A B = Ok R -> spec_in G Uc R (EUs G P Q)) /\
    (eval_au G Uc A B (steady_of G Utop) = Ok R -> spec_in G Uc R (AUs G P Q)) /\
    (eval_ew G Uc A B (steady_of G Utop) = Ok R -> spec_in G Uc R (EWs G P Q)) /\
    (eval_aw G Uc A B = Ok R -> spec_in G Uc R (AWs G P Q)).
Proof.
  intros G names Utop WF bound Uc HU A B P Q R HA HB.
  pose proof (fun o => in_unary_ok G names Utop WF bound Uc o A P R HU HA) as Un.
  pose proof (fun o => in_binary_ok G names Utop WF bound Uc o A B P Q R HU HA HB) as Bin.
  split; [exact (Un EF)|]. split; [exact (Un AF)|]. split; [exact (Un EG)|]. split; [exact (Un AG)|].
  split; [exact (Bin EU)|]. split; [exact (Bin AU)|]. split; [exact (Bin EW) | exact (Bin AW)].
Qed.

Theorem C02_ops_hybrid :
  forall (G : genv) (names : list str) (Utop : tt), wf_env G names Utop ->
  forall (bound : list nat) (Uc : tt), unit_ok G Utop bound Uc ->
  forall (A : tt) (P : val -> Prop) (e : nat),
    e < g_k G -> spec_in G Uc A P ->
    spec_in G Uc (eval_hctl_var G Uc e) (copy_is_state G e) /\
    spec_in G Uc (eval_jump G Uc A e) (fun v => P (set_state e v)) /\
    (~ In e bound ->
     spec_in G Uc (eval_bind G Uc (tand A Uc) e) (fun v => P (set_copy e v v)) /\
     spec_in G Uc (eval_exists G (tand A Uc) e) (fun v => exists u, P (set_copy e u v)) /\
     spec_in G Uc (eval_neg Uc (eval_exists G (eval_neg Uc A) e))
             (fun v => forall u, P (set_copy e u v))).
Proof. exact ops_hybrid_in. Qed.

(** the domain step *)
Theorem C02_ops_domain :
  forall (G : genv) (names : list str) (Utop : tt), wf_env G names Utop ->
  forall (bound : list nat) (Uc : tt), unit_ok G Utop bound Uc ->
  forall (dset : tt) (e : nat) (A : tt) (P : val -> Prop),
    e < g_k G -> ~ In e bound -> shaped (g_L G) dset -> extras_indep G dset ->
    let Ur := tand Uc (compute_valid_domain_for_var G Uc dset e) in
    (forall w, mem (g_L G) Ur w = true <->
               (mem (g_L G) Uc w = true /\ mem (g_L G) dset (set_state e w) = true)) /\
    unit_ok G Utop (e :: bound) Ur /\
    (is_empty Ur = true ->
     forall u v, mem (g_L G) Uc v = true -> mem (g_L G) dset (with_state u v) = false) /\
    (spec_in G Ur A P ->
     spec_in G Uc (eval_bind G Uc (tand A Ur) e)
             (fun v => mem (g_L G) dset v = true /\ P (set_copy e v v)) /\
     spec_in G Uc (eval_exists G (tand A Ur) e)
             (fun v => exists u, mem (g_L G) dset (with_state u v) = true /\ P (set_copy e u v)) /\
     spec_in G Uc (eval_neg Uc (eval_exists G (eval_neg Ur A) e))
             (fun v => forall u, mem (g_L G) dset (with_state u v) = true -> P (set_copy e u v))).
Proof. exact ops_domain_in. Qed.

(** ** 6. The link to [eval_node] *)

(** with a context whose duplicate counters and cache hold exactly the wild-card sets,
    eval_node is the cache-free extended evaluator; the store of the context is unchanged *)
Theorem C02_eval_node_is_peval_ext :
  forall (G : genv) (names : list str) (sw : switches) (steady : tt)
         (D : list (key * nat)) (C : list (key * (tt * list (str * str))))
         (DS wild : list (str * tt)),
    store_ok D C wild ->
  forall (t : tree) (U : tt) (c : ectx),
    linkable t -> same_store D C DS c ->
    exists c', same_store D C DS c' /\
      eval_node G names sw steady t U c =
      bind (peval_ext G names sw steady wild DS t U) (fun r => Ok (r, c')).
Proof. exact eval_node_ext. Qed.

(** extend_context on the empty context builds such a store (the last set given for a
    label wins) *)
Theorem C02_extend_context_store :
  forall (wprops dprops : list (str * tt)),
    let c := extend_context wprops dprops (ctx_new []) in
    store_ok (duplicates c) (cache c) (rev wprops) /\
    (forall l s, alookup str_eqb l (domain_sets c) = Some s -> In (l, s) dprops).
Proof. exact extend_context_store. Qed.

Theorem C02_plain_label_linkable :
  forall p : str, forallb canon_inert p = true -> linkable (Terminal (AWild p)).
Proof. exact canonize_plain_label. Qed.

(** end to end: eval_node, driven as the extended entry points drive it when no sub-formula
    is marked as duplicate, returns exactly the satisfying valuations of the unit *)
Theorem C02_eval_node_extended_correct :
  forall (G : genv) (names : list str) (Utop : tt), wf_env G names Utop ->
  forall (Gamma : str -> val -> Prop) (sw : switches) (wprops dprops : list (str * tt)),
    (forall l s, In (l, s) wprops ->
       shaped (g_L G) s /\ forall v, mem (g_L G) s v = true <-> Gamma l v) ->
    (forall l s, In (l, s) dprops ->
       shaped (g_L G) s /\ extras_indep G s /\ forall v, mem (g_L G) s v = true <-> Gamma l v) ->
  forall (t : tree) (R : tt) (c' : ectx),
    scoped G [] t -> linkable t ->
    eval_node G names sw (steady_of G Utop) t Utop (extend_context wprops dprops (ctx_new []))
      = Ok (R, c') ->
    shaped (g_L G) R /\
    forall v, mem (g_L G) Utop v = true ->
              (mem (g_L G) R v = true <-> sat G names Gamma t v).
Proof. exact eval_node_ext_correct. Qed.

Print Assumptions C02_bind_domain_equiv.
Print Assumptions C02_exists_domain_equiv.
Print Assumptions C02_forall_domain_equiv.
Print Assumptions C02_exists_empty_domain_sat.
Print Assumptions C02_forall_empty_domain_sat.
Print Assumptions C02_bind_empty_domain_sat.
Print Assumptions C02_extended_correct.
Print Assumptions C02_extended_correct_in_scope.
Print Assumptions C02_extended_correct_ctx.
Print Assumptions C02_ctx_ignores_copies.
Print Assumptions C02_preprocessed_scoped.
Print Assumptions C02_peval_ext_plain.
Print Assumptions C02_exists_empty_domain.
Print Assumptions C02_forall_empty_domain.
Print Assumptions C02_bind_outside_domain.
Print Assumptions C02_early_return.
Print Assumptions C02_ops_boolean.
Print Assumptions C02_ops_next.
Print Assumptions C02_ops_fixpoint.
Print Assumptions C02_ops_hybrid.
Print Assumptions C02_ops_domain.
Print Assumptions C02_eval_node_is_peval_ext.
Print Assumptions C02_extend_context_store.
Print Assumptions C02_plain_label_linkable.
Print Assumptions C02_eval_node_extended_correct.
