(** C05, lexical half -- the tokenizer implements the documented lexical structure.
    Statements and the last step of each proof; the lemmas are in Proofs/LexFacts.v (and
    Proofs/NoPanic.v).

    The specification [Lex ext s ts] (LexFacts.v) reads the input by cases on its
    head.  [LexR ext top cs ts out] is the same relation with the nesting made explicit: [cs]
    consists of the tokens [ts] followed, at top level, by the end of the input ([out = []])
    and, inside parentheses, by the closing ')' and the unread rest [out];
    [Lex ext s ts := LexR ext true s ts []].  The cases:
    - white space ([is_ws]) is skipped;
    - '~' '&' '|' '^' are single-character operator tokens ([symbol_tokens]); "=>" and "<=>"
      are fixed spellings (a lone '=' '<' '>' has no reading);
    - an IDENTIFIER ([ident w r]) is a maximal non-empty run [w] of name characters that does
      not start with white space.  It is the operator EX AX EF AF EG AG / EU AU EW AW iff it
      is exactly that word ([keyword_tokens]); it starts a hybrid segment iff it is exactly
      "3" or "V" ([quantifier_words]); otherwise it is the proposition [TAtom (AProp w)];
    - '{' name '}' is a variable token; '%' name '%' is a wild-card token, only if [ext];
      ([name_ok]: a non-empty word of name characters);
    - a hybrid segment is one of  '!'  '@'  ([hybrid_symbols]),  "3"  "V"  (identifiers), or
      a backslash followed by a maximal run of name characters that is exactly one of
      "exists" "forall" "bind" "jump" ([hybrid_words]); followed by ([HybSeg])
        ws* '{' name '}' ws* ':'     or, only if [ext] and not for '@' / "\jump"
        ws* '{' name '}' ws* 'i' 'n' ws* '%' name '%' ws* ':'       ([dom_allowed]);
    - '(' ... ')' yields [TGroup] of the recursively read content and must be closed; a ')'
      without opening counterpart has no reading, nor has any other character.

    Result: [tokenize] answers [Ok ts] exactly for the readings of the specification, for
    every classification [ext_alnum] of the code points >= 128.  The look-ahead of the code,
    E/A + one of XFGUW + "no name character follows", is exactly the rule "maximal
    identifier, keyword iff exact match" ([tok_word] in LexFacts.v).  The one point to note is in the examples at the end: white
    space is tested first, so a code point classified as white space AND as alphanumeric
    would be skipped at the head of the input but be part of an identifier behind a name
    character.  No such code point exists in Unicode; the model allows it because
    [ext_alnum] is arbitrary, and the specification says so ([head_not_ws] in [ident]). *)
From HCTL Require Import Base Syntax Tokenizer Parser Pipeline.
From HCTL Require Import NoPanic RoundTrip LexFacts.

(** ** the tokenizer implements the specification *)

Theorem C05_tokenize_iff_lex :
  forall (ext_alnum : N -> bool) (ext : bool) (s : str) (ts : list token),
    tokenize ext_alnum ext s = Ok ts <-> Lex ext_alnum ext s ts.
Proof. exact tokenize_iff_lex. Qed.

Theorem C05_tokenize_sound :
  forall (ext_alnum : N -> bool) (ext : bool) (s : str) (ts : list token),
    tokenize ext_alnum ext s = Ok ts -> Lex ext_alnum ext s ts.
Proof. exact tokenize_sound. Qed.

Theorem C05_tokenize_complete :
  forall (ext_alnum : N -> bool) (ext : bool) (s : str) (ts : list token),
    Lex ext_alnum ext s ts -> tokenize ext_alnum ext s = Ok ts.
Proof. exact tokenize_complete. Qed.

(** hence a string has at most one reading *)
Theorem C05_lex_functional :
  forall (ext_alnum : N -> bool) (ext : bool) (s : str) (ts ts' : list token),
    Lex ext_alnum ext s ts -> Lex ext_alnum ext s ts' -> ts = ts'.
Proof. exact Lex_functional. Qed.

(** and it is rejected, with a lexical error, iff it has none *)
Theorem C05_tokenize_err_iff_no_lex :
  forall (ext_alnum : N -> bool) (ext : bool) (s : str),
    tokenize ext_alnum ext s = Err ELex <-> (forall ts, ~ Lex ext_alnum ext s ts).
Proof. exact tokenize_err_iff. Qed.

(** the same at the level of the recursive function, with explicit fuel, accumulator and
    nesting: any fuel above the length of the input gives the reading *)
Theorem C05_tok_sound :
  forall (ext_alnum : N -> bool) (f : nat) (cs : str) (top ext : bool)
         (acc ts' : list token) (out : str),
    tok ext_alnum f cs top ext acc = Ok (ts', out) ->
    exists ts, ts' = rev acc ++ ts /\ LexR ext_alnum ext top cs ts out.
Proof. exact tok_sound. Qed.

Theorem C05_tok_complete :
  forall (ext_alnum : N -> bool) (ext top : bool) (cs : str) (ts : list token) (out : str),
    LexR ext_alnum ext top cs ts out ->
    forall (f : nat) (acc : list token), length cs < f ->
      tok ext_alnum f cs top ext acc = Ok (rev acc ++ ts, out).
Proof. exact tok_complete. Qed.

(** the helper reading the variable and domain of a hybrid operator *)
Theorem C05_collect_var_dom_iff :
  forall (ext_alnum : N -> bool) (cs : str) (pd : bool) (x : str) (d : option str) (r : str),
    collect_var_dom ext_alnum cs pd = Ok (x, d, r) <-> HybSeg ext_alnum pd cs x d r.
Proof. intros; split; [apply cvd_sound | apply cvd_complete]. Qed.

(** maximal munch: on a maximal run [c :: w] of name characters the tokenizer decides by
    the WHOLE run -- operator iff it is exactly an operator word, quantifier iff exactly
    "3" / "V", proposition otherwise *)
Theorem C05_identifier_step :
  forall (ext_alnum : N -> bool) (f : nat) (c : N) (w r : str) (top ext : bool)
         (acc : list token),
    is_ws c = false ->
    List.Forall (fun c => is_name_char ext_alnum c = true) (c :: w) ->
    peek_name_char ext_alnum r = false ->
    tok ext_alnum (S f) (c :: w ++ r) top ext acc =
    match alookup str_eqb (c :: w) keyword_tokens with
    | Some t => tok ext_alnum f r top ext (t :: acc)
    | None =>
        match alookup str_eqb (c :: w) quantifier_words with
        | Some o =>
            let* (nd, rest) := collect_var_dom ext_alnum r ext in
            tok ext_alnum f rest top ext (THyb o (fst nd) (snd nd) :: acc)
        | None => tok ext_alnum f r top ext (TAtom (AProp (c :: w)) :: acc)
        end
    end.
Proof. exact tok_word. Qed.

(** ** the extended syntax is conservative over the plain syntax *)

Theorem C05_extended_conservative :
  forall (ext_alnum : N -> bool) (s : str) (ts : list token),
    tokenize ext_alnum false s = Ok ts -> tokenize ext_alnum true s = Ok ts.
Proof. exact tokenize_conservative. Qed.

Theorem C05_extended_conservative_parse :
  forall (ext_alnum : N -> bool) (s : str) (t : tree),
    parse_formula ext_alnum false s = Ok t -> parse_formula ext_alnum true s = Ok t.
Proof. exact parse_formula_conservative. Qed.

Theorem C05_extended_conservative_lex :
  forall (ext_alnum : N -> bool) (s : str) (ts : list token),
    Lex ext_alnum false s ts -> Lex ext_alnum true s ts.
Proof. intros ext_alnum s ts H. apply tokenize_sound, tokenize_conservative, tokenize_complete, H. Qed.

(** ** the plain syntax rejects the extended constructs *)

(** restated from NoPanic.v: plain tokens contain no wild-card and no domain *)
Theorem C05_plain_rejects_extended :
  forall (ext_alnum : N -> bool) (s : str) (ts : list token),
    tokenize ext_alnum false s = Ok ts -> plain_toks ts.
Proof. exact tokenize_plain. Qed.

(** exactly: the plain readings are the extended readings without wild-card and domain *)
Theorem C05_plain_iff_extended_plain :
  forall (ext_alnum : N -> bool) (s : str) (ts : list token),
    tokenize ext_alnum false s = Ok ts <->
    tokenize ext_alnum true s = Ok ts /\ plain_toks ts.
Proof. exact tokenize_plain_iff. Qed.

(** a '%' anywhere in the input (also inside parentheses, also after a hybrid variable) is a
    lexical error in the plain syntax *)
Theorem C05_plain_rejects_pct :
  forall (ext_alnum : N -> bool) (s : str),
    In c_pct s -> tokenize ext_alnum false s = Err ELex.
Proof. exact tokenize_plain_rejects_pct. Qed.

(** and on inputs without '%' the two syntaxes coincide (same tokens or both reject) *)
Theorem C05_no_pct_modes_agree :
  forall (ext_alnum : N -> bool) (s : str),
    ~ In c_pct s -> tokenize ext_alnum true s = tokenize ext_alnum false s.
Proof. exact tokenize_no_pct_agree. Qed.

Theorem C05_no_pct_modes_agree_parse :
  forall (ext_alnum : N -> bool) (s : str),
    ~ In c_pct s -> parse_formula ext_alnum true s = parse_formula ext_alnum false s.
Proof. exact parse_formula_no_pct_agree. Qed.

(** ** corner cases, computed (ASCII only: [ext_alnum] irrelevant) *)

Definition no_ext : N -> bool := fun _ => false.
Local Notation ch_E := 69%N.  Local Notation ch_X := 88%N.  Local Notation ch_a := 97%N.
Local Notation ch_x := 120%N. Local Notation ch_d := 100%N. Local Notation ch_B := 66%N.
Local Notation ch_sp := 32%N.

(** "EXa" is a proposition, "EX a" and "EX(a)" the operator *)
Example C05_ex_EXa : tokenize no_ext false [ch_E; ch_X; ch_a] = Ok [TAtom (AProp [ch_E; ch_X; ch_a])].
Proof. reflexivity. Qed.
Example C05_ex_EX_a :
  tokenize no_ext false [ch_E; ch_X; ch_sp; ch_a] = Ok [TUn EX; TAtom (AProp [ch_a])].
Proof. reflexivity. Qed.
Example C05_ex_EX_par :
  tokenize no_ext false [ch_E; ch_X; c_lpar; ch_a; c_rpar] = Ok [TUn EX; TGroup [TAtom (AProp [ch_a])]].
Proof. reflexivity. Qed.
(** "AB", "E", "EXX" are propositions *)
Example C05_ex_AB : tokenize no_ext false [c_A; ch_B] = Ok [TAtom (AProp [c_A; ch_B])].
Proof. reflexivity. Qed.
Example C05_ex_E : tokenize no_ext false [ch_E] = Ok [TAtom (AProp [ch_E])].
Proof. reflexivity. Qed.
Example C05_ex_EXX : tokenize no_ext false [ch_E; ch_X; ch_X] = Ok [TAtom (AProp [ch_E; ch_X; ch_X])].
Proof. reflexivity. Qed.
(** "3x" is a proposition, "3{x}:a" and "3 {x} : a" the quantifier, "3" alone an error *)
Example C05_ex_3x : tokenize no_ext false [c_three; ch_x] = Ok [TAtom (AProp [c_three; ch_x])].
Proof. reflexivity. Qed.
Example C05_ex_3_seg :
  tokenize no_ext false [c_three; c_lbrace; ch_x; c_rbrace; c_colon; ch_a]
  = Ok [THyb Exists [ch_x] None; TAtom (AProp [ch_a])].
Proof. reflexivity. Qed.
Example C05_ex_3_seg_ws :
  tokenize no_ext false [c_three; ch_sp; c_lbrace; ch_x; c_rbrace; ch_sp; c_colon; ch_sp; ch_a]
  = Ok [THyb Exists [ch_x] None; TAtom (AProp [ch_a])].
Proof. reflexivity. Qed.
Example C05_ex_3_alone : tokenize no_ext false [c_three] = Err ELex.
Proof. reflexivity. Qed.
(** no white space inside the braces *)
Example C05_ex_brace_ws : tokenize no_ext false [c_lbrace; ch_sp; ch_x; c_rbrace] = Err ELex.
Proof. reflexivity. Qed.
(** after a backslash the maximal name is compared: "\jump{x}:a" yes, "\jumpx{x}:a" no *)
Example C05_ex_bs_jump :
  tokenize no_ext false (c_bslash :: s_jump ++ [c_lbrace; ch_x; c_rbrace; c_colon; ch_a])
  = Ok [THyb Jump [ch_x] None; TAtom (AProp [ch_a])].
Proof. reflexivity. Qed.
Example C05_ex_bs_jumpx :
  tokenize no_ext false (c_bslash :: s_jump ++ [ch_x; c_lbrace; ch_x; c_rbrace; c_colon; ch_a])
  = Err ELex.
Proof. reflexivity. Qed.
(** domains: only in the extended syntax, and never after '@' *)
Example C05_ex_dom_ext :
  tokenize no_ext true
    [c_bang; c_lbrace; ch_x; c_rbrace; ch_sp; c_i; c_n; ch_sp; c_pct; ch_d; c_pct; c_colon; ch_a]
  = Ok [THyb Bind [ch_x] (Some [ch_d]); TAtom (AProp [ch_a])].
Proof. reflexivity. Qed.
Example C05_ex_dom_plain :
  tokenize no_ext false
    [c_bang; c_lbrace; ch_x; c_rbrace; ch_sp; c_i; c_n; ch_sp; c_pct; ch_d; c_pct; c_colon; ch_a]
  = Err ELex.
Proof. reflexivity. Qed.
Example C05_ex_dom_jump :
  tokenize no_ext true
    [c_at; c_lbrace; ch_x; c_rbrace; ch_sp; c_i; c_n; ch_sp; c_pct; ch_d; c_pct; c_colon; ch_a]
  = Err ELex.
Proof. reflexivity. Qed.
(** parentheses must match *)
Example C05_ex_unopened : tokenize no_ext false [ch_a; c_rpar] = Err ELex.
Proof. reflexivity. Qed.
Example C05_ex_unclosed : tokenize no_ext false [c_lpar; ch_a] = Err ELex.
Proof. reflexivity. Qed.

(** The one artefact of an arbitrary [ext_alnum]: classify NO-BREAK SPACE (160, white space)
    as alphanumeric.  At the head of the input it is skipped; behind a name character it is
    part of the identifier, so "EX<160>" is a proposition, not the operator EX. *)
Definition nbsp_alnum : N -> bool := fun c => N.eqb c 160.
Example C05_ex_ws_alnum_head :
  tokenize nbsp_alnum false [160%N; ch_a] = Ok [TAtom (AProp [ch_a])].
Proof. reflexivity. Qed.
Example C05_ex_ws_alnum_inside :
  tokenize nbsp_alnum false [ch_a; 160%N; ch_a] = Ok [TAtom (AProp [ch_a; 160%N; ch_a])].
Proof. reflexivity. Qed.
Example C05_ex_ws_alnum_keyword :
  tokenize nbsp_alnum false [ch_E; ch_X; 160%N] = Ok [TAtom (AProp [ch_E; ch_X; 160%N])].
Proof. reflexivity. Qed.

Print Assumptions C05_tokenize_iff_lex.
Print Assumptions C05_tokenize_sound.
Print Assumptions C05_tokenize_complete.
Print Assumptions C05_lex_functional.
Print Assumptions C05_tokenize_err_iff_no_lex.
Print Assumptions C05_tok_sound.
Print Assumptions C05_tok_complete.
Print Assumptions C05_collect_var_dom_iff.
Print Assumptions C05_identifier_step.
Print Assumptions C05_extended_conservative.
Print Assumptions C05_extended_conservative_parse.
Print Assumptions C05_extended_conservative_lex.
Print Assumptions C05_plain_rejects_extended.
Print Assumptions C05_plain_iff_extended_plain.
Print Assumptions C05_plain_rejects_pct.
Print Assumptions C05_no_pct_modes_agree.
Print Assumptions C05_no_pct_modes_agree_parse.
Print Assumptions C05_ex_EXa.
Print Assumptions C05_ex_EX_a.
Print Assumptions C05_ex_EX_par.
Print Assumptions C05_ex_AB.
Print Assumptions C05_ex_E.
Print Assumptions C05_ex_EXX.
Print Assumptions C05_ex_3x.
Print Assumptions C05_ex_3_seg.
Print Assumptions C05_ex_3_seg_ws.
Print Assumptions C05_ex_3_alone.
Print Assumptions C05_ex_brace_ws.
Print Assumptions C05_ex_bs_jump.
Print Assumptions C05_ex_bs_jumpx.
Print Assumptions C05_ex_dom_ext.
Print Assumptions C05_ex_dom_plain.
Print Assumptions C05_ex_dom_jump.
Print Assumptions C05_ex_unopened.
Print Assumptions C05_ex_unclosed.
Print Assumptions C05_ex_ws_alnum_head.
Print Assumptions C05_ex_ws_alnum_inside.
Print Assumptions C05_ex_ws_alnum_keyword.
