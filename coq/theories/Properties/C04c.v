(** C04 (continued) -- the sub-formula cache is transparent
    (A) for EVERY self-loop set handed to the evaluator that does not read the spare copies,
        in particular in the mode [m_unsafe_ex] (plain formulae), and
    (B) for EXTENDED formulae: wild-card propositions and quantifier domains ([m_ext = true]).
    Statements with the last step of each proof; proofs in Proofs/CopyRel.v, CacheGen.v, CacheExt.v,
    CacheExtEntry.v.  Worked examples at the end, by evaluation.

    (A) The argument is relational, not semantic (so it is not tied to [steady_of G U]; C04b is
    the instance at that set): every operator of Model/Ops.v is parametric in the spare copy that holds a
    variable ([srel]: same members up to "copy e of the one valuation is copy e0 of the
    other"); the fixed-point loops of the two sides run in lockstep.  Hence
      peval (formula with its only name x)  =  substitute_hctl_var (peval (... with x0)) e0 e
    ([C04_peval_rename], also for [peval_ext]: [C04_peval_ext_rename]).

    (B) Inside a scope restricted by the domain of an enclosing quantifier the exact node-level
    statement is FALSE ([C04_node_exactness_refuted]): a cache hit does not look at the
    domains of the variables that do not occur in the sub-formula, so the cached set may come
    from a larger unit.  What holds at every node ([C04_eval_node_cache_ext]):
      tier 1  [spec_in G Uc R (sat t)] -- inside the current unit the result is exactly [sat];
      tier 2  where no quantifier in scope has a domain ([clean]), in particular at top level,
              the result is EQUAL to that of the cache-free evaluator [peval_ext].
    A quantifier with a domain intersects its body with its unit, which restores exactness
    ([C04_domain_quantifier_exact]).  The top-level statements are at full strength
    (equality of decision trees, no "inside the unit"). *)
From Coq Require Import Permutation.
From HCTL Require Import Base Syntax Tokenizer Parser Preprocess Canon MarkDup TT Ops Eval Pipeline Kripke HCTL.
From HCTL Require Import TTFacts EvalPure Main Termination PrepFacts RoundTrip CanonFacts CanonAlpha MarkDupFacts LayoutFacts NoPanic RenameFacts CacheFacts CopyRel CacheGen LexFacts.
From HCTL Require Import ExtSem ExtFacts ExtEval ExtLink CacheExt CacheExtEntry.

(** * A. Arbitrary self-loop sets (plain formulae) *)

Theorem C04_ignores_copies_def :
  forall G S, ignores_copies G S <->
    (forall v w, (forall j, v (TP j) = w (TP j)) -> (forall i, v (TS i) = w (TS i)) ->
       mem (g_L G) S v = mem (g_L G) S w).
Proof. exact (fun G S => conj (fun H => H) (fun H => H)). Qed.

(** both self-loop sets of the entry points qualify *)
Theorem C04_steady_sets_ignore_copies :
  forall G names U, wf_env G names U ->
    ignores_copies G (steady_of G U) /\ ignores_copies G (empty G).
Proof. exact (fun G names U WF => conj (steady_of_ignores_copies G names U WF) (empty_ignores_copies G)). Qed.
Print Assumptions C04_steady_sets_ignore_copies.

(** the syntactic commutation: renaming the only variable name of a formula renames the spare
    copy in the result; no semantics, no termination argument *)
Theorem C04_peval_rename :
  forall G names U, wf_env G names U ->
  forall sw steady x x0 e e0 s S0,
    shaped (g_L G) steady ->
    (forall v w, (forall j, v (TP j) = w (TP j)) -> (forall i, v (TS i) = w (TS i)) ->
       mem (g_L G) steady v = mem (g_L G) steady w) ->
    hctl_var_id G x = Ok e -> hctl_var_id G x0 = Ok e0 -> e0 <> e -> plainf s ->
    peval G names sw steady (vmap (fun _ => x0) s) U = Ok S0 ->
    peval G names sw steady (vmap (fun _ => x) s) U = Ok (substitute_hctl_var G S0 e0 e).
Proof. exact peval_rename. Qed.
Print Assumptions C04_peval_rename.

(** the parametricity behind it, for the extended evaluator and two related units: the two
    runs end with outcomes of the same kind and related sets *)
Theorem C04_peval_ext_parametric :
  forall G names U, wf_env G names U ->
  forall e e0, e < g_k G -> e0 < g_k G ->
  forall steady, srel G e e0 steady steady ->
  forall sw x x0, hctl_var_id G x = Ok e -> hctl_var_id G x0 = Ok e0 ->
  forall wild doms,
    (forall l s, alookup str_eqb l wild = Some s -> srel G e e0 s s) ->
    (forall l s, alookup str_eqb l doms = Some s -> srel G e e0 s s) ->
  forall s Ua Ub, srel G e e0 Ua Ub ->
    rrel (srel G e e0) (peval_ext G names sw steady wild doms (vmap (fun _ => x) s) Ua)
                       (peval_ext G names sw steady wild doms (vmap (fun _ => x0) s) Ub).
Proof. exact peval_ext_rel. Qed.
Print Assumptions C04_peval_ext_parametric.

Theorem C04_srel_def :
  forall G e e0 a a0, srel G e e0 a a0 <->
    (shaped (g_L G) a /\ shaped (g_L G) a0 /\
     forall v w, ((forall j, v (TP j) = w (TP j)) /\ (forall i, v (TS i) = w (TS i))
                  /\ (forall i, v (TX i e) = w (TX i e0))) -> mem (g_L G) a v = mem (g_L G) a0 w).
Proof. exact (fun G e e0 a a0 => conj (fun H => H) (fun H => H)). Qed.

Theorem C04_peval_ext_rename :
  forall G names U, wf_env G names U ->
  forall sw steady wild doms x x0 e e0 s S0,
    shaped (g_L G) steady ->
    (forall v w, (forall j, v (TP j) = w (TP j)) -> (forall i, v (TS i) = w (TS i)) ->
       mem (g_L G) steady v = mem (g_L G) steady w) ->
    (forall l s1, alookup str_eqb l wild = Some s1 -> shaped (g_L G) s1 /\
       forall v w, (forall j, v (TP j) = w (TP j)) -> (forall i, v (TS i) = w (TS i)) ->
         mem (g_L G) s1 v = mem (g_L G) s1 w) ->
    (forall l s1, alookup str_eqb l doms = Some s1 -> shaped (g_L G) s1 /\
       forall v w, (forall j, v (TP j) = w (TP j)) -> (forall i, v (TS i) = w (TS i)) ->
         mem (g_L G) s1 v = mem (g_L G) s1 w) ->
    hctl_var_id G x = Ok e -> hctl_var_id G x0 = Ok e0 -> e0 <> e ->
    peval_ext G names sw steady wild doms (vmap (fun _ => x0) s) U = Ok S0 ->
    peval_ext G names sw steady wild doms (vmap (fun _ => x) s) U
      = Ok (substitute_hctl_var G S0 e0 e).
Proof. exact peval_ext_rename. Qed.
Print Assumptions C04_peval_ext_rename.

(** [substitute_hctl_var] on arbitrary shaped sets *)
Theorem C04_mem_substitute :
  forall G names U, wf_env G names U ->
  forall S e0 e v, shaped (g_L G) S -> e0 < g_k G -> e < g_k G -> e0 <> e ->
    mem (g_L G) (substitute_hctl_var G S e0 e) v = mem (g_L G) S (copy_from e0 e v).
Proof. exact mem_substitute. Qed.
Print Assumptions C04_mem_substitute.

(** the cache invariant of C04b with the self-loop set as a parameter *)
Theorem C04_cache_okS_def :
  forall ea ext G names sw U steady (c : ectx),
    cache_okS ea ext G names sw U steady c <->
    (forall k S rn, In (k, (S, rn)) (cache c) ->
       exists t0, good ea ext G names t0 /\ canonize (render t0) = (fst k, rn)
                  /\ length rn <= 1 /\ peval G names sw steady t0 U = Ok S).
Proof. exact (fun ea ext G names sw U steady c => conj (fun H => H) (fun H => H)). Qed.

Theorem C04_eval_node_cache_transparent_any_steady :
  forall ea ext G names sw U, wf_env G names U ->
  forall steady, shaped (g_L G) steady -> ignores_copies G steady ->
  forall t c R c',
    good ea ext G names t -> cache_okS ea ext G names sw U steady c -> dups_ok ea ext c ->
    eval_node G names sw steady t U c = Ok (R, c') ->
    peval G names sw steady t U = Ok R
    /\ cache_okS ea ext G names sw U steady c' /\ dups_ok ea ext c'.
Proof. exact eval_node_cache_transparentS. Qed.
Print Assumptions C04_eval_node_cache_transparent_any_steady.

Theorem C04_eval_node_cache_total_any_steady :
  forall ea ext G names sw U, wf_env G names U ->
  forall steady, shaped (g_L G) steady -> ignores_copies G steady ->
  forall t c,
    good ea ext G names t -> cache_okS ea ext G names sw U steady c -> dups_ok ea ext c ->
    exists R c', eval_node G names sw steady t U c = Ok (R, c').
Proof. exact eval_node_cache_totalS. Qed.
Print Assumptions C04_eval_node_cache_total_any_steady.

Theorem C04_batch_transparent_any_steady :
  forall ea ext G names sw U, wf_env G names U ->
  forall steady, shaped (g_L G) steady -> ignores_copies G steady ->
  forall ts c rs,
    List.Forall (good ea ext G names) ts ->
    cache_okS ea ext G names sw U steady c -> dups_ok ea ext c ->
    eval_all G names sw steady U ts c = Ok rs ->
    List.Forall2 (fun t R => peval G names sw steady t U = Ok R) ts rs.
Proof. exact batch_transparentS. Qed.
Print Assumptions C04_batch_transparent_any_steady.

Theorem C04_batch_transparent_marked_any_steady :
  forall ea ext G names sw U, wf_env G names U ->
  forall steady, shaped (g_L G) steady -> ignores_copies G steady ->
  forall ts rs,
    List.Forall (good ea ext G names) ts ->
    eval_all G names sw steady U ts (ctx_new (mark_duplicates ts)) = Ok rs ->
    List.Forall2 (fun t R => peval G names sw steady t U = Ok R) ts rs.
Proof. exact batch_transparent_markedS. Qed.
Print Assumptions C04_batch_transparent_marked_any_steady.

(** the entry point in every plain mode: [singleS w k m t] is [peval] with the self-loop set of
    the mode ([empty] for [m_unsafe_ex]), then the sanitiser if the mode asks for it *)
Theorem C04_singleS_def :
  forall (w : world) k m t,
    singleS w k m t =
    (let* r := peval (genv_of w k) (w_names w) {| use_patterns := negb (m_nopatterns m) |}
                     (if m_unsafe_ex m then empty (genv_of w k)
                      else steady_of (genv_of w k) (unit_of w k)) t (unit_of w k) in
     if m_sanitize m then sanitize (genv_of w k) r else Ok r).
Proof. exact (fun w k m t => eq_refl). Qed.

Theorem C04_check_trees_map_plain_modes :
  forall ea ext (w : world) k,
    List.Forall (shaped (Lpn (w_p w) (w_n w))) (w_upd w) ->
    shaped (Lpn (w_p w) (w_n w)) (w_unit w) ->
    (forall v v', (forall j, v (TP j) = v' (TP j)) ->
       mem (Lpn (w_p w) (w_n w)) (w_unit w) v = mem (Lpn (w_p w) (w_n w)) (w_unit w) v') ->
    length (w_names w) <= w_n w ->
    forall m ts,
      m_ext m = false -> List.Forall (good ea ext (genv_of w k) (w_names w)) ts ->
      check_trees w k m ts [] [] = mapM (singleS w k m) ts.
Proof. exact check_trees_mapS. Qed.
Print Assumptions C04_check_trees_map_plain_modes.

Theorem C04_cache_mode_irrelevant_plain_modes :
  forall ea ext (w : world) k,
    List.Forall (shaped (Lpn (w_p w) (w_n w))) (w_upd w) ->
    shaped (Lpn (w_p w) (w_n w)) (w_unit w) ->
    (forall v v', (forall j, v (TP j) = v' (TP j)) ->
       mem (Lpn (w_p w) (w_n w)) (w_unit w) v = mem (Lpn (w_p w) (w_n w)) (w_unit w) v') ->
    length (w_names w) <= w_n w ->
    forall m m' ts,
      m_ext m = false -> m_ext m' = false -> m_unsafe_ex m = m_unsafe_ex m' ->
      m_sanitize m = m_sanitize m' -> m_nopatterns m = m_nopatterns m' ->
      List.Forall (good ea ext (genv_of w k) (w_names w)) ts ->
      check_trees w k m ts [] [] = check_trees w k m' ts [] [].
Proof. exact cache_mode_irrelevantS. Qed.
Print Assumptions C04_cache_mode_irrelevant_plain_modes.

Theorem C04_model_check_cache_mode_irrelevant_plain_modes :
  forall ea (w : world) k m m' ctx fs,
    List.Forall (shaped (Lpn (w_p w) (w_n w))) (w_upd w) ->
    shaped (Lpn (w_p w) (w_n w)) (w_unit w) ->
    (forall v v', (forall j, v (TP j) = v' (TP j)) ->
       mem (Lpn (w_p w) (w_n w)) (w_unit w) v = mem (Lpn (w_p w) (w_n w)) (w_unit w) v') ->
    length (w_names w) <= w_n w ->
    m_ext m = false -> m_ext m' = false -> m_unsafe_ex m = m_unsafe_ex m' ->
    m_sanitize m = m_sanitize m' -> m_nopatterns m = m_nopatterns m' ->
    model_check ea w k m ctx fs = model_check ea w k m' ctx fs.
Proof. exact model_check_cache_mode_irrelevantS. Qed.
Print Assumptions C04_model_check_cache_mode_irrelevant_plain_modes.

Theorem C04_batch_position_plain_modes :
  forall ea ext (w : world) k,
    List.Forall (shaped (Lpn (w_p w) (w_n w))) (w_upd w) ->
    shaped (Lpn (w_p w) (w_n w)) (w_unit w) ->
    (forall v v', (forall j, v (TP j) = v' (TP j)) ->
       mem (Lpn (w_p w) (w_n w)) (w_unit w) v = mem (Lpn (w_p w) (w_n w)) (w_unit w) v') ->
    length (w_names w) <= w_n w ->
    forall m ts rs i dt dr,
      m_ext m = false -> List.Forall (good ea ext (genv_of w k) (w_names w)) ts ->
      check_trees w k m ts [] [] = Ok rs -> i < length ts ->
      check_trees w k m [nth i ts dt] [] [] = Ok [nth i rs dr].
Proof. exact batch_positionS. Qed.
Print Assumptions C04_batch_position_plain_modes.

Theorem C04_batch_permutation_plain_modes :
  forall ea ext (w : world) k,
    List.Forall (shaped (Lpn (w_p w) (w_n w))) (w_upd w) ->
    shaped (Lpn (w_p w) (w_n w)) (w_unit w) ->
    (forall v v', (forall j, v (TP j) = v' (TP j)) ->
       mem (Lpn (w_p w) (w_n w)) (w_unit w) v = mem (Lpn (w_p w) (w_n w)) (w_unit w) v') ->
    length (w_names w) <= w_n w ->
    forall m ts ts' rs,
      m_ext m = false -> List.Forall (good ea ext (genv_of w k) (w_names w)) ts ->
      Permutation ts ts' -> check_trees w k m ts [] [] = Ok rs ->
      exists rs', check_trees w k m ts' [] [] = Ok rs'
                  /\ Permutation (combine ts rs) (combine ts' rs').
Proof. exact batch_permutationS. Qed.
Print Assumptions C04_batch_permutation_plain_modes.

Theorem C04_batch_repetition_plain_modes :
  forall ea ext (w : world) k,
    List.Forall (shaped (Lpn (w_p w) (w_n w))) (w_upd w) ->
    shaped (Lpn (w_p w) (w_n w)) (w_unit w) ->
    (forall v v', (forall j, v (TP j) = v' (TP j)) ->
       mem (Lpn (w_p w) (w_n w)) (w_unit w) v = mem (Lpn (w_p w) (w_n w)) (w_unit w) v') ->
    length (w_names w) <= w_n w ->
    forall m t ts r1 r2 rs,
      m_ext m = false -> List.Forall (good ea ext (genv_of w k) (w_names w)) (t :: t :: ts) ->
      check_trees w k m (t :: t :: ts) [] [] = Ok (r1 :: r2 :: rs) ->
      r1 = r2 /\ check_trees w k m (t :: ts) [] [] = Ok (r1 :: rs).
Proof. exact batch_repetitionS. Qed.
Print Assumptions C04_batch_repetition_plain_modes.

(** * B. Extended formulae: wild-card propositions and quantifier domains *)

(** The definitions of Proofs/CacheExt.v the statements use, unfolded.

    [G names Utop] the graph and the top-level unit; [Gamma] the context predicates;
    [wild], [doms] the sets of the wild-card and of the domain labels as the evaluator sees
    them ([wild_sets_ok], [dom_sets_ok] of C02: shaped, denote [Gamma]; domain sets do not read
    the spare copies); [st := steady_of G Utop]. *)

Theorem C04_gx_def :
  forall ea G names wild doms t,
    gx ea G names wild doms t <->
    (well_named ea true t /\ knownx names wild doms t /\ supported G t).
Proof. exact (fun ea G names wild doms t => conj (fun H => H) (fun H => H)). Qed.

(** [knownx]: propositions, wild-card labels and (for quantifiers other than jump) domain
    labels are known *)
Theorem C04_knownx_def :
  forall names wild doms t,
    knownx names wild doms t <->
    match t with
    | Terminal (AProp nm) => index_of nm names 0 <> None
    | Terminal (AWild l) => alookup str_eqb l wild <> None
    | Terminal _ => True
    | Unary _ a => knownx names wild doms a
    | Binary _ a b => knownx names wild doms a /\ knownx names wild doms b
    | Hybrid o _ d a =>
        match o, d with
        | Jump, _ | _, None => True
        | _, Some dl => alookup str_eqb dl doms <> None
        end /\ knownx names wild doms a
    end.
Proof. intros names wild doms t. destruct t as [[]| | |]; reflexivity. Qed.

Theorem C04_clean_def :
  forall fd, clean fd <-> (forall y d, alookup str_eqb y fd = Some d -> d = None).
Proof. exact (fun fd => conj (fun H => H) (fun H => H)). Qed.

(** the restrictions the domains in scope put on a valuation: for every variable [y] in scope
    with domain [dl], the state held in the copy of [y] lies in the domain set *)
Theorem C04_restr_def :
  forall G doms fd w,
    restr G doms fd w <->
    (forall y dl dset e, alookup str_eqb y fd = Some (Some dl) -> alookup str_eqb dl doms = Some dset ->
       var_of G y = Some e -> mem (g_L G) dset (set_state e w) = true).
Proof. exact (fun G doms fd w => conj (fun H => H) (fun H => H)). Qed.

(** the context of a sub-formula found below [d] quantifiers: the current unit [Uc] is the
    top-level unit restricted by exactly the domains recorded in [free_doms] *)
Theorem C04_ctxinv_def :
  forall G Utop doms c bound Uc d,
    ctxinv G Utop doms c bound Uc d <->
    (domain_sets c = doms
     /\ unit_ok G Utop bound Uc
     /\ NoDup (map fst (free_doms c))
     /\ (forall j, d <= j -> alookup str_eqb (xs (S j)) (free_doms c) = None)
     /\ (forall w, mem (g_L G) Uc w = true <->
                   (mem (g_L G) Utop w = true /\ restr G doms (free_doms c) w))).
Proof. exact (fun G Utop doms c bound Uc d => conj (fun H => H) (fun H => H)). Qed.

(** the result of a node: tier 1 always, tier 2 under [C] *)
Theorem C04_nres_def :
  forall G names Utop Gamma sw wild doms (C : Prop) t Uc R,
    nres G names Utop Gamma sw wild doms C t Uc R <->
    (spec_in G Uc R (sat G names Gamma t)
     /\ (C -> peval_ext G names sw (steady_of G Utop) wild doms t Uc = Ok R)).
Proof. exact (fun G names Utop Gamma sw wild doms C t Uc R => conj (fun H => H) (fun H => H)). Qed.

(** a regular cache entry: the set is exact, inside SOME unit [U0] that contains every
    valuation of the top-level unit meeting the restrictions written in the key
    ([key_restr]), for a sub-formula with that canonical text and an at most one-entry map;
    if the key carries no domain the set is the cache-free result at the top-level unit *)
Theorem C04_reg_entry_def :
  forall ea G names Utop Gamma sw wild doms k S rn,
    reg_entry ea G names Utop Gamma sw wild doms k S rn <->
    (exists t0 d0 bound0 U0,
       gx ea G names wild doms t0 /\ depth_named d0 t0 /\ is_wild_terminal t0 = false
       /\ scoped G bound0 t0 /\ unit_ok G Utop bound0 U0
       /\ canonize (render t0) = (fst k, rn) /\ length rn <= 1
       /\ spec_in G U0 S (sat G names Gamma t0)
       /\ (forall w, mem (g_L G) Utop w = true -> key_restr G doms (snd k) rn w ->
                     mem (g_L G) U0 w = true)
       /\ (all_none (snd k) ->
           peval_ext G names sw (steady_of G Utop) wild doms t0 Utop = Ok S)).
Proof. exact (fun ea G names Utop Gamma sw wild doms k S rn => conj (fun H => H) (fun H => H)). Qed.

Theorem C04_key_restr_def :
  forall G doms kd rn w,
    key_restr G doms kd rn w <->
    (forall x0 cn dl dset e0, rn = [(x0, cn)] -> alookup str_eqb cn kd = Some (Some dl) ->
       alookup str_eqb dl doms = Some dset -> var_of G x0 = Some e0 ->
       mem (g_L G) dset (set_state e0 w) = true).
Proof. exact (fun G doms kd rn w => conj (fun H => H) (fun H => H)). Qed.

(** the store: every cache entry is a wild-card key (text starting with '%') or a regular
    entry; every marked key is a wild-card key or has a [single_text]; the wild-card sets are
    present (marked and cached -- they are never evicted) *)
Theorem C04_storeinv_def :
  forall ea G names Utop Gamma sw wild doms c,
    storeinv ea G names Utop Gamma sw wild doms c <->
    ((forall k S rn, In (k, (S, rn)) (cache c) ->
        (exists r, fst k = c_pct :: r) \/ reg_entry ea G names Utop Gamma sw wild doms k S rn)
     /\ (forall k m, In (k, m) (duplicates c) ->
           (exists r, fst k = c_pct :: r) \/ single_text ea true (fst k))
     /\ (forall p s, alookup str_eqb p wild = Some s ->
           amem key_eqb (wild_key p) (duplicates c) = true
           /\ alookup key_eqb (wild_key p) (cache c) = Some (s, []))).
Proof. exact (fun ea G names Utop Gamma sw wild doms c => conj (fun H => H) (fun H => H)). Qed.

Theorem C04_frame_def :
  forall c c', frame c c' <-> (free_doms c' = free_doms c /\ domain_sets c' = domain_sets c).
Proof. exact (fun c c' => conj (fun H => H) (fun H => H)). Qed.

Theorem C04_topx_def :
  forall ea G names wild doms t,
    topx ea G names wild doms t <->
    (gx ea G names wild doms t /\ depth_named 0 t /\ scoped G [] t).
Proof. exact (fun ea G names wild doms t => conj (fun H => H) (fun H => H)). Qed.

Theorem C04_well_named_linkable :
  forall ea ext t, well_named ea ext t -> linkable t.
Proof. exact well_named_linkable. Qed.
Print Assumptions C04_well_named_linkable.

(** the extended cache-free evaluator always answers with a set *)
Theorem C04_peval_ext_total :
  forall G names sw steady wild doms,
    NoDup (g_L G) -> (forall i, shaped (g_L G) (upd_of G i)) -> shaped (g_L G) steady ->
    (forall l s, alookup str_eqb l wild = Some s -> shaped (g_L G) s) ->
    (forall l s, alookup str_eqb l doms = Some s -> shaped (g_L G) s) ->
    forall t U, shaped (g_L G) U -> knownx names wild doms t -> supported G t ->
      exists R, peval_ext G names sw steady wild doms t U = Ok R /\ shaped (g_L G) R.
Proof. exact peval_ext_total. Qed.
Print Assumptions C04_peval_ext_total.

(** renaming the only variable of an extended formula, at the level of [sat] *)
Theorem C04_sat_rename_ext :
  forall G names U, wf_env G names U ->
  forall (Gamma : str -> val -> Prop), ctx_ignores_copies Gamma ->
  forall x x0 e e0, var_of G x = Some e -> var_of G x0 = Some e0 ->
  forall s v w,
    (forall j, v (TP j) = w (TP j)) /\ (forall i, v (TS i) = w (TS i))
    /\ (forall i, v (TX i e) = w (TX i e0)) ->
    (sat G names Gamma (vmap (fun _ => x) s) v <-> sat G names Gamma (vmap (fun _ => x0) s) w).
Proof. exact sat_rename_ext. Qed.
Print Assumptions C04_sat_rename_ext.

(** a hit on a regular entry: [rename_back] does not panic; the renamed set is exact inside the
    current unit, and equal to the cache-free result in a clean scope *)
Theorem C04_hit_ok_ext :
  forall ea G names Utop, wf_env G names Utop ->
  forall Gamma, ctx_ignores_copies Gamma ->
  forall sw wild doms, wild_sets_ok G Gamma wild -> dom_sets_ok G Gamma doms ->
  forall t c bound Uc d canon ren S rn,
    gx ea G names wild doms t -> depth_named d t -> ctxinv G Utop doms c bound Uc d ->
    canonize (render t) = (canon, ren) ->
    reg_entry ea G names Utop Gamma sw wild doms (canon, canon_domains (free_doms c) ren []) S rn ->
    exists R, rename_back G rn ren S = Ok R
              /\ nres G names Utop Gamma sw wild doms (clean (free_doms c)) t Uc R.
Proof. exact hit_okX. Qed.
Print Assumptions C04_hit_ok_ext.

(** a quantifier with a domain only needs its body inside the restricted unit, and its own
    result is exactly the cache-free one whatever the scope ([C] arbitrary, e.g. [True]) *)
Theorem C04_domain_quantifier_exact :
  forall ea G names Utop, wf_env G names Utop ->
  forall Gamma sw wild doms, wild_sets_ok G Gamma wild -> dom_sets_ok G Gamma doms ->
  forall bound Uc (C : Prop) o x dl a dset e A,
    o <> Jump -> unit_ok G Utop bound Uc -> var_of G x = Some e -> ~ In e bound ->
    alookup str_eqb dl doms = Some dset ->
    is_empty (tand Uc (compute_valid_domain_for_var G Uc dset e)) = false ->
    gx ea G names wild doms a -> scoped G (e :: bound) a ->
    spec_in G (tand Uc (compute_valid_domain_for_var G Uc dset e)) A (sat G names Gamma a) ->
    exists R,
      eval_hybrid_quantifier G Uc (tand Uc (compute_valid_domain_for_var G Uc dset e)) o e A = Ok R
      /\ nres G names Utop Gamma sw wild doms C (Hybrid o x (Some dl) a) Uc R.
Proof. exact dom_stepX. Qed.
Print Assumptions C04_domain_quantifier_exact.

(** the main invariant: in every scope [eval_node] returns a set (no panic, no exhausted
    fuel), exact inside the current unit, equal to the cache-free result in a clean scope; the
    store invariants are kept and the scope is restored *)
Theorem C04_eval_node_cache_ext :
  forall ea G names Utop, wf_env G names Utop ->
  forall Gamma, ctx_ignores_copies Gamma ->
  forall sw wild doms, wild_sets_ok G Gamma wild -> dom_sets_ok G Gamma doms ->
  forall t c bound Uc d,
    gx ea G names wild doms t -> depth_named d t -> scoped G bound t ->
    ctxinv G Utop doms c bound Uc d -> storeinv ea G names Utop Gamma sw wild doms c ->
    exists R c',
      eval_node G names sw (steady_of G Utop) t Uc c = Ok (R, c')
      /\ nres G names Utop Gamma sw wild doms (clean (free_doms c)) t Uc R
      /\ storeinv ea G names Utop Gamma sw wild doms c' /\ frame c c'.
Proof. exact eval_node_cacheX. Qed.
Print Assumptions C04_eval_node_cache_ext.

(** ** batches at the top-level unit: full strength (equality of decision trees) *)

Theorem C04_batch_transparent_ext :
  forall ea G names Utop, wf_env G names Utop ->
  forall Gamma, ctx_ignores_copies Gamma ->
  forall sw wild doms, wild_sets_ok G Gamma wild -> dom_sets_ok G Gamma doms ->
  forall ts c,
    List.Forall (topx ea G names wild doms) ts ->
    free_doms c = [] /\ domain_sets c = doms ->
    storeinv ea G names Utop Gamma sw wild doms c ->
    exists rs,
      eval_all G names sw (steady_of G Utop) Utop ts c = Ok rs
      /\ List.Forall2 (fun t R => peval_ext G names sw (steady_of G Utop) wild doms t Utop = Ok R) ts rs.
Proof. exact eval_all_cacheX. Qed.
Print Assumptions C04_batch_transparent_ext.

(** the context of the extended entry points satisfies the invariants, with the wild-card
    sets [rev wprops] (the last set given for a label wins) and the domain sets it stores;
    [dups] is [mark_duplicates ts] ([C04_mark_duplicates_dups_ok]) or empty *)
Theorem C04_extend_context_invariants :
  forall ea G names Utop Gamma sw wprops dprops dups,
    dups_ok ea true (ctx_new dups) ->
    let c := extend_context wprops dprops (ctx_new dups) in
    storeinv ea G names Utop Gamma sw (rev wprops) (domain_sets c) c /\ free_doms c = [].
Proof.
  exact (fun ea G names Utop Gamma sw wprops dprops dups H =>
           conj (init_storeinv ea G names Utop Gamma sw wprops dprops dups H)
                (proj1 (init_top_ctx wprops dprops dups))).
Qed.
Print Assumptions C04_extend_context_invariants.

(** the extended entry point evaluates a batch formula by formula *)
Theorem C04_singleX_def :
  forall (w : world) k cprops cdoms m t,
    singleX w k cprops cdoms m t =
    (let* r := peval_ext (genv_of w k) (w_names w) {| use_patterns := negb (m_nopatterns m) |}
                         (steady_of (genv_of w k) (unit_of w k))
                         (wild_of w k cprops) (doms_of w k cprops cdoms) t (unit_of w k) in
     if m_sanitize m then sanitize (genv_of w k) r else Ok r).
Proof. exact (fun w k cprops cdoms m t => eq_refl). Qed.

Theorem C04_check_trees_map_ext :
  forall ea (w : world) k,
    List.Forall (shaped (Lpn (w_p w) (w_n w))) (w_upd w) ->
    shaped (Lpn (w_p w) (w_n w)) (w_unit w) ->
    (forall v v', (forall j, v (TP j) = v' (TP j)) ->
       mem (Lpn (w_p w) (w_n w)) (w_unit w) v = mem (Lpn (w_p w) (w_n w)) (w_unit w) v') ->
    length (w_names w) <= w_n w ->
    forall cprops cdoms (Gamma : str -> val -> Prop),
      ctx_ignores_copies Gamma ->
      wild_sets_ok (genv_of w k) Gamma (wild_of w k cprops) ->
      dom_sets_ok (genv_of w k) Gamma (doms_of w k cprops cdoms) ->
    forall m ts,
      m_ext m = true -> m_unsafe_ex m = false ->
      List.Forall (topx ea (genv_of w k) (w_names w) (wild_of w k cprops) (doms_of w k cprops cdoms)) ts ->
      check_trees w k m ts cprops cdoms = mapM (singleX w k cprops cdoms m) ts.
Proof. exact check_trees_mapX. Qed.
Print Assumptions C04_check_trees_map_ext.

Theorem C04_cache_mode_irrelevant_ext :
  forall ea (w : world) k,
    List.Forall (shaped (Lpn (w_p w) (w_n w))) (w_upd w) ->
    shaped (Lpn (w_p w) (w_n w)) (w_unit w) ->
    (forall v v', (forall j, v (TP j) = v' (TP j)) ->
       mem (Lpn (w_p w) (w_n w)) (w_unit w) v = mem (Lpn (w_p w) (w_n w)) (w_unit w) v') ->
    length (w_names w) <= w_n w ->
    forall cprops cdoms (Gamma : str -> val -> Prop),
      ctx_ignores_copies Gamma ->
      wild_sets_ok (genv_of w k) Gamma (wild_of w k cprops) ->
      dom_sets_ok (genv_of w k) Gamma (doms_of w k cprops cdoms) ->
    forall m m' ts,
      m_ext m = true -> m_unsafe_ex m = false -> m_ext m' = true -> m_unsafe_ex m' = false ->
      m_sanitize m = m_sanitize m' -> m_nopatterns m = m_nopatterns m' ->
      List.Forall (topx ea (genv_of w k) (w_names w) (wild_of w k cprops) (doms_of w k cprops cdoms)) ts ->
      check_trees w k m ts cprops cdoms = check_trees w k m' ts cprops cdoms.
Proof. exact cache_mode_irrelevantX. Qed.
Print Assumptions C04_cache_mode_irrelevant_ext.

Theorem C04_batch_position_ext :
  forall ea (w : world) k,
    List.Forall (shaped (Lpn (w_p w) (w_n w))) (w_upd w) ->
    shaped (Lpn (w_p w) (w_n w)) (w_unit w) ->
    (forall v v', (forall j, v (TP j) = v' (TP j)) ->
       mem (Lpn (w_p w) (w_n w)) (w_unit w) v = mem (Lpn (w_p w) (w_n w)) (w_unit w) v') ->
    length (w_names w) <= w_n w ->
    forall cprops cdoms (Gamma : str -> val -> Prop),
      ctx_ignores_copies Gamma ->
      wild_sets_ok (genv_of w k) Gamma (wild_of w k cprops) ->
      dom_sets_ok (genv_of w k) Gamma (doms_of w k cprops cdoms) ->
    forall m ts rs i dt dr,
      m_ext m = true -> m_unsafe_ex m = false ->
      List.Forall (topx ea (genv_of w k) (w_names w) (wild_of w k cprops) (doms_of w k cprops cdoms)) ts ->
      check_trees w k m ts cprops cdoms = Ok rs -> i < length ts ->
      check_trees w k m [nth i ts dt] cprops cdoms = Ok [nth i rs dr].
Proof. exact batch_positionX. Qed.
Print Assumptions C04_batch_position_ext.

Theorem C04_batch_permutation_ext :
  forall ea (w : world) k,
    List.Forall (shaped (Lpn (w_p w) (w_n w))) (w_upd w) ->
    shaped (Lpn (w_p w) (w_n w)) (w_unit w) ->
    (forall v v', (forall j, v (TP j) = v' (TP j)) ->
       mem (Lpn (w_p w) (w_n w)) (w_unit w) v = mem (Lpn (w_p w) (w_n w)) (w_unit w) v') ->
    length (w_names w) <= w_n w ->
    forall cprops cdoms (Gamma : str -> val -> Prop),
      ctx_ignores_copies Gamma ->
      wild_sets_ok (genv_of w k) Gamma (wild_of w k cprops) ->
      dom_sets_ok (genv_of w k) Gamma (doms_of w k cprops cdoms) ->
    forall m ts ts' rs,
      m_ext m = true -> m_unsafe_ex m = false ->
      List.Forall (topx ea (genv_of w k) (w_names w) (wild_of w k cprops) (doms_of w k cprops cdoms)) ts ->
      Permutation ts ts' -> check_trees w k m ts cprops cdoms = Ok rs ->
      exists rs', check_trees w k m ts' cprops cdoms = Ok rs'
                  /\ Permutation (combine ts rs) (combine ts' rs').
Proof. exact batch_permutationX. Qed.
Print Assumptions C04_batch_permutation_ext.

Theorem C04_batch_repetition_ext :
  forall ea (w : world) k,
    List.Forall (shaped (Lpn (w_p w) (w_n w))) (w_upd w) ->
    shaped (Lpn (w_p w) (w_n w)) (w_unit w) ->
    (forall v v', (forall j, v (TP j) = v' (TP j)) ->
       mem (Lpn (w_p w) (w_n w)) (w_unit w) v = mem (Lpn (w_p w) (w_n w)) (w_unit w) v') ->
    length (w_names w) <= w_n w ->
    forall cprops cdoms (Gamma : str -> val -> Prop),
      ctx_ignores_copies Gamma ->
      wild_sets_ok (genv_of w k) Gamma (wild_of w k cprops) ->
      dom_sets_ok (genv_of w k) Gamma (doms_of w k cprops cdoms) ->
    forall m t ts r1 r2 rs,
      m_ext m = true -> m_unsafe_ex m = false ->
      List.Forall (topx ea (genv_of w k) (w_names w) (wild_of w k cprops) (doms_of w k cprops cdoms))
                  (t :: t :: ts) ->
      check_trees w k m (t :: t :: ts) cprops cdoms = Ok (r1 :: r2 :: rs) ->
      r1 = r2 /\ check_trees w k m (t :: ts) cprops cdoms = Ok (r1 :: rs).
Proof. exact batch_repetitionX. Qed.
Print Assumptions C04_batch_repetition_ext.

(** ** the side conditions are those of the pipeline *)

(** what [validate_all] returns in the extended syntax: parsed, preprocessed, supported
    formulae whose labels were all found in the context map *)
Theorem C04_validate_all_ext_spec :
  forall ea props k ctx fs ts cp cd,
    validate_all ea true props k ctx fs = Ok (ts, cp, cd) ->
    List.Forall (fun t =>
        (exists f t0, parse_formula ea true f = Ok t0 /\ preprocess props t0 = Ok t)
        /\ num_hctl_vars t <= k
        /\ (forall l, has_wild l t -> exists s, In (l, s) cp)
        /\ (forall l, has_dom l t -> exists s, In (l, s) cd)) ts
    /\ (forall l s, In (l, s) cp -> alookup str_eqb l ctx = Some s)
    /\ (forall l s, In (l, s) cd -> alookup str_eqb l ctx = Some s).
Proof. exact validate_all_ext_spec. Qed.
Print Assumptions C04_validate_all_ext_spec.

Theorem C04_validated_topx :
  forall ea (w : world) k cp cd t,
    validx ea (w_names w) k cp cd t ->
    topx ea (genv_of w k) (w_names w) (wild_of w k cp) (doms_of w k cp cd) t.
Proof. exact validx_topx. Qed.
Print Assumptions C04_validated_topx.

(** the extended string entry point, whatever the strings: duplicate marking does not change
    the outcome (the context predicates are those of the user's map, [Gamma_of]) *)
Theorem C04_model_check_cache_mode_irrelevant_ext :
  forall ea (w : world) k m m' ctx fs,
    List.Forall (shaped (Lpn (w_p w) (w_n w))) (w_upd w) ->
    shaped (Lpn (w_p w) (w_n w)) (w_unit w) ->
    (forall v v', (forall j, v (TP j) = v' (TP j)) ->
       mem (Lpn (w_p w) (w_n w)) (w_unit w) v = mem (Lpn (w_p w) (w_n w)) (w_unit w) v') ->
    length (w_names w) <= w_n w ->
    (forall l s, alookup str_eqb l ctx = Some s -> shaped (Lpn (w_p w) (w_n w)) s) ->
    m_ext m = true -> m_unsafe_ex m = false -> m_ext m' = true -> m_unsafe_ex m' = false ->
    m_sanitize m = m_sanitize m' -> m_nopatterns m = m_nopatterns m' ->
    model_check ea w k m ctx fs = model_check ea w k m' ctx fs.
Proof. exact model_check_cache_mode_irrelevantX. Qed.
Print Assumptions C04_model_check_cache_mode_irrelevant_ext.

(** * Examples (non-vacuity) and the counterexample to node-level exactness *)

(** the world of C04b (variables a, b; one parameter bit; two spare copies), two domains
    A = "a is 1", B = "b is 1", and
      g1 = 3{x} in %A%: (EX {x})
      g2 = 3{x} in %B%: 3{xx} in %A%: (AX (EX {xx})) *)
Definition exc_ea : N -> bool := fun _ => false.
Definition exc_w : world :=
  {| w_p := 1; w_n := 2; w_names := [[97%N]; [98%N]];
     w_upd := [const (Lpn 1 2) true; lit (Lpn 1 2) (TS 0)];
     w_unit := const (Lpn 1 2) true |}.
Definition exc_G : genv := genv_of exc_w 2.
Definition exc_U : tt := unit_of exc_w 2.
Definition exc_lA : str := [65%N].
Definition exc_lB : str := [66%N].
Definition exc_vx : tree := Terminal (AVar (xs 1)).
Definition exc_vxx : tree := Terminal (AVar (xs 2)).
Definition exc_g1 : tree := Hybrid Exists (xs 1) (Some exc_lA) (Unary EX exc_vx).
Definition exc_g2 : tree :=
  Hybrid Exists (xs 1) (Some exc_lB)
    (Hybrid Exists (xs 2) (Some exc_lA) (Unary AX (Unary EX exc_vxx))).
Definition exc_cdoms : list (str * tt) :=
  [(exc_lA, lit (Lpn 1 2) (TS 0)); (exc_lB, lit (Lpn 1 2) (TS 1))].
Definition exc_doms : list (str * tt) := doms_of exc_w 2 [] exc_cdoms.
Definition exc_md (nc : bool) : mode :=
  {| m_ext := true; m_sanitize := false; m_unsafe_ex := false; m_nocache := nc;
     m_nopatterns := false |}.

(** the hypotheses of part B on the context predicates, the label sets and the formulae hold for
    this instance (those on the world -- shaped update functions and unit, no more names than
    variables -- are not part of the statement) *)
Example C04c_ex_hypotheses :
  exists Gamma : str -> val -> Prop,
    ctx_ignores_copies Gamma
    /\ wild_sets_ok exc_G Gamma (wild_of exc_w 2 [])
    /\ dom_sets_ok exc_G Gamma exc_doms
    /\ List.Forall (topx exc_ea exc_G (w_names exc_w) (wild_of exc_w 2 []) exc_doms) [exc_g1; exc_g2].
Proof.
  assert (forall l s, alookup str_eqb l exc_cdoms = Some s -> shaped (Lpn (w_p exc_w) (w_n exc_w)) s) as CS.
  { intros l s E. unfold exc_cdoms in E. cbn [alookup] in E.
    destruct (str_eqb l exc_lA); [injection E as <-; vm_compute; tauto|].
    destruct (str_eqb l exc_lB); [injection E as <-; vm_compute; tauto | discriminate E]. }
  pose proof (ctx_lifted_ok exc_w 2 exc_cdoms CS) as CO.
  exists (Gamma_of exc_G (ctx_lifted exc_w 2 exc_cdoms)).
  split; [apply Gamma_of_ignores_copies, CO|].
  split; [apply (picked_wild_ok _ _ CO), (wild_picked exc_w 2 exc_cdoms []); intros l s []|].
  split.
  { apply (picked_doms_ok _ _ CO), (doms_picked exc_w 2 exc_cdoms [] exc_cdoms).
    intros l s [E | [E | []]]; injection E as <- <-; reflexivity. }
  assert (forall t, well_namedb exc_ea true t = true -> knownx (w_names exc_w) (wild_of exc_w 2 []) exc_doms t ->
            supported exc_G t -> depth_named 0 t -> scoped exc_G [] t ->
            topx exc_ea exc_G (w_names exc_w) (wild_of exc_w 2 []) exc_doms t) as K.
  { intros t A B C D E. split; [|split; assumption]. split; [apply well_namedb_sound, A|]. split; assumption. }
  constructor; [|constructor; [|constructor]]; apply K; try reflexivity.
  - cbn [exc_g1 knownx exc_vx]. repeat split. vm_compute. discriminate.
  - cbn. repeat split; discriminate.
  - cbn. repeat split. exists 0. split; [lia | reflexivity].
  - cbn [exc_g1 scoped exc_vx]. exists 0. split; [reflexivity|]. split; [intros []|]. vm_compute. discriminate.
  - cbn [exc_g2 knownx exc_vxx]. repeat split; vm_compute; discriminate.
  - cbn. repeat split; discriminate.
  - cbn. repeat split. exists 1. split; [lia | reflexivity].
  - cbn [exc_g2 scoped exc_vxx]. exists 0. split; [reflexivity|]. split; [intros []|].
    exists 1. split; [reflexivity|]. split; [intros [X | []]; discriminate X|]. vm_compute. discriminate.
Qed.

(** (EX {x}) of g1 and (EX {xx}) of g2 have the same key -- same canonical text, same canonical
    domain [(var0, Some A)] -- and are marked; the results with and without marking agree *)
Example C04c_ex_batch :
  (exists k0, mark_duplicates [exc_g1; exc_g2] = [(k0, 1)]
              /\ k0 = fst (node_key (Unary EX exc_vx) [(xs 1, Some exc_lA)])
              /\ k0 = fst (node_key (Unary EX exc_vxx) [(xs 1, Some exc_lB); (xs 2, Some exc_lA)]))
  /\ check_trees exc_w 2 (exc_md false) [exc_g1; exc_g2] [] exc_cdoms
     = check_trees exc_w 2 (exc_md true) [exc_g1; exc_g2] [] exc_cdoms
  /\ exists rs, check_trees exc_w 2 (exc_md false) [exc_g1; exc_g2] [] exc_cdoms = Ok rs
                /\ map card rs = [128; 96].
Proof.
  split; [eexists; split; [|split]; vm_compute; reflexivity|]. split.
  - (* the theorem, at this instance *)
    destruct C04c_ex_hypotheses as (Gamma & Gx & WO & DO & F).
    apply (C04_cache_mode_irrelevant_ext exc_ea exc_w 2) with (Gamma := Gamma); try reflexivity; try assumption.
    + constructor; [apply shaped_const|]. constructor; [apply shaped_lit | constructor].
    + apply shaped_const.
    + intros v v' _. cbn [w_unit exc_w]. rewrite !mem_const. reflexivity.
  - eexists. split; vm_compute; reflexivity.
Qed.

(** node-level exactness is FALSE in a restricted scope.  After g1 the cache holds the set of
    (EX {x}) computed in the unit restricted by A(x) only.  The node (EX {xx}) of g2 is then
    evaluated in the scope  x in B, xx in A  (unit [exc_Ur2]): it is served from the cache (the
    entry is evicted), the renamed set has 32 members, the cache-free evaluation in [exc_Ur2] has
    16 -- but the two agree inside [exc_Ur2] (tier 1), and g2 as a whole gets the exact result
    ([C04c_ex_batch]). *)
Definition exc_c0 : ectx :=
  extend_context (wprops_of exc_w 2 []) (dprops_of exc_w 2 exc_cdoms)
                 (ctx_new (mark_duplicates [exc_g1; exc_g2])).
Definition exc_st : tt := steady_of exc_G exc_U.
Definition exc_sw : switches := {| use_patterns := true |}.
Definition exc_dset (l : str) : tt :=
  match alookup str_eqb l exc_doms with Some s => s | None => Leaf false end.
Definition exc_Ur1 : tt := tand exc_U (compute_valid_domain_for_var exc_G exc_U (exc_dset exc_lB) 0).
Definition exc_Ur2 : tt := tand exc_Ur1 (compute_valid_domain_for_var exc_G exc_Ur1 (exc_dset exc_lA) 1).
Definition exc_node : tree := Unary EX exc_vxx.

Example C04_node_exactness_refuted :
  exists r1 c1 R c2 R',
    eval_node exc_G (w_names exc_w) exc_sw exc_st exc_g1 exc_U exc_c0 = Ok (r1, c1)
    /\ length (cache c1) = 1
    /\ eval_node exc_G (w_names exc_w) exc_sw exc_st exc_node exc_Ur2
         (set_free c1 [(xs 1, Some exc_lB); (xs 2, Some exc_lA)]) = Ok (R, c2)
    /\ cache c2 = []
    /\ peval_ext exc_G (w_names exc_w) exc_sw exc_st [] exc_doms exc_node exc_Ur2 = Ok R'
    /\ R <> R' /\ card R = 32 /\ card R' = 16
    /\ tand R exc_Ur2 = tand R' exc_Ur2.
Proof.
  do 5 eexists. split; [vm_compute; reflexivity|]. split; [vm_compute; reflexivity|].
  split; [vm_compute; reflexivity|]. split; [vm_compute; reflexivity|].
  split; [vm_compute; reflexivity|]. split; [vm_compute; discriminate|].
  split; [|split]; vm_compute; reflexivity.
Qed.

Print Assumptions C04c_ex_hypotheses.
Print Assumptions C04c_ex_batch.
Print Assumptions C04_node_exactness_refuted.
Print Assumptions C04_ignores_copies_def.
Print Assumptions C04_srel_def.
Print Assumptions C04_cache_okS_def.
Print Assumptions C04_singleS_def.
Print Assumptions C04_gx_def.
Print Assumptions C04_knownx_def.
Print Assumptions C04_clean_def.
Print Assumptions C04_restr_def.
Print Assumptions C04_ctxinv_def.
Print Assumptions C04_nres_def.
Print Assumptions C04_reg_entry_def.
Print Assumptions C04_key_restr_def.
Print Assumptions C04_storeinv_def.
Print Assumptions C04_frame_def.
Print Assumptions C04_topx_def.
Print Assumptions C04_singleX_def.
