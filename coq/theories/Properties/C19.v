(** C19 -- the aeon-to-bnet converter (src/bin/convert_aeon_to_bnet.rs) preserves the family of
    update functions.  Statements and the last step of each proof; model in Model/Converter.v, lemmas in
    Proofs/ConverterFacts.v.

    Reading guide.  [eval_fn I s f] is the value of the update function [f] in state [s] when
    the function symbols are interpreted by [I : name -> list bool -> bool]; [eval_flat rho s f]
    is the value of a converted function when its zero-arity parameters are valued by
    [rho : name -> bool].  The zero-arity parameter reached for the symbol [n] when its
    arguments evaluate to [bits] is named [gen (pname n) bits] = n ++ "_" ++ bits written with
    '1' / '0' in argument order (Rust: [format!("{name}_")], then [format!("{name_prefix}1")]
    resp. [format!("{name_prefix}0")] per argument).  A set of functions is described by its
    members [F : state -> bool]. *)
From HCTL Require Import Base Converter.
From HCTL Require Import ConverterFacts.

Local Notation param_free_args args := (forallb (fun a => negb (has_param a)) args = true).

(** * explode_function *)

(** the Shannon expansion reads the leaf named by the values of the arguments (any [args]) *)
Theorem C19_explode_eval : forall rho s args prefix,
  eval_flat rho s (explode args prefix) = rho (gen prefix (map (eval_flat rho s) args)).
Proof. exact explode_eval. Qed.

(** the two families of functions coincide ([rho0] is irrelevant: [args] are parameter-free) *)
Theorem C19_explode_family : forall args prefix rho0, param_free_args args ->
  forall F : (nat -> bool) -> bool,
    (exists rho, forall s, F s = eval_flat rho s (explode args prefix)) <->
    (exists g : list bool -> bool, forall s, F s = g (map (eval_flat rho0 s) args)).
Proof. exact explode_family. Qed.

(** right to left, with its witness: rho (prefix ++ bits) := g bits *)
Theorem C19_explode_family_a : forall args prefix g rho0 s, param_free_args args ->
  eval_flat (rho_of_g prefix g) s (explode args prefix) = g (map (eval_flat rho0 s) args).
Proof. exact explode_family_a. Qed.

Theorem C19_rho_of_g_spec : forall prefix g bits, rho_of_g prefix g (gen prefix bits) = g bits.
Proof. exact rho_of_g_gen. Qed.

(** left to right, with its witness: g bits := rho (prefix ++ bits); holds for arbitrary [args] *)
Theorem C19_explode_family_b : forall args prefix rho s,
  eval_flat rho s (explode args prefix) = g_of_rho prefix rho (map (eval_flat rho s) args).
Proof. intros args prefix rho s. apply explode_eval. Qed.

(** g |-> rho and rho |-> g are mutually inverse on the generated names, these names are
    pairwise distinct, and only those with |bits| = |args| matter *)
Theorem C19_explode_bijection_g : forall prefix g bits,
  g_of_rho prefix (rho_of_g prefix g) bits = g bits.
Proof. intros prefix g bits. apply rho_of_g_gen. Qed.

Theorem C19_explode_bijection_rho : forall prefix rho bits,
  rho_of_g prefix (g_of_rho prefix rho) (gen prefix bits) = rho (gen prefix bits).
Proof. intros prefix rho bits. apply rho_of_g_gen. Qed.

Theorem C19_explode_names_distinct : forall prefix bits bits',
  gen prefix bits = gen prefix bits' -> bits = bits'.
Proof.
  intros prefix bits bits' E. apply app_inv_head, (f_equal unbits) in E.
  rewrite !unbits_bits in E. injection E as E. exact E.
Qed.

Theorem C19_explode_only_generated_names : forall args prefix rho rho' s, param_free_args args ->
  (forall bits, length bits = length args -> rho (gen prefix bits) = rho' (gen prefix bits)) ->
  eval_flat rho s (explode args prefix) = eval_flat rho' s (explode args prefix).
Proof.
  intros args prefix rho rho' s H Hag.
  rewrite !explode_eval, (map_eval_param_free rho rho' s args H). apply Hag, map_length.
Qed.

(** * flatten_fn_update *)

(** No freshness hypothesis between function symbols is needed: thanks to the '_' separator
    the generated names of distinct (symbol, argument values) pairs are always distinct. *)
Theorem C19_generated_names_distinct : forall n bits n' bits',
  gen (pname n) bits = gen (pname n') bits' -> n = n' /\ bits = bits'.
Proof. exact gen_pname_inj. Qed.

(** the two families of functions coincide (flatten without the collision loop, i.e. no
    generated name is a variable name) *)
Theorem C19_flatten_family : forall f (F : (nat -> bool) -> bool),
  (exists rho, forall s, F s = eval_flat rho s (flatten f)) <->
  (exists I, forall s, F s = eval_fn I s f).
Proof.
  intros f F. rewrite <- (flatten_rs_no_fuel (fun _ => false)).
  apply flatten_rs_family_distinct, names_distinct_no_vars.
Qed.

(** with witnesses that do not depend on [f] (so they serve all update functions of a network
    at once): rho (n ++ "_" ++ bits) := I n bits, resp. I n bits := rho (n ++ "_" ++ bits) *)
Theorem C19_flatten_of_interpretation : forall I s f,
  eval_flat (rho_of_I I) s (flatten f) = eval_fn I s f.
Proof. exact flatten_eval_rho_of_I. Qed.

Theorem C19_flatten_of_valuation : forall rho s f,
  eval_flat rho s (flatten f) = eval_fn (I_of_rho rho) s f.
Proof. exact flatten_eval_I_of_rho. Qed.

Theorem C19_flatten_bijection_I : forall I n bits, I_of_rho (rho_of_I I) n bits = I n bits.
Proof. intros I n bits. apply rho_of_I_gen. Qed.

Theorem C19_flatten_bijection_rho : forall rho n bits,
  rho_of_I (I_of_rho rho) (gen (pname n) bits) = rho (gen (pname n) bits).
Proof. intros rho n bits. apply rho_of_I_gen. Qed.

Theorem C19_flatten_only_generated_names : forall rho s f,
  eval_flat rho s (flatten f) = eval_flat (rho_of_I (I_of_rho rho)) s (flatten f).
Proof. intros rho s f. rewrite flatten_eval_rho_of_I. apply flatten_eval_I_of_rho. Qed.

(** the output mentions zero-arity parameters only *)
Theorem C19_flatten_is_flat : forall f, is_flat (flatten f) = true.
Proof. exact flatten_flat. Qed.

(** ** with the collision loop of the Rust code ([flatten_rs]; any fuel)

    The freshness hypothesis [names_distinct isvar fuel (occs f)]: for the symbol occurrences
    (n, k) of [f] and all bits of length k, the names [bump isvar fuel (n ++ "_" ++ bits)]
    that the loop finally returns are pairwise distinct. *)
Theorem C19_flatten_rs_family : forall isvar fuel f, names_distinct isvar fuel (occs f) ->
  forall F : (nat -> bool) -> bool,
    (exists rho, forall s, F s = eval_flat rho s (flatten_rs isvar fuel f)) <->
    (exists I, forall s, F s = eval_fn I s f).
Proof. exact flatten_rs_family_distinct. Qed.

(** one valuation for all functions whose symbol occurrences lie in [C] *)
Theorem C19_flatten_rs_of_interpretation : forall isvar fuel C I s f,
  names_distinct isvar fuel C -> incl (occs f) C ->
  eval_flat (rho_of_I_rs isvar fuel C I) s (flatten_rs isvar fuel f) = eval_fn I s f.
Proof. exact flatten_rs_eval_rho_of_I. Qed.

(** this direction needs no hypothesis *)
Theorem C19_flatten_rs_of_valuation : forall isvar fuel rho s f,
  eval_flat rho s (flatten_rs isvar fuel f) = eval_fn (I_of_rho_rs isvar fuel rho) s f.
Proof. exact flatten_rs_eval_I_of_rho. Qed.

(** sufficient: no generated name is a variable name; then the loop never fires *)
Theorem C19_clash_free_sufficient : forall isvar fuel f,
  clash_free isvar f -> names_distinct isvar fuel (occs f).
Proof. intros isvar fuel f CF. apply names_distinct_not_var, clash_free_occs, CF. Qed.

Theorem C19_flatten_rs_clash_free : forall isvar fuel f,
  clash_free isvar f -> flatten_rs isvar fuel f = flatten f.
Proof. exact flatten_rs_eq. Qed.

(** some hypothesis is needed in the model: with a variable "f_", the zero-arity symbols "f"
    and "f_" are both renamed to "f__" and (f xor f_) becomes constantly false *)
Theorem C19_clash_example :
  flatten_rs clash_isvar 3 clash_fn = FBin BXor (FParam [102; 95; 95]%N []) (FParam [102; 95; 95]%N []) /\
  exists I, forall rho s, eval_flat rho s (flatten_rs clash_isvar 3 clash_fn) <> eval_fn I s clash_fn.
Proof. exact clash_example. Qed.

(** * specified functions are unchanged (syntactically) *)
Theorem C19_specified_preserved : forall f, has_param f = false -> flatten f = f.
Proof. apply param_free_ind; cbn [flatten]; congruence. Qed.

Theorem C19_specified_preserved_rs : forall isvar fuel f,
  has_param f = false -> flatten_rs isvar fuel f = f.
Proof. intros isvar fuel. apply param_free_ind; cbn [flatten_rs]; congruence. Qed.

(** * flatten_update_function for one variable *)

(** a regulated variable gets the flattening of its update function, an implicit function
    being the symbol named like the variable applied to the regulators *)
Theorem C19_flatten_update_regulated : forall name regs upd, regs <> [] ->
  flatten_update name regs upd = Some (flatten (update_of name regs upd)).
Proof. exact flatten_update_regulated. Qed.

(** An observation, not a preservation result: variables without regulators are skipped, so a
    zero-arity parameter [p] in their update function keeps its name while it is renamed to
    "p_" in every other update function; the two occurrences become independent. *)
Theorem C19_skipped_variable_decorrelated : forall p : str,
  let fa := FParam p [] in
  flatten_update [97]%N [] (Some fa) = Some fa /\
  flatten_update [98]%N [0] (Some fa) = Some (FParam (pname p) []) /\
  exists rho, forall s, eval_flat rho s fa <> eval_flat rho s (FParam (pname p) []).
Proof. exact skipped_variable_decorrelated. Qed.

Print Assumptions C19_explode_eval.
Print Assumptions C19_explode_family.
Print Assumptions C19_explode_family_a.
Print Assumptions C19_rho_of_g_spec.
Print Assumptions C19_explode_family_b.
Print Assumptions C19_explode_bijection_g.
Print Assumptions C19_explode_bijection_rho.
Print Assumptions C19_explode_names_distinct.
Print Assumptions C19_explode_only_generated_names.
Print Assumptions C19_generated_names_distinct.
Print Assumptions C19_flatten_family.
Print Assumptions C19_flatten_of_interpretation.
Print Assumptions C19_flatten_of_valuation.
Print Assumptions C19_flatten_bijection_I.
Print Assumptions C19_flatten_bijection_rho.
Print Assumptions C19_flatten_only_generated_names.
Print Assumptions C19_flatten_is_flat.
Print Assumptions C19_flatten_rs_family.
Print Assumptions C19_flatten_rs_of_interpretation.
Print Assumptions C19_flatten_rs_of_valuation.
Print Assumptions C19_clash_free_sufficient.
Print Assumptions C19_flatten_rs_clash_free.
Print Assumptions C19_clash_example.
Print Assumptions C19_specified_preserved.
Print Assumptions C19_specified_preserved_rs.
Print Assumptions C19_flatten_update_regulated.
Print Assumptions C19_skipped_variable_decorrelated.
