(** C11 -- the temporal operators obey their fixed-point laws on models of any size.
    [S], [T] are arbitrary argument sets inside the unit set [U], the network (genv) is
    arbitrary.  Every law compares two sets through the predicates they denote
    ([Laws.spec_unique], [Laws.spec_subset]) and cites the law of the specification. *)
From HCTL Require Import Base TT Ops Kripke.
From HCTL Require Import SemFacts Laws.

Local Notation inU G U A := (forall v, mem (g_L G) A v = true -> mem (g_L G) U v = true).
Local Notation st G U := (steady_of G U).

Theorem C11_ef_unfold : forall G U, wf_graph G U -> forall S R,
  shaped (g_L G) S -> inU G U S ->
  eval_ef_saturated G U S = Ok R -> R = tor S (eval_ex G R (st G U)).
Proof.
  intros G U WF S R SS IS H. pose proof (self_spec S SS IS) as HS.
  pose proof (wf_unary_spec WF Syntax.EF HS H) as HR.
  apply (spec_unique WF HR (spec_or G U _ _ _ _ HS (wf_unary_spec WF Syntax.EX HR eq_refl))).
  intros w _. cbn [sat_unary]. unfold EFs. rewrite KripkeFacts.EUs_unfold at 1. tauto.
Qed.

Theorem C11_eg_unfold : forall G U, wf_graph G U -> forall S R,
  shaped (g_L G) S -> inU G U S ->
  eval_eg G S (st G U) = Ok R -> R = tand S (eval_ex G R (st G U)).
Proof.
  intros G U WF S R SS IS H. pose proof (self_spec S SS IS) as HS.
  pose proof (wf_unary_spec WF Syntax.EG HS H) as HR.
  apply (spec_unique WF HR (spec_and G U _ _ _ _ HS (wf_unary_spec WF Syntax.EX HR eq_refl))).
  intros w _. apply KripkeFacts.EGs_unfold.
Qed.

Theorem C11_af_unfold : forall G U, wf_graph G U -> forall S R,
  shaped (g_L G) S -> inU G U S ->
  eval_af G U S (st G U) = Ok R -> R = tor S (eval_ax G U R (st G U)).
Proof.
  intros G U WF S R SS IS H. pose proof (self_spec S SS IS) as HS.
  pose proof (wf_unary_spec WF Syntax.AF HS H) as HR.
  apply (spec_unique WF HR (spec_or G U _ _ _ _ HS (wf_unary_spec WF Syntax.AX HR eq_refl))).
  intros w _. cbn [sat_unary]. unfold AFs. rewrite KripkeFacts.AUs_unfold at 1. tauto.
Qed.

Theorem C11_ag_unfold : forall G U, wf_graph G U -> forall S R,
  shaped (g_L G) S -> inU G U S ->
  eval_ag G U S = Ok R -> R = tand S (eval_ax G U R (st G U)).
Proof.
  intros G U WF S R SS IS H. pose proof (self_spec S SS IS) as HS.
  pose proof (wf_unary_spec WF Syntax.AG HS H) as HR.
  apply (spec_unique WF HR (spec_and G U _ _ _ _ HS (wf_unary_spec WF Syntax.AX HR eq_refl))).
  intros w _. apply KripkeFacts.AGs_unfold.
Qed.

Theorem C11_eu_unfold : forall G U, wf_graph G U -> forall S T R,
  shaped (g_L G) S -> inU G U S -> shaped (g_L G) T -> inU G U T ->
  eval_eu_saturated G S T = Ok R -> R = tor T (tand S (eval_ex G R (st G U))).
Proof.
  intros G U WF S T R SS IS ST IT H.
  pose proof (self_spec S SS IS) as HS. pose proof (self_spec T ST IT) as HT.
  pose proof (wf_binary_spec WF Syntax.EU HS HT H) as HR.
  apply (spec_unique WF HR (spec_or G U _ _ _ _ HT (spec_and G U _ _ _ _ HS (wf_unary_spec WF Syntax.EX HR eq_refl)))).
  intros w _. apply KripkeFacts.EUs_unfold.
Qed.

Theorem C11_au_unfold : forall G U, wf_graph G U -> forall S T R,
  shaped (g_L G) S -> inU G U S -> shaped (g_L G) T -> inU G U T ->
  eval_au G U S T (st G U) = Ok R -> R = tor T (tand S (eval_ax G U R (st G U))).
Proof.
  intros G U WF S T R SS IS ST IT H.
  pose proof (self_spec S SS IS) as HS. pose proof (self_spec T ST IT) as HT.
  pose proof (wf_binary_spec WF Syntax.AU HS HT H) as HR.
  apply (spec_unique WF HR (spec_or G U _ _ _ _ HT (spec_and G U _ _ _ _ HS (wf_unary_spec WF Syntax.AX HR eq_refl)))).
  intros w _. apply KripkeFacts.AUs_unfold.
Qed.

(** dualities: AX, AF, AG are complements (relative to the unit) of EX, EG, EF of the
    complement -- and the independently computed A[true U S] agrees with AF S *)
Theorem C11_ax_dual : forall G U S,
  eval_ax G U S (st G U) = eval_neg U (eval_ex G (eval_neg U S) (st G U)).
Proof. reflexivity. Qed.
Theorem C11_af_dual : forall G U S, eval_af G U S (st G U) = (let* r := eval_eg G (eval_neg U S) (st G U) in Ok (eval_neg U r)).
Proof. reflexivity. Qed.
Theorem C11_ag_dual : forall G U S, eval_ag G U S = (let* r := eval_ef_saturated G U (eval_neg U S) in Ok (eval_neg U r)).
Proof. reflexivity. Qed.
Theorem C11_af_is_au : forall G U, wf_graph G U -> forall S R R', shaped (g_L G) S -> inU G U S ->
  eval_af G U S (st G U) = Ok R -> eval_au G U U S (st G U) = Ok R' -> R = R'.
Proof.
  intros G U WF S R R' SS IS H H'. pose proof (self_spec S SS IS) as HS.
  apply (spec_unique WF (wf_unary_spec WF Syntax.AF HS H) (wf_binary_spec WF Syntax.AU (wf_spec_unit WF) HS H')).
  intros w _. reflexivity.
Qed.

(** the results denote the operators of the specification (least / greatest fixed points
    over the asynchronous transition relation with self-loops on steady states) *)
Theorem C11_ex_meaning : forall G U, wf_graph G U -> forall A P,
  spec_of G U A P -> spec_of G U (eval_ex G A (st G U)) (EXs G P).
Proof. intros G U WF A P HA. exact (wf_unary_spec WF Syntax.EX HA eq_refl). Qed.
Theorem C11_ax_meaning : forall G U, wf_graph G U -> forall A P,
  spec_of G U A P -> spec_of G U (eval_ax G U A (st G U)) (AXs G P).
Proof. intros G U WF A P HA. exact (wf_unary_spec WF Syntax.AX HA eq_refl). Qed.
Theorem C11_eu_meaning : forall G U, wf_graph G U -> forall A B P Q R,
  spec_of G U A P -> spec_of G U B Q ->
  eval_eu_saturated G A B = Ok R -> spec_of G U R (EUs G P Q).
Proof. intros G U WF A B P Q R. exact (wf_binary_spec WF Syntax.EU). Qed.
Theorem C11_au_meaning : forall G U, wf_graph G U -> forall A B P Q R,
  spec_of G U A P -> spec_of G U B Q ->
  eval_au G U A B (st G U) = Ok R -> spec_of G U R (AUs G P Q).
Proof. intros G U WF A B P Q R. exact (wf_binary_spec WF Syntax.AU). Qed.
Theorem C11_eg_meaning : forall G U, wf_graph G U -> forall A P R,
  spec_of G U A P -> eval_eg G A (st G U) = Ok R -> spec_of G U R (EGs G P).
Proof. intros G U WF A P R. exact (wf_unary_spec WF Syntax.EG). Qed.
Theorem C11_ag_meaning : forall G U, wf_graph G U -> forall A P R,
  spec_of G U A P -> eval_ag G U A = Ok R -> spec_of G U R (AGs G P).
Proof. intros G U WF A P R. exact (wf_unary_spec WF Syntax.AG). Qed.
Theorem C11_af_meaning : forall G U, wf_graph G U -> forall A P R,
  spec_of G U A P -> eval_af G U A (st G U) = Ok R -> spec_of G U R (AFs G P).
Proof. intros G U WF A P R. exact (wf_unary_spec WF Syntax.AF). Qed.

(** monotonicity in every argument *)
Theorem C11_ex_mono : forall G U, wf_graph G U -> forall S S', shaped (g_L G) S -> shaped (g_L G) S' ->
  inU G U S -> inU G U S' -> (forall v, mem (g_L G) S v = true -> mem (g_L G) S' v = true) ->
  forall v, mem (g_L G) (eval_ex G S (st G U)) v = true -> mem (g_L G) (eval_ex G S' (st G U)) v = true.
Proof.
  intros G U WF S S' SS SS' IS IS' HS.
  apply (unary_mono WF Syntax.EX (fun P P' w HP => KripkeFacts.EXs_mono_on G _ (wf_flip WF) P P' w HP)
           SS SS' IS IS' HS eq_refl eq_refl).
Qed.
Theorem C11_ax_mono : forall G U, wf_graph G U -> forall S S', shaped (g_L G) S -> shaped (g_L G) S' ->
  inU G U S -> inU G U S' -> (forall v, mem (g_L G) S v = true -> mem (g_L G) S' v = true) ->
  forall v, mem (g_L G) (eval_ax G U S (st G U)) v = true -> mem (g_L G) (eval_ax G U S' (st G U)) v = true.
Proof.
  intros G U WF S S' SS SS' IS IS' HS.
  apply (unary_mono WF Syntax.AX (fun P P' w HP => KripkeFacts.AXs_mono_on G _ (wf_flip WF) P P' w HP)
           SS SS' IS IS' HS eq_refl eq_refl).
Qed.
Theorem C11_eu_mono : forall G U, wf_graph G U -> forall S S' T T',
  shaped (g_L G) S -> shaped (g_L G) S' -> shaped (g_L G) T -> shaped (g_L G) T' ->
  inU G U S -> inU G U S' -> inU G U T -> inU G U T' ->
  (forall v, mem (g_L G) S v = true -> mem (g_L G) S' v = true) ->
  (forall v, mem (g_L G) T v = true -> mem (g_L G) T' v = true) ->
  forall R R' v, eval_eu_saturated G S T = Ok R -> eval_eu_saturated G S' T' = Ok R' ->
  mem (g_L G) R v = true -> mem (g_L G) R' v = true.
Proof.
  intros G U WF S S' T T' SS SS' ST ST' IS IS' IT IT' HS HT R R' v H H'.
  exact (binary_mono WF Syntax.EU (fun P P' Q Q' w HP HQ => KripkeFacts.EUs_mono_on G _ (wf_flip WF) P P' Q Q' HP HQ w)
           SS SS' ST ST' IS IS' IT IT' HS HT H H' v).
Qed.
Theorem C11_au_mono : forall G U, wf_graph G U -> forall S S' T T',
  shaped (g_L G) S -> shaped (g_L G) S' -> shaped (g_L G) T -> shaped (g_L G) T' ->
  inU G U S -> inU G U S' -> inU G U T -> inU G U T' ->
  (forall v, mem (g_L G) S v = true -> mem (g_L G) S' v = true) ->
  (forall v, mem (g_L G) T v = true -> mem (g_L G) T' v = true) ->
  forall R R' v, eval_au G U S T (st G U) = Ok R -> eval_au G U S' T' (st G U) = Ok R' ->
  mem (g_L G) R v = true -> mem (g_L G) R' v = true.
Proof.
  intros G U WF S S' T T' SS SS' ST ST' IS IS' IT IT' HS HT R R' v H H'.
  exact (binary_mono WF Syntax.AU (fun P P' Q Q' w HP HQ => KripkeFacts.AUs_mono_on G _ (wf_flip WF) P P' Q Q' HP HQ w)
           SS SS' ST ST' IS IS' IT IT' HS HT H H' v).
Qed.
Theorem C11_eg_mono : forall G U, wf_graph G U -> forall S S',
  shaped (g_L G) S -> shaped (g_L G) S' -> inU G U S -> inU G U S' ->
  (forall v, mem (g_L G) S v = true -> mem (g_L G) S' v = true) ->
  forall R R' v, eval_eg G S (st G U) = Ok R -> eval_eg G S' (st G U) = Ok R' ->
  mem (g_L G) R v = true -> mem (g_L G) R' v = true.
Proof.
  intros G U WF S S' SS SS' IS IS' HS R R' v H H'.
  exact (unary_mono WF Syntax.EG (fun P P' w HP => KripkeFacts.EGs_mono_on G _ (wf_flip WF) P P' HP w)
           SS SS' IS IS' HS H H' v).
Qed.

Print Assumptions C11_ef_unfold.
Print Assumptions C11_eg_unfold.
Print Assumptions C11_af_unfold.
Print Assumptions C11_ag_unfold.
Print Assumptions C11_eu_unfold.
Print Assumptions C11_au_unfold.
Print Assumptions C11_ax_dual.
Print Assumptions C11_af_dual.
Print Assumptions C11_ag_dual.
Print Assumptions C11_af_is_au.
Print Assumptions C11_ex_meaning.
Print Assumptions C11_ax_meaning.
Print Assumptions C11_eu_meaning.
Print Assumptions C11_au_meaning.
Print Assumptions C11_eg_meaning.
Print Assumptions C11_ag_meaning.
Print Assumptions C11_af_meaning.
Print Assumptions C11_ex_mono.
Print Assumptions C11_ax_mono.
Print Assumptions C11_eu_mono.
Print Assumptions C11_au_mono.
Print Assumptions C11_eg_mono.
