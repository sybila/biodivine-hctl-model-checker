(** C13b -- path semantics: the fixed-point operators of the specification (Spec/Kripke.v)
    coincide with their path definitions (Spec/Paths.v), and so do the sets computed by the
    model (proofs in Proofs/PathFacts.v, PathDec.v, PathLPO.v).

    Hypotheses on the argument predicates P, Q:
      respects P            P does not distinguish pointwise equal valuations (veq);
      forall u, P u \/ ~P u decidability, needed exactly where a path has to be constructed
                            (EG, EW left to right; AU right to left) or where the unfolding
                            "Q or (P and AX ..)" has to be split (AW right to left, Q only).
    Membership in a computed set has both properties.  Decidability of the operators
    themselves is derived from decidability of the arguments (the C13b_dec theorems): the valuations
    reachable from a valuation differ from it in the n state bits only. *)
From HCTL Require Import Base TT Ops Kripke Paths.
From HCTL Require Import SemFacts Laws PathFacts PathDec PathLPO.

Local Notation dec P := (forall u : val, P u \/ ~ P u).
Local Notation inU G U A := (forall v, mem (g_L G) A v = true -> mem (g_L G) U v = true).
Local Notation st G U := (steady_of G U).
Local Notation Mem G A := (fun v0 : val => mem (g_L G) A v0 = true).

(** the transition relation is total: every valuation starts a path *)
Theorem C13b_step_total : forall G v, exists w, step G v w.
Proof. exact step_total. Qed.

Theorem C13b_path_total : forall G v, exists pi, path G pi /\ pi 0 = v.
Proof. exact path_total. Qed.

Theorem C13b_eu : forall G (P Q : val -> Prop), respects P -> respects Q ->
  forall v, EUs G P Q v <-> EU_p G P Q v.
Proof. exact EU_paths. Qed.

Theorem C13b_eu_lr : forall G (P Q : val -> Prop) v, EUs G P Q v -> EU_p G P Q v.
Proof. exact EUs_EU_p. Qed.

Theorem C13b_au_lr : forall G (P Q : val -> Prop) v, respects P -> respects Q ->
  AUs G P Q v -> AU_p G P Q v.
Proof. exact AUs_AU_p. Qed.

Theorem C13b_au_rl : forall G (P Q : val -> Prop) v, respects P -> respects Q ->
  dec (AUs G P Q) -> AU_p G P Q v -> AUs G P Q v.
Proof. exact AU_p_AUs. Qed.

Theorem C13b_au : forall G (P Q : val -> Prop), respects P -> respects Q -> dec P -> dec Q ->
  forall v, AUs G P Q v <-> AU_p G P Q v.
Proof. exact AU_paths. Qed.

Theorem C13b_eg_lr : forall G (P : val -> Prop) v, respects P -> dec (EGs G P) ->
  EGs G P v -> EG_p G P v.
Proof. exact EGs_EG_p. Qed.

Theorem C13b_eg_rl : forall G (P : val -> Prop) v, respects P -> EG_p G P v -> EGs G P v.
Proof. exact EG_p_EGs. Qed.

Theorem C13b_eg : forall G (P : val -> Prop), respects P -> dec P ->
  forall v, EGs G P v <-> EG_p G P v.
Proof. exact EG_paths. Qed.

Theorem C13b_ag : forall G (P : val -> Prop), respects P ->
  forall v, AGs G P v <-> AG_p G P v.
Proof. exact AG_paths. Qed.

Theorem C13b_ew_lr : forall G (P Q : val -> Prop) v, respects P ->
  dec (EUs G P Q) -> dec (EGs G P) -> EWs G P Q v -> EW_p G P Q v.
Proof. exact EWs_EW_p. Qed.

Theorem C13b_ew_rl : forall G (P Q : val -> Prop) v, respects P -> respects Q ->
  EW_p G P Q v -> EWs G P Q v.
Proof. exact EW_p_EWs. Qed.

Theorem C13b_ew : forall G (P Q : val -> Prop), respects P -> respects Q -> dec P -> dec Q ->
  forall v, EWs G P Q v <-> EW_p G P Q v.
Proof. exact EW_paths. Qed.

(** A[P W Q].  Full statement, NOT proved:

      forall G P Q, respects P -> respects Q -> dec P -> dec Q ->
        forall v, AWs G P Q v <-> AW_p G P Q v.

    Right to left holds (C13b_aw_rl).  Left to right must produce, for an ARBITRARY given
    path, one of the disjuncts "P until Q" / "always P", i.e. decide whether Q ever holds on
    an infinite sequence: for all networks this implies the limited principle of
    omniscience (C13b_aw_lr_is_LPO), so it has no proof in Coq without axioms.  Proved
    instead: the equivalence with the two classically equivalent forms of "every path
    satisfies P weak-until Q" -- [wuntil] (P holds as long as Q has not held) and the double
    negation of the disjunction -- and the disjunctive form under the omniscience
    hypothesis for Q on paths (C13b_aw_partial). *)
Theorem C13b_aw_rl : forall G (P Q : val -> Prop), dec Q ->
  forall v, AW_p G P Q v -> AWs G P Q v.
Proof. exact AW_paths_rl. Qed.

Theorem C13b_aw_weak : forall G (P Q : val -> Prop), respects P -> respects Q -> dec Q ->
  forall v, AWs G P Q v <-> AW_w G P Q v.
Proof. exact AW_weak_paths. Qed.

Theorem C13b_aw_nn : forall G (P Q : val -> Prop), respects P -> respects Q -> dec P -> dec Q ->
  forall v, AWs G P Q v <-> AW_nn G P Q v.
Proof. exact AW_nn_paths. Qed.

Theorem C13b_aw_partial : forall G (P Q : val -> Prop), respects P -> respects Q -> dec Q ->
  forall v, (forall pi, path G pi -> (exists j, Q (pi j)) \/ (forall j, ~ Q (pi j))) ->
  (AWs G P Q v <-> AW_p G P Q v).
Proof. exact AW_paths_omniscient. Qed.

Theorem C13b_aw_lr_is_LPO :
  (forall G (P Q : val -> Prop) v, respects P -> respects Q -> dec P -> dec Q ->
     AWs G P Q v -> AW_p G P Q v) ->
  forall a : nat -> bool, (exists k, a k = true) \/ (forall k, a k = false).
Proof. exact AW_paths_lr_implies_LPO. Qed.

(** the three forms of weak until on one path *)
Theorem C13b_until_wuntil : forall (P Q : val -> Prop) (pi : nat -> val),
  until P Q pi \/ always P pi -> wuntil P Q pi.
Proof. exact until_wuntil. Qed.

Theorem C13b_wuntil_nn : forall (P Q : val -> Prop) (pi : nat -> val), dec P -> dec Q ->
  (wuntil P Q pi <-> ~ ~ (until P Q pi \/ always P pi)).
Proof. intros P Q pi PD QD; split; [apply wuntil_nn | apply nn_wuntil]; assumption. Qed.

(** the operators are decidable for decidable arguments *)
Theorem C13b_dec_eu : forall G (P Q : val -> Prop), respects P -> respects Q -> dec P -> dec Q ->
  dec (EUs G P Q).
Proof. exact EUs_dec. Qed.
Theorem C13b_dec_au : forall G (P Q : val -> Prop), respects P -> respects Q -> dec P -> dec Q ->
  dec (AUs G P Q).
Proof. exact AUs_dec. Qed.
Theorem C13b_dec_ew : forall G (P Q : val -> Prop), respects P -> respects Q -> dec P -> dec Q ->
  dec (EWs G P Q).
Proof. exact EWs_dec. Qed.
Theorem C13b_dec_aw : forall G (P Q : val -> Prop), respects P -> respects Q -> dec P -> dec Q ->
  dec (AWs G P Q).
Proof. exact AWs_dec. Qed.
Theorem C13b_dec_eg : forall G (P : val -> Prop), respects P -> dec P -> dec (EGs G P).
Proof. intros G P RP PD u; apply EGs_dec; assumption. Qed.
Theorem C13b_dec_ag : forall G (P : val -> Prop), respects P -> dec P -> dec (AGs G P).
Proof. intros G P RP PD u; apply AGs_dec; assumption. Qed.

(** the sets computed by the model, for arbitrary argument sets inside the unit *)
(** a state satisfies phi EW psi exactly when some path from it satisfies phi until psi or
    satisfies phi forever *)
Theorem C13b_ew_model : forall G U, wf_graph G U -> forall S T R,
  shaped (g_L G) S -> inU G U S -> shaped (g_L G) T -> inU G U T ->
  eval_ew G U S T (st G U) = Ok R ->
  forall v, mem (g_L G) R v = true <-> (mem (g_L G) U v = true /\ EW_p G (Mem G S) (Mem G T) v).
Proof.
  intros G U WF S T R SS IS ST IT H.
  exact (spec_paths G U R _ _ (wf_binary_spec WF Syntax.EW (self_spec S SS IS) (self_spec T ST IT) H) (EW_paths G _ _ (respects_mem _ S) (respects_mem _ T) (Mem_dec _ S) (Mem_dec _ T))).
Qed.

(** ... and phi AW psi exactly when every path from it does.
    Full statement, NOT proved (left to right is again the principle of omniscience, even
    for well-formed networks: C13b_aw_model_lr_is_LPO):

      ... eval_aw G U S T = Ok R ->
      forall v, mem (g_L G) R v = true <-> (mem (g_L G) U v = true /\ AW_p G (Mem G S) (Mem G T) v) *)
Theorem C13b_aw_model_weak : forall G U, wf_graph G U -> forall S T R,
  shaped (g_L G) S -> inU G U S -> shaped (g_L G) T -> inU G U T ->
  eval_aw G U S T = Ok R ->
  forall v, mem (g_L G) R v = true <-> (mem (g_L G) U v = true /\ AW_w G (Mem G S) (Mem G T) v).
Proof.
  intros G U WF S T R SS IS ST IT H.
  exact (spec_paths G U R _ _ (wf_binary_spec WF Syntax.AW (self_spec S SS IS) (self_spec T ST IT) H) (AW_weak_paths G _ _ (respects_mem _ S) (respects_mem _ T) (Mem_dec _ T))).
Qed.

Theorem C13b_aw_model_nn : forall G U, wf_graph G U -> forall S T R,
  shaped (g_L G) S -> inU G U S -> shaped (g_L G) T -> inU G U T ->
  eval_aw G U S T = Ok R ->
  forall v, mem (g_L G) R v = true <-> (mem (g_L G) U v = true /\ AW_nn G (Mem G S) (Mem G T) v).
Proof.
  intros G U WF S T R SS IS ST IT H.
  exact (spec_paths G U R _ _ (wf_binary_spec WF Syntax.AW (self_spec S SS IS) (self_spec T ST IT) H) (AW_nn_paths G _ _ (respects_mem _ S) (respects_mem _ T) (Mem_dec _ S) (Mem_dec _ T))).
Qed.

Theorem C13b_aw_model_rl : forall G U, wf_graph G U -> forall S T R,
  shaped (g_L G) S -> inU G U S -> shaped (g_L G) T -> inU G U T ->
  eval_aw G U S T = Ok R ->
  forall v, mem (g_L G) U v = true -> AW_p G (Mem G S) (Mem G T) v -> mem (g_L G) R v = true.
Proof.
  intros G U WF S T R SS IS ST IT H.
  intros v Hu Hp. apply (C13b_aw_model_weak G U WF S T R SS IS ST IT H).
  split; [exact Hu | apply AW_p_AW_w; exact Hp].
Qed.

Theorem C13b_aw_model_partial : forall G U, wf_graph G U -> forall S T R,
  shaped (g_L G) S -> inU G U S -> shaped (g_L G) T -> inU G U T ->
  eval_aw G U S T = Ok R ->
  (forall pi, path G pi -> (exists j, Mem G T (pi j)) \/ (forall j, ~ Mem G T (pi j))) ->
  forall v, mem (g_L G) R v = true <-> (mem (g_L G) U v = true /\ AW_p G (Mem G S) (Mem G T) v).
Proof.
  intros G U WF S T R SS IS ST IT H.
  intro Omn.
  exact (spec_paths G U R _ _ (wf_binary_spec WF Syntax.AW (self_spec S SS IS) (self_spec T ST IT) H) (fun v => AW_paths_omniscient G _ _ (respects_mem _ S) (respects_mem _ T) (Mem_dec _ T) v Omn)).
Qed.

Theorem C13b_aw_model_lr_is_LPO :
  (forall G U S T R v, wf_graph G U ->
     shaped (g_L G) S -> inU G U S -> shaped (g_L G) T -> inU G U T ->
     eval_aw G U S T = Ok R -> mem (g_L G) R v = true -> AW_p G (Mem G S) (Mem G T) v) ->
  forall a : nat -> bool, (exists k, a k = true) \/ (forall k, a k = false).
Proof. exact aw_model_lr_implies_LPO. Qed.

(** the other temporal operators of the model *)
Theorem C13b_eu_model : forall G U, wf_graph G U -> forall S T R,
  shaped (g_L G) S -> inU G U S -> shaped (g_L G) T -> inU G U T ->
  eval_eu_saturated G S T = Ok R ->
  forall v, mem (g_L G) R v = true <-> (mem (g_L G) U v = true /\ EU_p G (Mem G S) (Mem G T) v).
Proof.
  intros G U WF S T R SS IS ST IT H.
  exact (spec_paths G U R _ _ (wf_binary_spec WF Syntax.EU (self_spec S SS IS) (self_spec T ST IT) H) (EU_paths G _ _ (respects_mem _ S) (respects_mem _ T))).
Qed.

Theorem C13b_au_model : forall G U, wf_graph G U -> forall S T R,
  shaped (g_L G) S -> inU G U S -> shaped (g_L G) T -> inU G U T ->
  eval_au G U S T (st G U) = Ok R ->
  forall v, mem (g_L G) R v = true <-> (mem (g_L G) U v = true /\ AU_p G (Mem G S) (Mem G T) v).
Proof.
  intros G U WF S T R SS IS ST IT H.
  exact (spec_paths G U R _ _ (wf_binary_spec WF Syntax.AU (self_spec S SS IS) (self_spec T ST IT) H) (AU_paths G _ _ (respects_mem _ S) (respects_mem _ T) (Mem_dec _ S) (Mem_dec _ T))).
Qed.

Theorem C13b_eg_model : forall G U, wf_graph G U -> forall S R,
  shaped (g_L G) S -> inU G U S -> eval_eg G S (st G U) = Ok R ->
  forall v, mem (g_L G) R v = true <-> (mem (g_L G) U v = true /\ EG_p G (Mem G S) v).
Proof.
  intros G U WF S R SS IS H.
  exact (spec_paths G U R _ _ (wf_unary_spec WF Syntax.EG (self_spec S SS IS) H) (EG_paths G _ (respects_mem _ S) (Mem_dec _ S))).
Qed.

Theorem C13b_ag_model : forall G U, wf_graph G U -> forall S R,
  shaped (g_L G) S -> inU G U S -> eval_ag G U S = Ok R ->
  forall v, mem (g_L G) R v = true <-> (mem (g_L G) U v = true /\ AG_p G (Mem G S) v).
Proof.
  intros G U WF S R SS IS H.
  exact (spec_paths G U R _ _ (wf_unary_spec WF Syntax.AG (self_spec S SS IS) H) (AG_paths G _ (respects_mem _ S))).
Qed.

Theorem C13b_ef_model : forall G U, wf_graph G U -> forall S R,
  shaped (g_L G) S -> inU G U S -> eval_ef_saturated G U S = Ok R ->
  forall v, mem (g_L G) R v = true <-> (mem (g_L G) U v = true /\ EF_p G (Mem G S) v).
Proof.
  intros G U WF S R SS IS H.
  exact (spec_paths G U R _ _ (wf_unary_spec WF Syntax.EF (self_spec S SS IS) H) (EU_paths G (fun _ => True) _ (fun _ _ _ _ => I) (respects_mem _ S))).
Qed.

Theorem C13b_af_model : forall G U, wf_graph G U -> forall S R,
  shaped (g_L G) S -> inU G U S -> eval_af G U S (st G U) = Ok R ->
  forall v, mem (g_L G) R v = true <-> (mem (g_L G) U v = true /\ AF_p G (Mem G S) v).
Proof.
  intros G U WF S R SS IS H.
  exact (spec_paths G U R _ _ (wf_unary_spec WF Syntax.AF (self_spec S SS IS) H) (AU_paths G (fun _ => True) _ (fun _ _ _ _ => I) (respects_mem _ S) (fun _ => or_introl I) (Mem_dec _ S))).
Qed.

Print Assumptions C13b_step_total.
Print Assumptions C13b_path_total.
Print Assumptions C13b_eu.
Print Assumptions C13b_eu_lr.
Print Assumptions C13b_au_lr.
Print Assumptions C13b_au_rl.
Print Assumptions C13b_au.
Print Assumptions C13b_eg_lr.
Print Assumptions C13b_eg_rl.
Print Assumptions C13b_eg.
Print Assumptions C13b_ag.
Print Assumptions C13b_ew_lr.
Print Assumptions C13b_ew_rl.
Print Assumptions C13b_ew.
Print Assumptions C13b_aw_rl.
Print Assumptions C13b_aw_weak.
Print Assumptions C13b_aw_nn.
Print Assumptions C13b_aw_partial.
Print Assumptions C13b_aw_lr_is_LPO.
Print Assumptions C13b_until_wuntil.
Print Assumptions C13b_wuntil_nn.
Print Assumptions C13b_dec_eu.
Print Assumptions C13b_dec_au.
Print Assumptions C13b_dec_ew.
Print Assumptions C13b_dec_aw.
Print Assumptions C13b_dec_eg.
Print Assumptions C13b_dec_ag.
Print Assumptions C13b_ew_model.
Print Assumptions C13b_aw_model_weak.
Print Assumptions C13b_aw_model_nn.
Print Assumptions C13b_aw_model_rl.
Print Assumptions C13b_aw_model_partial.
Print Assumptions C13b_aw_model_lr_is_LPO.
Print Assumptions C13b_eu_model.
Print Assumptions C13b_au_model.
Print Assumptions C13b_eg_model.
Print Assumptions C13b_ag_model.
Print Assumptions C13b_ef_model.
Print Assumptions C13b_af_model.
