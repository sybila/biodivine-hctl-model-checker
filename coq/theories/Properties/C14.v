(** C14 -- invalid input is rejected with an error, never with a panic and never silently.
    Statements and the last step of each proof; the lemmas are in Proofs/NoPanic.v and
    Proofs/ClosedIndep.v.

    Scope.  The plain string entry points [model_check ext_alnum w k m ctx fs] with
    [m_ext m = false] (no wild-cards / domains; [ctx] is then ignored), the evaluation
    context that marks no duplicates ([m_nocache m = true]), pattern shortcuts on or off, and
    - the real self-loop set ([m_unsafe_ex m = false]), results sanitised or dirty, or
    - the empty self-loop set ([m_unsafe_ex m = true]) with dirty results.
    NOT covered here (Properties/Cached.v has all three): the cache ([m_nocache m = false], duplicates marked by [mark_duplicates]),
    the extended entry points ([m_ext m = true]: wild-card propositions, domains, the
    context-label check and its error EMissingContext), and the sanitised variant of the
    unsafe_ex entry point.  The tokenizer and parser statements (the first section) hold for
    both syntaxes.

    [world_ok w] (the hypotheses of [world_wf], Proofs/LayoutFacts.v): the update tables and the unit
    set are complete trees over the layout  params ++ states, the unit set only reads the
    colour, and [length (w_names w) <= w_n w].  Neither [length (w_names w) = w_n w] nor
    distinct names is needed.

    Vocabulary (NoPanic.v):
    - [plain_toks ts]: no wild-card atom and no domain in [ts], at any nesting depth;
    - [scope_violation props scope t e]: the first scoping violation of [t] in reading order
      and its class [e]: EFreeVar (variable occurrence or jump target not in scope; a jump
      reports its body first), ERequantified (quantifier over a name in scope), EUnknownProp;
    - [tree_ok props k t]: [well_scoped props [] t /\ qdepth t <= k];
    - [tree_rejected props k t e]: [scope_violation props [] t e], or [t] is well scoped,
      [k < qdepth t] and [e = EVarSupport];
    - [accepted props k f]: [f] tokenizes and parses (plain syntax) to a tree that is
      [tree_ok];  [rejected props k f e]: [f] does not tokenize ([e = ELex]), or its tokens do
      not parse ([e = EParse]), or it parses to a tree that is [tree_rejected] with [e];
    - [first_reject P R l e]: some element of [l] satisfies [R _ e] and all elements before
      it satisfy [P];
    - [agree_upto d v w] (ClosedIndep.v): [v] and [w] have the same colour, state and spare
      copies below [d]. *)
From HCTL Require Import Base Syntax Tokenizer Parser Preprocess TT Ops Eval Pipeline.
From HCTL Require Import Kripke HCTL EvalPure Main LayoutFacts PrepFacts Termination.
From HCTL Require Import ClosedIndep NoPanic.

(** ** the tokenizer: tokens or a lexical error, nothing else; the fuel suffices *)

Theorem C14_tokenize_ok_or_lex :
  forall (ext_alnum : N -> bool) (ext : bool) (s : str),
    (exists ts, tokenize ext_alnum ext s = Ok ts /\ (ext = false -> plain_toks ts))
    \/ tokenize ext_alnum ext s = Err ELex.
Proof. exact tokenize_ok_or_lex. Qed.

Theorem C14_tokenize_no_panic :
  forall (ext_alnum : N -> bool) (ext : bool) (s : str) (p : panicsite),
    tokenize ext_alnum ext s <> Panic p.
Proof. exact tokenize_no_panic. Qed.

Theorem C14_tokenize_no_fuel :
  forall (ext_alnum : N -> bool) (ext : bool) (s : str),
    tokenize ext_alnum ext s <> OutOfFuel.
Proof. exact tokenize_no_fuel. Qed.

(** every call of [tok] consumes at least one character: any fuel above the length of the
    input is enough (the entry point uses [S (length s)]) *)
Theorem C14_tok_fuel_suffices :
  forall (ext_alnum : N -> bool) (f : nat) (cs : str) (top ext : bool) (acc : list token),
    length cs < f ->
    tok ext_alnum f cs top ext acc <> OutOfFuel
    /\ (forall p, tok ext_alnum f cs top ext acc <> Panic p)
    /\ (forall e, tok ext_alnum f cs top ext acc = Err e -> e = ELex)
    /\ (forall ts rest, tok ext_alnum f cs top ext acc = Ok (ts, rest) ->
                        length rest <= length cs).
Proof. exact tok_fuel_suffices. Qed.

(** in the plain syntax: no wild-card atom, no domain; parsing keeps that *)
Theorem C14_tokenize_plain :
  forall (ext_alnum : N -> bool) (s : str) (ts : list token),
    tokenize ext_alnum false s = Ok ts -> plain_toks ts.
Proof. exact tokenize_plain. Qed.

Theorem C14_parse_plain :
  forall (ts : list token) (t : tree),
    parse_tokens ts = Ok t -> plain_toks ts -> plainf t.
Proof. exact parse_plain. Qed.

Theorem C14_parse_formula_plain :
  forall (ext_alnum : N -> bool) (s : str) (t : tree),
    parse_formula ext_alnum false s = Ok t -> plainf t.
Proof. exact parse_formula_plain. Qed.

(** [parse_formula] answers with a tree, ELex or EParse *)
Theorem C14_parse_formula_cases :
  forall (ext_alnum : N -> bool) (ext : bool) (s : str),
    (exists ts t, tokenize ext_alnum ext s = Ok ts /\ parse_tokens ts = Ok t
                  /\ parse_formula ext_alnum ext s = Ok t)
    \/ (tokenize ext_alnum ext s = Err ELex /\ parse_formula ext_alnum ext s = Err ELex)
    \/ (exists ts, tokenize ext_alnum ext s = Ok ts /\ parse_tokens ts = Err EParse
                   /\ parse_formula ext_alnum ext s = Err EParse).
Proof. exact parse_formula_cases. Qed.

(** ** bridges from C07 to the hypotheses of the evaluator theorems *)

Theorem C14_bridge :
  forall (props : list str) (t t' : tree),
    preprocess props t = Ok t' ->
    (plainf t' <-> plainf t)
    /\ props_known props t'
    /\ depth_named 0 t'
    /\ num_hctl_vars t' = qdepth t
    /\ forall G : genv, num_hctl_vars t' <= g_k G -> supported G t'.
Proof. exact preprocess_bridge. Qed.

(** the error class of preprocessing is the class of the first violation *)
Theorem C14_preprocess_err_iff :
  forall (props : list str) (t : tree) (e : errkind),
    preprocess props t = Err e <-> scope_violation props [] t e.
Proof. exact preprocess_err_iff. Qed.

Theorem C14_not_well_scoped_iff :
  forall (props : list str) (t : tree),
    ~ well_scoped props [] t <-> exists e, scope_violation props [] t e.
Proof. exact not_well_scoped_iff. Qed.

Theorem C14_scope_violation_class :
  forall (props : list str) (scope : list str) (t : tree) (e : errkind),
    scope_violation props scope t e ->
    e = EFreeVar \/ e = ERequantified \/ e = EUnknownProp.
Proof. exact scope_violation_class. Qed.

Theorem C14_tree_rejected_iff :
  forall (props : list str) (k : nat) (t : tree),
    (exists e, tree_rejected props k t e) <-> (~ well_scoped props [] t \/ k < qdepth t).
Proof. exact tree_rejected_iff. Qed.

(** ** the meaning of a closed formula does not read the spare copies, so sanitising its
    result never panics *)

Theorem C14_sat_indep :
  forall (G : genv) (names : list str) (Gamma : str -> val -> Prop),
    (forall i v w, (forall g, is_extra_tag g = false -> v g = w g) ->
       mem (g_L G) (upd_of G i) v = mem (g_L G) (upd_of G i) w) ->
    forall (t : tree) (d : nat), plainf t -> depth_named d t ->
    forall v w, agree_upto d v w -> sat G names Gamma t v -> sat G names Gamma t w.
Proof. exact sat_resp. Qed.

Theorem C14_closed_result_restrict :
  forall (G : genv) (names : list str) (U : tt), wf_env G names U ->
  forall (sw : switches) (t : tree) (R : tt),
    plainf t -> supported G t -> depth_named 0 t ->
    peval G names sw (steady_of G U) t U = Ok R ->
    exists s, restrict (fun g => negb (is_extra_tag g)) (g_L G) R = Some s.
Proof. exact closed_result_restrict. Qed.

(** ** validation *)

Theorem C14_validate_err_iff :
  forall (ext_alnum : N -> bool) (props : list str) (k : nat) (ctx : list (str * tt))
         (fs : list str) (e : errkind),
    validate_all ext_alnum false props k ctx fs = Err e
    <-> first_reject (accepted ext_alnum props k) (rejected ext_alnum props k) fs e.
Proof. exact validate_all_err_iff. Qed.

Theorem C14_validate_no_panic :
  forall (ext_alnum : N -> bool) (props : list str) (k : nat) (ctx : list (str * tt))
         (fs : list str),
    (forall p, validate_all ext_alnum false props k ctx fs <> Panic p)
    /\ validate_all ext_alnum false props k ctx fs <> OutOfFuel.
Proof. exact validate_all_no_panic. Qed.

(** ** the entry points *)

(** never a panic, never out of fuel -- sanitised or dirty *)
Theorem C14_no_panic :
  forall (ext_alnum : N -> bool) (w : world) (k : nat) (m : mode) (ctx : list (str * tt))
         (fs : list str),
    world_ok w ->
    m_ext m = false -> m_nocache m = true -> m_unsafe_ex m = false ->
    (forall p, model_check ext_alnum w k m ctx fs <> Panic p)
    /\ model_check ext_alnum w k m ctx fs <> OutOfFuel.
Proof. intros ea w k m ctx fs [H1 [H2 [H3 H4]]] He Hn Hu. apply model_check_no_panic; unfold covered; auto. Qed.

(** the dirty unsafe_ex entry point (empty self-loop set) *)
Theorem C14_no_panic_unsafe_ex_dirty :
  forall (ext_alnum : N -> bool) (w : world) (k : nat) (m : mode) (ctx : list (str * tt))
         (fs : list str),
    world_ok w ->
    m_ext m = false -> m_nocache m = true -> m_sanitize m = false ->
    (forall p, model_check ext_alnum w k m ctx fs <> Panic p)
    /\ model_check ext_alnum w k m ctx fs <> OutOfFuel.
Proof. intros ea w k m ctx fs [H1 [H2 [H3 H4]]] He Hn Hs. apply model_check_no_panic; unfold covered; auto. Qed.

(** the outcome is an answer with one set per formula when every formula is accepted, and
    otherwise the error of the first rejected formula *)
Theorem C14_cases :
  forall (ext_alnum : N -> bool) (w : world) (k : nat) (m : mode) (ctx : list (str * tt))
         (fs : list str),
    world_ok w ->
    m_ext m = false -> m_nocache m = true -> (m_unsafe_ex m = false \/ m_sanitize m = false) ->
    (exists rs, model_check ext_alnum w k m ctx fs = Ok rs /\ length rs = length fs
                /\ List.Forall (accepted ext_alnum (w_names w) k) fs)
    \/ (exists e, model_check ext_alnum w k m ctx fs = Err e
                  /\ first_reject (accepted ext_alnum (w_names w) k)
                                  (rejected ext_alnum (w_names w) k) fs e).
Proof. intros ea w k m ctx fs [H1 [H2 [H3 H4]]] He Hn Hus. apply model_check_cases; unfold covered; auto. Qed.

(** an error exactly when some formula is rejected (lexical error, parse error, scoping
    violation, too many nested quantifiers); the class is that of the first cause of the
    first rejected formula *)
Theorem C14_error_iff_strings :
  forall (ext_alnum : N -> bool) (w : world) (k : nat) (m : mode) (ctx : list (str * tt))
         (fs : list str) (e : errkind),
    world_ok w ->
    m_ext m = false -> m_nocache m = true -> (m_unsafe_ex m = false \/ m_sanitize m = false) ->
    (model_check ext_alnum w k m ctx fs = Err e
     <-> first_reject (accepted ext_alnum (w_names w) k) (rejected ext_alnum (w_names w) k) fs e).
Proof. intros ea w k m ctx fs e [H1 [H2 [H3 H4]]] He Hn Hus. apply model_check_err_iff; unfold covered; auto. Qed.

(** never a silent answer: an answer exactly when every formula is accepted *)
Theorem C14_ok_iff :
  forall (ext_alnum : N -> bool) (w : world) (k : nat) (m : mode) (ctx : list (str * tt))
         (fs : list str),
    world_ok w ->
    m_ext m = false -> m_nocache m = true -> (m_unsafe_ex m = false \/ m_sanitize m = false) ->
    ((exists rs, model_check ext_alnum w k m ctx fs = Ok rs)
     <-> List.Forall (accepted ext_alnum (w_names w) k) fs).
Proof. intros ea w k m ctx fs [H1 [H2 [H3 H4]]] He Hn Hus. apply model_check_ok_iff; unfold covered; auto. Qed.

(** with every formula tokenized and parsed: an error [e] exactly when the first tree that is
    not accepted is rejected with [e] -- a scoping violation of class [e], or a well-scoped
    tree nesting more than [k] quantifiers and [e = EVarSupport] *)
Theorem C14_error_iff :
  forall (ext_alnum : N -> bool) (w : world) (k : nat) (m : mode) (ctx : list (str * tt))
         (fs : list str) (ts : list tree) (e : errkind),
    world_ok w ->
    m_ext m = false -> m_nocache m = true -> (m_unsafe_ex m = false \/ m_sanitize m = false) ->
    Forall2 (fun f t => parse_formula ext_alnum false f = Ok t) fs ts ->
    (model_check ext_alnum w k m ctx fs = Err e
     <-> exists ts1 t ts2,
           ts = ts1 ++ t :: ts2
           /\ List.Forall (fun t1 => well_scoped (w_names w) [] t1 /\ qdepth t1 <= k) ts1
           /\ (scope_violation (w_names w) [] t e
               \/ (well_scoped (w_names w) [] t /\ k < qdepth t /\ e = EVarSupport))).
Proof. intros ea w k m ctx fs ts e [H1 [H2 [H3 H4]]] He Hn Hus P. apply (model_check_err_iff_parsed ea w k H1 H2 H3 H4 m ctx fs ts e); unfold covered; auto. Qed.

Theorem C14_some_error_iff :
  forall (ext_alnum : N -> bool) (w : world) (k : nat) (m : mode) (ctx : list (str * tt))
         (fs : list str) (ts : list tree),
    world_ok w ->
    m_ext m = false -> m_nocache m = true -> (m_unsafe_ex m = false \/ m_sanitize m = false) ->
    Forall2 (fun f t => parse_formula ext_alnum false f = Ok t) fs ts ->
    ((exists e, model_check ext_alnum w k m ctx fs = Err e)
     <-> List.Exists (fun t => ~ well_scoped (w_names w) [] t \/ k < qdepth t) ts).
Proof. intros ea w k m ctx fs ts [H1 [H2 [H3 H4]]] He Hn Hus P. apply (model_check_errs_iff_parsed ea w k H1 H2 H3 H4 m ctx fs ts); unfold covered; auto. Qed.

(** the possible error classes of the plain entry points *)
Theorem C14_error_class :
  forall (ext_alnum : N -> bool) (props : list str) (k : nat) (f : str) (e : errkind),
    rejected ext_alnum props k f e ->
    e = ELex \/ e = EParse \/ e = EFreeVar \/ e = ERequantified \/ e = EUnknownProp
    \/ e = EVarSupport.
Proof. exact rejected_class. Qed.

Print Assumptions C14_tokenize_ok_or_lex.
Print Assumptions C14_tokenize_no_panic.
Print Assumptions C14_tokenize_no_fuel.
Print Assumptions C14_tok_fuel_suffices.
Print Assumptions C14_tokenize_plain.
Print Assumptions C14_parse_plain.
Print Assumptions C14_parse_formula_plain.
Print Assumptions C14_parse_formula_cases.
Print Assumptions C14_bridge.
Print Assumptions C14_preprocess_err_iff.
Print Assumptions C14_not_well_scoped_iff.
Print Assumptions C14_scope_violation_class.
Print Assumptions C14_tree_rejected_iff.
Print Assumptions C14_sat_indep.
Print Assumptions C14_closed_result_restrict.
Print Assumptions C14_validate_err_iff.
Print Assumptions C14_validate_no_panic.
Print Assumptions C14_no_panic.
Print Assumptions C14_no_panic_unsafe_ex_dirty.
Print Assumptions C14_cases.
Print Assumptions C14_error_iff_strings.
Print Assumptions C14_ok_iff.
Print Assumptions C14_error_iff.
Print Assumptions C14_some_error_iff.
Print Assumptions C14_error_class.
