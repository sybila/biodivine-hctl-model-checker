(** C09 -- canonical forms identify exactly the sub-formulae equal up to renaming.
    Statements and the last step of each proof; the lemmas are in Proofs/CanonFacts.v,
    Proofs/CanonAlpha.v and Proofs/MarkDupFacts.v.

    Vocabulary.
    - [canonize cs] (Model/Canon.v): the character-level pass over a rendered (sub-)formula;
      it returns the canonical text and the renaming map.
    - [ctree t (cnt, ren)] (CanonFacts.v): the tree-level canoniser, threading the counter and
      the map in the order of the rendered text.  [cbind x s] is the step of a binder (fresh
      name [canon_name cnt], the map entry of [x] is overwritten), [cocc x s] the step of a
      variable occurrence or jump target (mapped name; a fresh one, recorded, if there is none).
      The map is never restored when a scope is left, exactly like [canon_loop].
    - [canon_ok t]: the side condition of the commutation.  Variable names (binders,
      occurrences, jump targets) contain no '}' ([var_ok]); proposition, wild-card and domain
      names contain none of '(' ')' '{' ([plain]).  Nothing else is needed: a proposition
      ending in '!' '3' 'V' is followed by ' ' or ')' or the end of the text, never by '{'.
      Every [well_named] tree (the side condition of the parser round trip C06) is [canon_ok].
    - [open_db t] (CanonAlpha.v): the open de Bruijn form.  A bound occurrence is the number of
      quantifiers between it and its binder, a free one is the rank of its first occurrence in
      reading order (left before right, jump target before the body of the jump); binders
      carry no name; operators, propositions, wild-cards and domains are literal.
      [alpha_eq t1 t2 := open_db t1 = open_db t2]: equality up to a consistent (injective)
      renaming of the bound and of the free state variables.
    - [depth_named d t] (PrepFacts.v): [t] is a sub-formula, found below [d] quantifiers, of a
      preprocessed formula.
    - [free_in x t] / [occurs x t]: [x] occurs free in [t] / is the name of a binder, an
      occurrence or a jump target of [t]. *)
From HCTL Require Import Base Syntax Preprocess Canon MarkDup.
From HCTL Require Import PrepFacts RoundTrip CanonFacts CanonAlpha MarkDupFacts.

(** ** definitions restated *)

Theorem C09_ctree_def :
  forall (t : tree) (s : cstate),
    ctree t s =
    match t with
    | Terminal (AVar x) => let (cn, s') := cocc x s in (Terminal (AVar cn), s')
    | Terminal _ => (t, s)
    | Unary o c => let (c', s') := ctree c s in (Unary o c', s')
    | Binary o l r =>
        let (l', s1) := ctree l s in
        let (r', s2) := ctree r s1 in
        (Binary o l' r', s2)
    | Hybrid o x d c =>
        let (cn, s1) := if is_quantifier o then cbind x s else cocc x s in
        let (c', s2) := ctree c s1 in
        (Hybrid o cn d c', s2)
    end.
Proof. intros t s. destruct t as [[]| | |]; reflexivity. Qed.

Theorem C09_cbind_cocc_def :
  forall (x : str) (cnt : N) (ren : list (str * str)),
    cbind x (cnt, ren)
    = (canon_name cnt, ((cnt + 1)%N, ainsert str_eqb x (canon_name cnt) ren))
    /\ cocc x (cnt, ren)
       = match alookup str_eqb x ren with
         | Some cn => (cn, (cnt, ren))
         | None => cbind x (cnt, ren)
         end.
Proof. intros x cnt ren. split; reflexivity. Qed.

Theorem C09_canon_ok_def :
  forall t : tree,
    canon_ok t <->
    match t with
    | Terminal (AProp p) | Terminal (AWild p) =>
        List.Forall (fun c => c <> c_lpar /\ c <> c_rpar /\ c <> c_lbrace) p
    | Terminal (AVar x) => ~ In c_rbrace x
    | Terminal _ => True
    | Unary _ c => canon_ok c
    | Binary _ l r => canon_ok l /\ canon_ok r
    | Hybrid _ x d c =>
        ~ In c_rbrace x
        /\ match d with
           | Some l => List.Forall (fun c => c <> c_lpar /\ c <> c_rpar /\ c <> c_lbrace) l
           | None => True
           end
        /\ canon_ok c
    end.
Proof. intros t. destruct t as [[]| | |o x [l|] c]; reflexivity. Qed.

Theorem C09_well_named_canon_ok :
  forall (ext_alnum : N -> bool) (ext : bool) (t : tree),
    well_named ext_alnum ext t -> canon_ok t.
Proof. exact well_named_canon_ok. Qed.

(** ** the character-level pass is the tree-level canoniser *)

Theorem C09_canon_commutes :
  forall t : tree,
    canon_ok t ->
    canonize (render t)
    = (render (fst (ctree t (0%N, []))), snd (snd (ctree t (0%N, [])))).
Proof. exact canon_commutes. Qed.

(** the same in the middle of a text, for any state of the loop (the rest of the text must not
    start with '{') and any sufficient fuel; [pre] is the output so far in reading order *)
Theorem C09_canon_loop_render :
  forall (t : tree) (rest : str) (ren : list (str * str)) (pre : str) (cnt : N) (depth fuel : nat),
    canon_ok t ->
    match rest with c :: _ => c <> c_lbrace | [] => True end ->
    length (render t ++ rest) < fuel ->
    canon_loop fuel (render t ++ rest) ren (rev pre) cnt depth
    = canon_loop (S (length rest)) rest (snd (snd (ctree t (cnt, ren))))
                 (rev (pre ++ render (fst (ctree t (cnt, ren)))))
                 (fst (snd (ctree t (cnt, ren)))) depth.
Proof. exact canon_loop_render. Qed.

(** ** equal canonical texts <-> equal up to renaming *)

Theorem C09_canon_iff_alpha :
  forall (ext_alnum : N -> bool) (ext : bool) (d1 d2 : nat) (t1 t2 : tree),
    well_named ext_alnum ext t1 -> well_named ext_alnum ext t2 ->
    depth_named d1 t1 -> depth_named d2 t2 ->
    (fst (canonize (render t1)) = fst (canonize (render t2)) <-> alpha_eq t1 t2).
Proof. exact canon_iff_alpha. Qed.

(** the direction caching relies on *)
Theorem C09_canon_text_alpha :
  forall (ext_alnum : N -> bool) (ext : bool) (d1 d2 : nat) (t1 t2 : tree),
    well_named ext_alnum ext t1 -> well_named ext_alnum ext t2 ->
    depth_named d1 t1 -> depth_named d2 t2 ->
    fst (canonize (render t1)) = fst (canonize (render t2)) -> open_db t1 = open_db t2.
Proof. exact canon_text_alpha. Qed.

(** the converse needs the weaker side condition only *)
Theorem C09_alpha_canon_text :
  forall (d1 d2 : nat) (t1 t2 : tree),
    canon_ok t1 -> canon_ok t2 -> depth_named d1 t1 -> depth_named d2 t2 ->
    open_db t1 = open_db t2 -> fst (canonize (render t1)) = fst (canonize (render t2)).
Proof. exact alpha_canon_text. Qed.

(** tree level: the canonical tree is a function of the open de Bruijn form, and has the same
    open de Bruijn form *)
Theorem C09_canon_tree_of_open_db :
  forall (d : nat) (t : tree),
    depth_named d t -> fst (ctree t (0%N, [])) = fst (cto [] (open_db t) (0%N, [])).
Proof. exact canon_tree_of_open_db. Qed.

Theorem C09_open_db_canon_tree :
  forall (d : nat) (t : tree),
    depth_named d t -> open_db (fst (ctree t (0%N, []))) = open_db t.
Proof. exact open_db_canon_tree. Qed.

(** the open de Bruijn form forgets the names of the free variables of [db] (C07) only *)
Theorem C09_db_alpha_eq :
  forall t1 t2 : tree, db [] t1 = db [] t2 -> alpha_eq t1 t2.
Proof. exact db_alpha_eq. Qed.

(** [alpha_eq] does identify renamed formulae: [vmap sigma t] applies [sigma] to every variable
    name of [t] (binders, occurrences, jump targets) *)
Theorem C09_alpha_eq_renaming :
  forall (sigma : str -> str) (t : tree),
    (forall x y, sigma x = sigma y -> x = y) -> alpha_eq (vmap sigma t) t.
Proof. intros; eapply alpha_eq_vmap; eauto. Qed.

(** ** the renaming map *)

Theorem C09_renaming_injective :
  forall t : tree,
    canon_ok t ->
    (forall x, free_in x t ->
       exists i, alookup str_eqb x (snd (canonize (render t))) = Some (canon_name i))
    /\ (forall x y cn, alookup str_eqb x (snd (canonize (render t))) = Some cn ->
                       alookup str_eqb y (snd (canonize (render t))) = Some cn -> x = y).
Proof. exact canon_renaming_injective. Qed.

(** every name met (bound or free) is a key; the canonical names are pairwise distinct *)
Theorem C09_renaming_keys :
  forall t : tree,
    forall x, occurs x t ->
      exists i, alookup str_eqb x (snd (snd (ctree t (0%N, [])))) = Some (canon_name i).
Proof. intros t. exact (proj1 (canon_map_spec t)). Qed.

Theorem C09_canon_name_injective : forall a b : N, canon_name a = canon_name b -> a = b.
Proof. exact canon_name_inj. Qed.

(** ** idempotence *)

Theorem C09_idempotent :
  forall t : tree,
    canon_ok t ->
    fst (canonize (fst (canonize (render t)))) = fst (canonize (render t)).
Proof. exact canon_idempotent. Qed.

(** ** duplicate marking *)

(** [occ roots (t, doms)]: the node is reachable from the roots through [children]
    (so [t] is a sub-formula of a root, [C09_occ_subtree]); [node_at roots p]: the node at
    position [p] (index of a root, then child indices) *)
Theorem C09_mark_duplicates_sound :
  forall (roots : list tree) (k : key) (n : nat),
    In (k, n) (mark_duplicates roots) ->
    1 <= n /\ exists t doms, occ roots (t, doms) /\ fst (node_key t doms) = k.
Proof. exact mark_duplicates_sound. Qed.

Theorem C09_mark_duplicates_count :
  forall (roots : list tree) (k : key) (n : nat),
    In (k, n) (mark_duplicates roots) ->
    1 <= n /\ exists ps : list pos,
                NoDup ps /\ length ps = S n
                /\ forall p, In p ps ->
                     exists t doms, node_at roots p = Some (t, doms)
                                    /\ fst (node_key t doms) = k.
Proof. exact mark_duplicates_count. Qed.

Theorem C09_occ_subtree :
  forall (roots : list tree) (n : hnode),
    occ roots n -> exists t, In t roots /\ subtree (fst n) t.
Proof. exact occ_subtree. Qed.

Theorem C09_node_at_occ :
  forall (roots : list tree) (p : pos) (x : hnode), node_at roots p = Some x -> occ roots x.
Proof. exact node_at_occ. Qed.

(** * Examples (non-vacuity) and counterexamples (necessity of the side conditions) *)

Definition ex_p : str := [112%N].              (* p *)
Definition ex_x1 : str := xs 1.                (* x *)
Definition ex_x2 : str := xs 2.                (* xx *)
Definition ex_x3 : str := xs 3.                (* xxx *)
Definition ex_var (x : str) : tree := Terminal (AVar x).

(** sub-formulae at depth 2 of  !{x}: !{xx}: (... & ...):
    [(3{xxx}: (@{x}: ({xxx} & {xx})))]  and  [(3{xxx}: (@{xx}: ({xxx} & {x})))] *)
Definition ex_t1 : tree :=
  Hybrid Exists ex_x3 None
    (Hybrid Jump ex_x1 None (Binary And (ex_var ex_x3) (ex_var ex_x2))).
Definition ex_t2 : tree :=
  Hybrid Exists ex_x3 None
    (Hybrid Jump ex_x2 None (Binary And (ex_var ex_x3) (ex_var ex_x1))).
(** the same with the free variable used twice *)
Definition ex_t3 : tree :=
  Hybrid Exists ex_x3 None
    (Hybrid Jump ex_x1 None (Binary And (ex_var ex_x3) (ex_var ex_x1))).

Example C09_ex_depth_named : depth_named 2 ex_t1 /\ depth_named 2 ex_t2 /\ depth_named 2 ex_t3.
Proof.
  cbn. repeat split; try reflexivity;
    first [exists 0; split; [lia | reflexivity] | exists 1; split; [lia | reflexivity]
          | exists 2; split; [lia | reflexivity]].
Qed.

(** "(3{var0}: (@{var1}: ({var0} & {var2})))" *)
Example C09_ex_text :
  fst (canonize (render ex_t1))
  = [40; 51; 123; 118; 97; 114; 48; 125; 58; 32; 40; 64; 123; 118; 97; 114; 49; 125; 58; 32;
     40; 123; 118; 97; 114; 48; 125; 32; 38; 32; 123; 118; 97; 114; 50; 125; 41; 41; 41]%N.
Proof. vm_compute. reflexivity. Qed.

Example C09_ex_same :
  fst (canonize (render ex_t1)) = fst (canonize (render ex_t2)) /\ alpha_eq ex_t1 ex_t2.
Proof. split; vm_compute; reflexivity. Qed.

Example C09_ex_different :
  fst (canonize (render ex_t1)) <> fst (canonize (render ex_t3)) /\ ~ alpha_eq ex_t1 ex_t3.
Proof. split; vm_compute; discriminate. Qed.

(** the map of [ex_t1]: xx -> var2, x -> var1, xxx -> var0 *)
Example C09_ex_map :
  snd (canonize (render ex_t1))
  = [(ex_x2, canon_name 2); (ex_x1, canon_name 1); (ex_x3, canon_name 0)].
Proof. vm_compute. reflexivity. Qed.

(** without [depth_named] the equivalence fails: the map is not restored when a scope is left.
    [((!{x}: {x}) & {x})] and [((!{x}: {x}) & {y})] are equal up to renaming (the last variable is
    free in both) but have different canonical texts *)
Definition ex_y : str := [121%N].
Definition ex_u1 : tree :=
  Binary And (Hybrid Bind ex_x1 None (ex_var ex_x1)) (ex_var ex_x1).
Definition ex_u2 : tree :=
  Binary And (Hybrid Bind ex_x1 None (ex_var ex_x1)) (ex_var ex_y).

Example C09_ex_scope_not_restored :
  alpha_eq ex_u1 ex_u2 /\ fst (canonize (render ex_u1)) <> fst (canonize (render ex_u2)).
Proof. split; [vm_compute; reflexivity | vm_compute; discriminate]. Qed.

(** the side condition of the commutation is needed: a proposition named "{p}" is renamed *)
Definition ex_bad : tree := Terminal (AProp (c_lbrace :: ex_p ++ [c_rbrace])).

Example C09_ex_brace_in_proposition :
  ~ canon_ok ex_bad
  /\ canonize (render ex_bad)
     <> (render (fst (ctree ex_bad (0%N, []))), snd (snd (ctree ex_bad (0%N, [])))).
Proof.
  split.
  - intro H. cbn in H. inversion H as [|c l Hc _]. apply Hc. reflexivity.
  - vm_compute. discriminate.
Qed.

(** ... a proposition named "p)q" stops the loop, a variable named "p}q" is cut at the brace *)
Definition ex_bad_rpar : tree := Terminal (AProp (ex_p ++ c_rpar :: ex_p)).
Definition ex_bad_rbrace : tree := ex_var (ex_p ++ c_rbrace :: ex_p).

Example C09_ex_rpar_in_proposition :
  canonize (render ex_bad_rpar)
  <> (render (fst (ctree ex_bad_rpar (0%N, []))), snd (snd (ctree ex_bad_rpar (0%N, [])))).
Proof. vm_compute. discriminate. Qed.

Example C09_ex_rbrace_in_variable :
  canonize (render ex_bad_rbrace)
  <> (render (fst (ctree ex_bad_rbrace (0%N, []))), snd (snd (ctree ex_bad_rbrace (0%N, [])))).
Proof. vm_compute. discriminate. Qed.

(** duplicates: in  (EX {x}) & (EX {x})  the sub-formula (EX {x}) is reported once (counter 1,
    two occurrences) *)
Definition ex_dup : tree :=
  Binary And (Unary EX (ex_var ex_x1)) (Unary EX (ex_var ex_x1)).

Example C09_ex_duplicates :
  exists k, mark_duplicates [ex_dup] = [(k, 1)]
            /\ k = fst (node_key (Unary EX (ex_var ex_x1)) []).
Proof. eexists. split; vm_compute; reflexivity. Qed.

Print Assumptions C09_ctree_def.
Print Assumptions C09_cbind_cocc_def.
Print Assumptions C09_canon_ok_def.
Print Assumptions C09_well_named_canon_ok.
Print Assumptions C09_canon_commutes.
Print Assumptions C09_canon_loop_render.
Print Assumptions C09_canon_iff_alpha.
Print Assumptions C09_canon_text_alpha.
Print Assumptions C09_alpha_canon_text.
Print Assumptions C09_canon_tree_of_open_db.
Print Assumptions C09_open_db_canon_tree.
Print Assumptions C09_db_alpha_eq.
Print Assumptions C09_alpha_eq_renaming.
Print Assumptions C09_renaming_injective.
Print Assumptions C09_renaming_keys.
Print Assumptions C09_canon_name_injective.
Print Assumptions C09_idempotent.
Print Assumptions C09_mark_duplicates_sound.
Print Assumptions C09_mark_duplicates_count.
Print Assumptions C09_occ_subtree.
Print Assumptions C09_node_at_occ.
Print Assumptions C09_ex_depth_named.
Print Assumptions C09_ex_text.
Print Assumptions C09_ex_same.
Print Assumptions C09_ex_different.
Print Assumptions C09_ex_map.
Print Assumptions C09_ex_scope_not_restored.
Print Assumptions C09_ex_brace_in_proposition.
Print Assumptions C09_ex_rpar_in_proposition.
Print Assumptions C09_ex_rbrace_in_variable.
Print Assumptions C09_ex_duplicates.
