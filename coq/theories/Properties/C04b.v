(** C04 -- sub-formula caching and batch evaluation are observationally transparent, for plain
    formulae (no wild-cards, no variable domains) and the standard self-loop set.  With
    duplicates marked and the cache in use, [eval_node] returns what the cache-free evaluator
    returns; hence [check_trees] and [model_check] return the same with and without duplicate
    marking, and a batch is evaluated formula by formula, whatever its order and repetitions.
    The invariant theorems are those of Proofs/CacheGen.v (any self-loop set that does not read
    the spare copies) at the set [steady_of G U]: [cache_ok] unfolds to [cache_okS] at that set,
    which the proofs below use by conversion.  Behind them: Proofs/RenameFacts.v (two
    sub-formulae with the same canonical text differ at most in the name of their only
    variable), Proofs/LexFacts.v, last section (the front end produces well-named trees), Proofs/CopyRel.v
    (renaming that variable commutes with the evaluator), Proofs/CacheFacts.v (the meaning of
    the renaming, [mark_duplicates], the open scopes).

    Vocabulary.
    - [peval G names sw steady t U] (EvalPure.v): the evaluator without cache, a function of
      the formula alone; [peval_correct] (C01): its result is exactly [sat].
    - [good ea ext G names t]: what the evaluator meets -- a plain ([plainf]) sub-formula of a
      preprocessed formula ([depth_named d] for some [d]) whose variables have a spare copy
      ([supported]), whose propositions are known ([props_known]) and whose names are those
      the parser can produce ([well_named], the side condition of C06 and C09).  Every tree
      returned by [validate_all] is good ([C04_validated_good]).
    - [cache_ok c]: every entry [(k, (S, rn))] of the cache is [entry_ok]: [S] is the [peval]
      result (in the unit [U], with the switches [sw]) of some good tree [t0] whose canonical
      text is [fst k] and whose renaming map is [rn], and [rn] has at most one entry.
    - [dups_ok c]: every marked key [k] has a [single_text]: EVERY well-named sub-formula of a
      preprocessed formula with canonical text [fst k] has an at most one-entry renaming map.
      By [C04_single_entry_invariant] one such sub-formula suffices; [mark_duplicates] only
      marks such keys ([C04_mark_duplicates_dups_ok]).
    Neither invariant mentions the counters of [duplicates], [free_doms] or [domain_sets]:
    for plain formulae they are irrelevant to the results (history independence).

    Scope.  The self-loop set handed to the evaluator is [steady_of G U] (every mode but
    [m_unsafe_ex]); formulae are plain.  C04c.v has the same statements for [m_unsafe_ex = true]
    and for wild-cards / variable domains ([extend_context], restricted units). *)
From Coq Require Import Permutation.
From HCTL Require Import Base Syntax Preprocess Canon MarkDup TT Ops Eval Pipeline Kripke HCTL.
From HCTL Require Import TTFacts EvalPure Main Termination PrepFacts RoundTrip CanonFacts CanonAlpha MarkDupFacts LayoutFacts NoPanic RenameFacts CacheFacts CacheGen LexFacts.

(** The definitions of Proofs/CacheFacts.v the statements use, unfolded *)

Theorem C04_good_def :
  forall ea ext G names t,
    good ea ext G names t <->
    (plainf t /\ supported G t /\ props_known names t /\ well_named ea ext t
     /\ exists d, depth_named d t).
Proof. exact (fun ea ext G names t => conj (fun H => H) (fun H => H)). Qed.

Theorem C04_cache_ok_def :
  forall ea ext G names sw U (c : ectx),
    cache_ok ea ext G names sw U c <->
    (forall k S rn, In (k, (S, rn)) (cache c) ->
       exists t0, good ea ext G names t0 /\ canonize (render t0) = (fst k, rn)
                  /\ length rn <= 1 /\ peval G names sw (steady_of G U) t0 U = Ok S).
Proof. exact (fun ea ext G names sw U c => conj (fun H => H) (fun H => H)). Qed.

Theorem C04_dups_ok_def :
  forall ea ext (c : ectx),
    dups_ok ea ext c <->
    (forall k m, In (k, m) (duplicates c) ->
       forall t d, well_named ea ext t -> depth_named d t ->
         fst (canonize (render t)) = fst k -> length (snd (canonize (render t))) <= 1).
Proof. exact (fun ea ext c => conj (fun H => H) (fun H => H)). Qed.

(** sub-formulae of preprocessed formulae with the same canonical text: if one has an at most
    one-entry renaming map, so has the other (the test [renaming.len() <= 1] of
    mark_duplicates.rs does not depend on the occurrence) *)
Theorem C04_single_entry_invariant :
  forall ea ext d d1 t t1,
    well_named ea ext t -> well_named ea ext t1 -> depth_named d t -> depth_named d1 t1 ->
    fst (canonize (render t)) = fst (canonize (render t1)) ->
    length (snd (canonize (render t1))) <= 1 -> length (snd (canonize (render t))) <= 1.
Proof. exact single_transfer. Qed.
Print Assumptions C04_single_entry_invariant.

(** ... and then the two are literally the same tree, or the same tree with its only
    variable name [x1] replaced by [x] everywhere (binders, occurrences, jump targets), and
    the two maps send [x1], [x] to the same canonical name *)
Theorem C04_hit_shape :
  forall ea ext d d1 t t1,
    well_named ea ext t -> well_named ea ext t1 -> depth_named d t -> depth_named d1 t1 ->
    fst (canonize (render t)) = fst (canonize (render t1)) ->
    length (snd (canonize (render t1))) <= 1 ->
    (snd (canonize (render t1)) = [] /\ t = t1)
    \/ (exists x1 x cn,
          snd (canonize (render t1)) = [(x1, cn)] /\ snd (canonize (render t)) = [(x, cn)]
          /\ occurs x1 t1 /\ occurs x t /\ (forall y, occurs y t1 -> y = x1)
          /\ t = vmap (fun _ => x) t1).
Proof. exact hit_shape. Qed.
Print Assumptions C04_hit_shape.

(** [substitute_hctl_var S e0 e] is [S] read with copy [e0] := copy [e] *)
Theorem C04_substitute_spec :
  forall G names U, wf_env G names U ->
  forall (A : tt) (P : val -> Prop) e0 e,
    e0 < g_k G -> e < g_k G -> e0 <> e -> SemFacts.spec_of G U A P ->
    SemFacts.spec_of G U (substitute_hctl_var G A e0 e) (fun v => P (copy_from e0 e v)).
Proof. exact spec_substitute. Qed.
Print Assumptions C04_substitute_spec.

(** a formula whose only variable name is [x] and the same formula with the name [x0]:
    valuations with the same colour and state, copy of [x] = copy of [x0], satisfy both or
    neither *)
Theorem C04_sat_rename :
  forall G names U, wf_env G names U ->
  forall (Gamma : str -> val -> Prop) x x0 e e0,
    var_of G x = Some e -> var_of G x0 = Some e0 ->
    forall s, plainf s -> forall v w,
      (forall j, v (TP j) = w (TP j)) /\ (forall i, v (TS i) = w (TS i))
      /\ (forall i, v (TX i e) = w (TX i e0)) ->
      (sat G names Gamma (vmap (fun _ => x) s) v <-> sat G names Gamma (vmap (fun _ => x0) s) w).
Proof. exact sat_rename. Qed.
Print Assumptions C04_sat_rename.

(** a cache hit under the invariant: [rename_back] does not panic and returns the [peval]
    result of the current node *)
Theorem C04_hit_ok :
  forall ea ext G names sw U, wf_env G names U ->
  forall t canon ren S rn,
    good ea ext G names t -> canonize (render t) = (canon, ren) ->
    (exists t0, good ea ext G names t0 /\ canonize (render t0) = (canon, rn) /\ length rn <= 1
                /\ peval G names sw (steady_of G U) t0 U = Ok S) ->
    exists R, rename_back G rn ren S = Ok R /\ peval G names sw (steady_of G U) t U = Ok R.
Proof.
  exact (fun ea ext G names sw U WF t canon ren =>
    hit_okS ea ext G names sw U WF (steady_of G U) (wf_steady_shaped G names U WF) (steady_of_ignores_copies G names U WF) t canon ren []).
Qed.
Print Assumptions C04_hit_ok.

(** the main invariant: [eval_node] with ANY context satisfying the invariants returns the
    [peval] result (equality of decision trees) and a context satisfying the invariants *)
Theorem C04_eval_node_cache_transparent :
  forall ea ext G names sw U, wf_env G names U ->
  forall t c R c',
    good ea ext G names t -> cache_ok ea ext G names sw U c -> dups_ok ea ext c ->
    eval_node G names sw (steady_of G U) t U c = Ok (R, c') ->
    peval G names sw (steady_of G U) t U = Ok R
    /\ cache_ok ea ext G names sw U c' /\ dups_ok ea ext c'.
Proof.
  exact (fun ea ext G names sw U WF =>
    eval_node_cache_transparentS ea ext G names sw U WF (steady_of G U) (wf_steady_shaped G names U WF) (steady_of_ignores_copies G names U WF)).
Qed.
Print Assumptions C04_eval_node_cache_transparent.

(** the converse: under the invariants [eval_node] never panics (no [PReverseRenaming], no
    other panic), never runs out of fuel, never errs *)
Theorem C04_eval_node_cache_total :
  forall ea ext G names sw U, wf_env G names U ->
  forall t c,
    good ea ext G names t -> cache_ok ea ext G names sw U c -> dups_ok ea ext c ->
    exists R c', eval_node G names sw (steady_of G U) t U c = Ok (R, c').
Proof.
  exact (fun ea ext G names sw U WF =>
    eval_node_cache_totalS ea ext G names sw U WF (steady_of G U) (wf_steady_shaped G names U WF) (steady_of_ignores_copies G names U WF)).
Qed.
Print Assumptions C04_eval_node_cache_total.

(** C01 with the cache switched on *)
Theorem C04_eval_node_cache_correct :
  forall ea ext G names sw U, wf_env G names U ->
  forall (Gamma : str -> val -> Prop) t c R c',
    good ea ext G names t -> cache_ok ea ext G names sw U c -> dups_ok ea ext c ->
    eval_node G names sw (steady_of G U) t U c = Ok (R, c') ->
    shaped (g_L G) R /\
    forall v, mem (g_L G) R v = true <-> (mem (g_L G) U v = true /\ sat G names Gamma t v).
Proof.
  intros ea ext G names sw U WF Gamma t c R c' GT CO DO E.
  destruct (C04_eval_node_cache_transparent ea ext G names sw U WF t c R c' GT CO DO E) as (P & _).
  destruct GT as (Pl & Su & _). exact (peval_correct G names U WF Gamma sw t R Pl Su P).
Qed.
Print Assumptions C04_eval_node_cache_correct.

(** the open scopes recorded in the context are restored: [free_doms] is the same before and
    after a node (a plain sub-formula found below [d] quantifiers, no deeper binder name in
    scope -- in particular a closed formula started with [free_doms c = []]); the invariants
    above do not depend on [free_doms] or [domain_sets] at all *)
Theorem C04_eval_node_free_doms :
  forall G names sw steady t d U c R c',
    plainf t -> depth_named d t ->
    (forall j, d <= j -> alookup str_eqb (xs (S j)) (free_doms c) = None) ->
    eval_node G names sw steady t U c = Ok (R, c') -> free_doms c' = free_doms c.
Proof. exact eval_node_free_doms. Qed.
Print Assumptions C04_eval_node_free_doms.

(** the context of the entry points satisfies the invariants *)
Theorem C04_mark_duplicates_dups_ok :
  forall ea ext roots,
    List.Forall (fun t => well_named ea ext t /\ exists d, depth_named d t) roots ->
    dups_ok ea ext (ctx_new (mark_duplicates roots)).
Proof. exact mark_duplicates_dups_ok. Qed.
Print Assumptions C04_mark_duplicates_dups_ok.

Theorem C04_ctx_new_cache_ok :
  forall ea ext G names sw U dups, cache_ok ea ext G names sw U (ctx_new dups).
Proof. exact (fun ea ext G names sw U => ctx_new_cache_okS ea ext G names sw U (steady_of G U)). Qed.
Print Assumptions C04_ctx_new_cache_ok.

(** every reported key is the key of a node with an at most one-entry map *)
Theorem C04_mark_duplicates_single :
  forall roots k m, In (k, m) (mark_duplicates roots) ->
    exists t doms, occ roots (t, doms) /\ fst (node_key t doms) = k
                   /\ length (snd (node_key t doms)) <= 1.
Proof. exact mark_duplicates_wit. Qed.
Print Assumptions C04_mark_duplicates_single.

(** what [validate_all] returns is good: the side conditions are those of the pipeline *)
Theorem C04_validated_good :
  forall ea (w : world) k ctx fs r,
    validate_all ea false (w_names w) k ctx fs = Ok r ->
    exists ts', r = (ts', [], [])
                /\ List.Forall (good ea false (genv_of w k) (w_names w)) ts'.
Proof. exact validate_all_good. Qed.
Print Assumptions C04_validated_good.

Theorem C04_parsed_well_named :
  forall ea ext s t, parse_formula ea ext s = Ok t -> well_named ea ext t.
Proof. exact parsed_well_named. Qed.
Print Assumptions C04_parsed_well_named.

(** history independence: ANY starting context satisfying the invariants *)
Theorem C04_batch_transparent :
  forall ea ext G names sw U, wf_env G names U ->
  forall ts c rs,
    List.Forall (good ea ext G names) ts ->
    cache_ok ea ext G names sw U c -> dups_ok ea ext c ->
    eval_all G names sw (steady_of G U) U ts c = Ok rs ->
    List.Forall2 (fun t R => peval G names sw (steady_of G U) t U = Ok R) ts rs.
Proof.
  exact (fun ea ext G names sw U WF =>
    batch_transparentS ea ext G names sw U WF (steady_of G U) (wf_steady_shaped G names U WF) (steady_of_ignores_copies G names U WF)).
Qed.
Print Assumptions C04_batch_transparent.

Theorem C04_batch_transparent_marked :
  forall ea ext G names sw U, wf_env G names U ->
  forall ts rs,
    List.Forall (good ea ext G names) ts ->
    eval_all G names sw (steady_of G U) U ts (ctx_new (mark_duplicates ts)) = Ok rs ->
    List.Forall2 (fun t R => peval G names sw (steady_of G U) t U = Ok R) ts rs.
Proof.
  exact (fun ea ext G names sw U WF =>
    batch_transparent_markedS ea ext G names sw U WF (steady_of G U) (wf_steady_shaped G names U WF) (steady_of_ignores_copies G names U WF)).
Qed.
Print Assumptions C04_batch_transparent_marked.

Theorem C04_batch_total :
  forall ea ext G names sw U, wf_env G names U ->
  forall ts c,
    List.Forall (good ea ext G names) ts ->
    cache_ok ea ext G names sw U c -> dups_ok ea ext c ->
    exists rs, eval_all G names sw (steady_of G U) U ts c = Ok rs.
Proof.
  intros ea ext G names sw U WF ts c F CO DO.
  destruct (eval_all_cacheS ea ext G names sw U WF (steady_of G U) (wf_steady_shaped G names U WF) (steady_of_ignores_copies G names U WF) ts c F CO DO) as (rs & E & _).
  exists rs. exact E.
Qed.
Print Assumptions C04_batch_total.

(** the entry point evaluates a batch formula by formula: [single w k m t] is [peval] on [t]
    followed by the sanitiser when the mode asks for it *)
Theorem C04_single_def :
  forall (w : world) k m t,
    single w k m t =
    (let* r := peval (genv_of w k) (w_names w) {| use_patterns := negb (m_nopatterns m) |}
                     (steady_of (genv_of w k) (unit_of w k)) t (unit_of w k) in
     if m_sanitize m then sanitize (genv_of w k) r else Ok r).
Proof. exact (fun w k m t => eq_refl). Qed.

Theorem C04_check_trees_map :
  forall ea ext (w : world) k,
    List.Forall (shaped (Lpn (w_p w) (w_n w))) (w_upd w) ->
    shaped (Lpn (w_p w) (w_n w)) (w_unit w) ->
    (forall v v', (forall j, v (TP j) = v' (TP j)) ->
       mem (Lpn (w_p w) (w_n w)) (w_unit w) v = mem (Lpn (w_p w) (w_n w)) (w_unit w) v') ->
    length (w_names w) <= w_n w ->
    forall m ts,
      m_ext m = false -> m_unsafe_ex m = false ->
      List.Forall (good ea ext (genv_of w k) (w_names w)) ts ->
      check_trees w k m ts [] [] = mapM (single w k m) ts.
Proof.
  intros ea ext w k H1 H2 H3 H4 m ts He Hu F. rewrite <- (singleS_single w k m Hu).
  exact (check_trees_mapS ea ext w k H1 H2 H3 H4 m ts He F).
Qed.
Print Assumptions C04_check_trees_map.

(** ** the property in its own words *)

(** (a) with and without duplicate marking: the same outcome (one is [Ok rs] iff the other
    is, with the same [rs]; the same panic otherwise -- only the sanitiser can panic) *)
Theorem C04_cache_mode_irrelevant :
  forall ea ext (w : world) k,
    List.Forall (shaped (Lpn (w_p w) (w_n w))) (w_upd w) ->
    shaped (Lpn (w_p w) (w_n w)) (w_unit w) ->
    (forall v v', (forall j, v (TP j) = v' (TP j)) ->
       mem (Lpn (w_p w) (w_n w)) (w_unit w) v = mem (Lpn (w_p w) (w_n w)) (w_unit w) v') ->
    length (w_names w) <= w_n w ->
    forall m m' ts,
      m_ext m = false -> m_unsafe_ex m = false -> m_ext m' = false -> m_unsafe_ex m' = false ->
      m_sanitize m = m_sanitize m' -> m_nopatterns m = m_nopatterns m' ->
      List.Forall (good ea ext (genv_of w k) (w_names w)) ts ->
      check_trees w k m ts [] [] = check_trees w k m' ts [] [].
Proof.
  exact (fun ea ext w k H1 H2 H3 H4 m m' ts He Hu He' Hu' =>
    cache_mode_irrelevantS ea ext w k H1 H2 H3 H4 m m' ts He He' (eq_trans Hu (eq_sym Hu'))).
Qed.
Print Assumptions C04_cache_mode_irrelevant.

(** ... for the string entry point, whatever the strings *)
Theorem C04_model_check_cache_mode_irrelevant :
  forall ea (w : world) k m m' ctx fs,
    List.Forall (shaped (Lpn (w_p w) (w_n w))) (w_upd w) ->
    shaped (Lpn (w_p w) (w_n w)) (w_unit w) ->
    (forall v v', (forall j, v (TP j) = v' (TP j)) ->
       mem (Lpn (w_p w) (w_n w)) (w_unit w) v = mem (Lpn (w_p w) (w_n w)) (w_unit w) v') ->
    length (w_names w) <= w_n w ->
    m_ext m = false -> m_unsafe_ex m = false -> m_ext m' = false -> m_unsafe_ex m' = false ->
    m_sanitize m = m_sanitize m' -> m_nopatterns m = m_nopatterns m' ->
    model_check ea w k m ctx fs = model_check ea w k m' ctx fs.
Proof.
  exact (fun ea w k m m' ctx fs H1 H2 H3 H4 He Hu He' Hu' =>
    model_check_cache_mode_irrelevantS ea w k m m' ctx fs H1 H2 H3 H4 He He' (eq_trans Hu (eq_sym Hu'))).
Qed.
Print Assumptions C04_model_check_cache_mode_irrelevant.

(** (b) the result at position [i] is the result of the [i]-th formula evaluated alone *)
Theorem C04_batch_position :
  forall ea ext (w : world) k,
    List.Forall (shaped (Lpn (w_p w) (w_n w))) (w_upd w) ->
    shaped (Lpn (w_p w) (w_n w)) (w_unit w) ->
    (forall v v', (forall j, v (TP j) = v' (TP j)) ->
       mem (Lpn (w_p w) (w_n w)) (w_unit w) v = mem (Lpn (w_p w) (w_n w)) (w_unit w) v') ->
    length (w_names w) <= w_n w ->
    forall m ts rs i dt dr,
      m_ext m = false -> m_unsafe_ex m = false ->
      List.Forall (good ea ext (genv_of w k) (w_names w)) ts ->
      check_trees w k m ts [] [] = Ok rs -> i < length ts ->
      check_trees w k m [nth i ts dt] [] [] = Ok [nth i rs dr].
Proof.
  exact (fun ea ext w k H1 H2 H3 H4 m ts rs i dt dr He _ =>
    batch_positionS ea ext w k H1 H2 H3 H4 m ts rs i dt dr He).
Qed.
Print Assumptions C04_batch_position.

(** (c) a permuted batch has the correspondingly permuted results *)
Theorem C04_batch_permutation :
  forall ea ext (w : world) k,
    List.Forall (shaped (Lpn (w_p w) (w_n w))) (w_upd w) ->
    shaped (Lpn (w_p w) (w_n w)) (w_unit w) ->
    (forall v v', (forall j, v (TP j) = v' (TP j)) ->
       mem (Lpn (w_p w) (w_n w)) (w_unit w) v = mem (Lpn (w_p w) (w_n w)) (w_unit w) v') ->
    length (w_names w) <= w_n w ->
    forall m ts ts' rs,
      m_ext m = false -> m_unsafe_ex m = false ->
      List.Forall (good ea ext (genv_of w k) (w_names w)) ts -> Permutation ts ts' ->
      check_trees w k m ts [] [] = Ok rs ->
      exists rs', check_trees w k m ts' [] [] = Ok rs'
                  /\ Permutation (combine ts rs) (combine ts' rs').
Proof.
  exact (fun ea ext w k H1 H2 H3 H4 m ts ts' rs He _ =>
    batch_permutationS ea ext w k H1 H2 H3 H4 m ts ts' rs He).
Qed.
Print Assumptions C04_batch_permutation.

(** ... and a repeated formula gets its result twice *)
Theorem C04_batch_repetition :
  forall ea ext (w : world) k,
    List.Forall (shaped (Lpn (w_p w) (w_n w))) (w_upd w) ->
    shaped (Lpn (w_p w) (w_n w)) (w_unit w) ->
    (forall v v', (forall j, v (TP j) = v' (TP j)) ->
       mem (Lpn (w_p w) (w_n w)) (w_unit w) v = mem (Lpn (w_p w) (w_n w)) (w_unit w) v') ->
    length (w_names w) <= w_n w ->
    forall m t ts r1 r2 rs,
      m_ext m = false -> m_unsafe_ex m = false ->
      List.Forall (good ea ext (genv_of w k) (w_names w)) (t :: t :: ts) ->
      check_trees w k m (t :: t :: ts) [] [] = Ok (r1 :: r2 :: rs) ->
      r1 = r2 /\ check_trees w k m (t :: ts) [] [] = Ok (r1 :: rs).
Proof.
  exact (fun ea ext w k H1 H2 H3 H4 m t ts r1 r2 rs He _ =>
    batch_repetitionS ea ext w k H1 H2 H3 H4 m t ts r1 r2 rs He).
Qed.
Print Assumptions C04_batch_repetition.

(** (d) two runs from different contexts that satisfy the invariants return the same list *)
Theorem C04_history_independent :
  forall ea ext (w : world) k,
    List.Forall (shaped (Lpn (w_p w) (w_n w))) (w_upd w) ->
    shaped (Lpn (w_p w) (w_n w)) (w_unit w) ->
    (forall v v', (forall j, v (TP j) = v' (TP j)) ->
       mem (Lpn (w_p w) (w_n w)) (w_unit w) v = mem (Lpn (w_p w) (w_n w)) (w_unit w) v') ->
    length (w_names w) <= w_n w ->
    forall sw ts c1 c2 rs1 rs2,
      List.Forall (good ea ext (genv_of w k) (w_names w)) ts ->
      cache_ok ea ext (genv_of w k) (w_names w) sw (unit_of w k) c1 -> dups_ok ea ext c1 ->
      cache_ok ea ext (genv_of w k) (w_names w) sw (unit_of w k) c2 -> dups_ok ea ext c2 ->
      eval_all (genv_of w k) (w_names w) sw (steady_of (genv_of w k) (unit_of w k))
               (unit_of w k) ts c1 = Ok rs1 ->
      eval_all (genv_of w k) (w_names w) sw (steady_of (genv_of w k) (unit_of w k))
               (unit_of w k) ts c2 = Ok rs2 ->
      rs1 = rs2.
Proof.
  intros ea ext w k H1 H2 H3 H4 sw ts c1 c2 rs1 rs2 F CO1 DO1 CO2 DO2 E1 E2.
  pose proof (world_wf w k H1 H2 H3 H4) as WF.
  refine (Forall2_fun _ ts rs1 rs2 _
            (C04_batch_transparent ea ext _ _ sw _ WF ts c1 rs1 F CO1 DO1 E1)
            (C04_batch_transparent ea ext _ _ sw _ WF ts c2 rs2 F CO2 DO2 E2)).
  intros; congruence.
Qed.
Print Assumptions C04_history_independent.

(** * Examples (non-vacuity) *)

(** two variables a, b (b follows a, a is always updated to 1), one parameter bit, two spare
    copies;  f1 = !{x}: (EX {x}),  f2 = !{x}: !{xx}: (AX (EX {xx})).
    The sub-formulae (EX {x}) of f1 and (EX {xx}) of f2 have the canonical text "(EX {var0})";
    [mark_duplicates] reports it once; evaluating f1 stores the set of (EX {x}); evaluating f2
    takes it from the cache, renames copy 0 into copy 1, and evicts the entry. *)
Definition ex_ea : N -> bool := fun _ => false.
Definition ex_w : world :=
  {| w_p := 1; w_n := 2; w_names := [[97%N]; [98%N]];
     w_upd := [const (Lpn 1 2) true; lit (Lpn 1 2) (TS 0)];
     w_unit := const (Lpn 1 2) true |}.
Definition ex_G : genv := genv_of ex_w 2.
Definition ex_U : tt := unit_of ex_w 2.
Definition ex_sw : switches := {| use_patterns := true |}.
Definition ex_vx : tree := Terminal (AVar (xs 1)).
Definition ex_vxx : tree := Terminal (AVar (xs 2)).
Definition ex_f1 : tree := Hybrid Bind (xs 1) None (Unary EX ex_vx).
Definition ex_f2 : tree :=
  Hybrid Bind (xs 1) None (Hybrid Bind (xs 2) None (Unary AX (Unary EX ex_vxx))).
Definition ex_ts : list tree := [ex_f1; ex_f2].
Definition ex_c0 : ectx := ctx_new (mark_duplicates ex_ts).
Definition ex_eval (t : tree) (c : ectx) : res (tt * ectx) :=
  eval_node ex_G (w_names ex_w) ex_sw (steady_of ex_G ex_U) t ex_U c.
Definition ex_peval (t : tree) : res tt :=
  peval ex_G (w_names ex_w) ex_sw (steady_of ex_G ex_U) t ex_U.

(** the hypotheses of the theorems hold for this instance *)
Example C04_ex_world :
  List.Forall (shaped (Lpn (w_p ex_w) (w_n ex_w))) (w_upd ex_w)
  /\ shaped (Lpn (w_p ex_w) (w_n ex_w)) (w_unit ex_w)
  /\ (forall v v', (forall j, v (TP j) = v' (TP j)) ->
        mem (Lpn (w_p ex_w) (w_n ex_w)) (w_unit ex_w) v = mem (Lpn (w_p ex_w) (w_n ex_w)) (w_unit ex_w) v')
  /\ length (w_names ex_w) <= w_n ex_w.
Proof.
  split; [|split; [|split]].
  - constructor; [apply shaped_const|]. constructor; [apply shaped_lit | constructor].
  - apply shaped_const.
  - intros v v' _. cbn [w_unit ex_w]. rewrite !mem_const. reflexivity.
  - cbn. lia.
Qed.

Example C04_ex_good : List.Forall (good ex_ea false ex_G (w_names ex_w)) ex_ts.
Proof.
  assert (forall t, plainf t -> supported ex_G t -> props_known (w_names ex_w) t ->
                    well_namedb ex_ea false t = true -> depth_named 0 t ->
                    good ex_ea false ex_G (w_names ex_w) t) as K.
  { intros t A B C D E. repeat split; try assumption.
    - apply well_namedb_sound, D.
    - exists 0. exact E. }
  constructor; [|constructor; [|constructor]]; apply K; cbn; repeat split; try discriminate;
    try reflexivity; first [exists 0; split; [lia | reflexivity] | exists 1; split; [lia | reflexivity]].
Qed.

(** one key is marked, with counter 1; it is the key of (EX {x}) below the binder of x *)
Example C04_ex_marked :
  mark_duplicates ex_ts = [(fst (node_key (Unary EX ex_vx) [(xs 1, None)]), 1)].
Proof. vm_compute. reflexivity. Qed.

(** after the first formula the cache holds one entry: the set of (EX {x}), with its map *)
Example C04_ex_cache_filled :
  exists r1 c1, ex_eval ex_f1 ex_c0 = Ok (r1, c1)
    /\ (exists k S, cache c1 = [(k, (S, [(xs 1, canon_name 0)]))] /\ ex_peval (Unary EX ex_vx) = Ok S)
    /\ map snd (duplicates c1) = [1].
Proof.
  do 2 eexists. split; [vm_compute; reflexivity|]. split; [|vm_compute; reflexivity].
  do 2 eexists. split; vm_compute; reflexivity.
Qed.

(** the second formula is served from the cache: the entry is evicted (only a hit evicts),
    and the set it contributes is NOT the cached set but its renaming *)
Example C04_ex_cache_hit :
  exists r1 c1 r2 c2,
    ex_eval ex_f1 ex_c0 = Ok (r1, c1) /\ ex_eval ex_f2 c1 = Ok (r2, c2)
    /\ cache c2 = [] /\ duplicates c2 = []
    /\ ex_peval ex_f1 = Ok r1 /\ ex_peval ex_f2 = Ok r2.
Proof.
  (* the two runs by evaluation; that they return the [peval] results is the theorem *)
  assert (exists r1 c1 r2 c2, ex_eval ex_f1 ex_c0 = Ok (r1, c1) /\ ex_eval ex_f2 c1 = Ok (r2, c2)
                              /\ cache c2 = [] /\ duplicates c2 = []) as (r1 & c1 & r2 & c2 & E1 & E2 & K).
  { do 4 eexists. split; [vm_compute; reflexivity|]. split; [vm_compute; reflexivity|].
    split; reflexivity. }
  destruct C04_ex_world as (H1 & H2 & H3 & H4). pose proof (world_wf ex_w 2 H1 H2 H3 H4) as WF.
  pose proof C04_ex_good as GD. pose proof (Forall_inv GD) as G1.
  pose proof (Forall_inv (Forall_inv_tail GD)) as G2.
  destruct (C04_eval_node_cache_transparent ex_ea false _ _ ex_sw _ WF ex_f1 ex_c0 r1 c1 G1
              (C04_ctx_new_cache_ok _ _ _ _ _ _ _)
              (C04_mark_duplicates_dups_ok _ _ _ (Forall_impl _ (good_named _ _ _ _) GD)) E1)
    as (P1 & CO1 & DO1).
  destruct (C04_eval_node_cache_transparent ex_ea false _ _ ex_sw _ WF ex_f2 c1 r2 c2 G2 CO1 DO1 E2)
    as (P2 & _).
  exists r1, c1, r2, c2. repeat split; assumption || apply K.
Qed.

Example C04_ex_renaming_not_identity :
  ex_peval (Unary EX ex_vx) <> ex_peval (Unary EX ex_vxx)
  /\ exists S, ex_peval (Unary EX ex_vx) = Ok S
               /\ ex_peval (Unary EX ex_vxx) = Ok (substitute_hctl_var ex_G S 0 1).
Proof.
  eassert (ex_peval (Unary EX ex_vx) = Ok _) as E1 by (vm_compute; reflexivity).
  eassert (ex_peval (Unary EX ex_vxx) = Ok _) as E2 by (vm_compute; reflexivity).
  split; [rewrite E1, E2; discriminate|].
  eexists. split; [exact E1 | rewrite E2; vm_compute; reflexivity].
Qed.

(** the batch, with duplicate marking, returns the cache-free results; they are neither empty
    nor full *)
Example C04_ex_batch :
  eval_all ex_G (w_names ex_w) ex_sw (steady_of ex_G ex_U) ex_U ex_ts ex_c0 = mapM ex_peval ex_ts
  /\ exists r1 r2, mapM ex_peval ex_ts = Ok [r1; r2] /\ card r1 = 32 /\ card r2 = 32
                   /\ card ex_U = 128.
Proof.
  split.
  - (* the theorem, at this instance *)
    destruct C04_ex_world as (H1 & H2 & H3 & H4). pose proof (world_wf ex_w 2 H1 H2 H3 H4) as WF.
    pose proof (C04_mark_duplicates_dups_ok _ _ _ (Forall_impl _ (good_named _ _ _ _) C04_ex_good)) as DO.
    destruct (C04_batch_total ex_ea false _ _ ex_sw _ WF ex_ts ex_c0 C04_ex_good
                (C04_ctx_new_cache_ok _ _ _ _ _ _ _) DO) as [rs E].
    refine (eq_trans E (eq_sym _)). apply mapM_Forall2.
    exact (C04_batch_transparent_marked ex_ea false _ _ ex_sw _ WF ex_ts rs C04_ex_good E).
  - do 2 eexists. split; [vm_compute; reflexivity|]. split; [|split]; vm_compute; reflexivity.
Qed.

Example C04_ex_check_trees :
  check_trees ex_w 2 {| m_ext := false; m_sanitize := false; m_unsafe_ex := false;
                        m_nocache := false; m_nopatterns := false |} ex_ts [] []
  = check_trees ex_w 2 {| m_ext := false; m_sanitize := false; m_unsafe_ex := false;
                          m_nocache := true; m_nopatterns := false |} ex_ts [] [].
Proof.
  destruct C04_ex_world as (H1 & H2 & H3 & H4).
  apply (C04_cache_mode_irrelevant ex_ea false ex_w 2 H1 H2 H3 H4); try reflexivity.
  exact C04_ex_good.
Qed.

(** Outside the theorems of this file (C04c.v covers it) -- one instance with variable domains:
    (EX {x}) below  3{x} in %A%  is stored; (EX {xx}) below  3{x} in %B%: 3{xx} in %A%  has
    the same key and is served from the cache although the variable x (not in its renaming
    map) is restricted there.  The cached set was computed in a LARGER unit, so at the node
    the sets differ outside the current unit; the quantifiers intersect with their unit, and
    the results of the batch agree with the evaluation without duplicate marking. *)
Definition ex_lA : str := [65%N].
Definition ex_lB : str := [66%N].
Definition ex_g1 : tree := Hybrid Exists (xs 1) (Some ex_lA) (Unary EX ex_vx).
Definition ex_g2 : tree :=
  Hybrid Exists (xs 1) (Some ex_lB)
    (Hybrid Exists (xs 2) (Some ex_lA) (Unary AX (Unary EX ex_vxx))).
Definition ex_g3 : tree :=
  Hybrid Forall (xs 1) (Some ex_lB)
    (Hybrid Exists (xs 2) (Some ex_lA)
       (Binary Or (Unary Not (Unary EX ex_vxx)) (Unary EX ex_vxx))).
Definition ex_doms : list (str * tt) :=
  [(ex_lA, lit (Lpn 1 2) (TS 0)); (ex_lB, lit (Lpn 1 2) (TS 1))].
Definition ex_md (nc : bool) : mode :=
  {| m_ext := true; m_sanitize := false; m_unsafe_ex := false; m_nocache := nc;
     m_nopatterns := false |}.

Example C04_ex_domains_instance :
  map snd (mark_duplicates [ex_g1; ex_g2; ex_g3]) = [3]
  /\ check_trees ex_w 2 (ex_md false) [ex_g1; ex_g2; ex_g3] [] ex_doms
     = check_trees ex_w 2 (ex_md true) [ex_g1; ex_g2; ex_g3] [] ex_doms
  /\ exists rs, check_trees ex_w 2 (ex_md false) [ex_g1; ex_g2; ex_g3] [] ex_doms = Ok rs
                /\ map card rs = [128; 96; 128].
Proof.
  eassert (check_trees ex_w 2 (ex_md false) [ex_g1; ex_g2; ex_g3] [] ex_doms = Ok _) as E
    by (vm_compute; reflexivity).
  split; [vm_compute; reflexivity|]. split; [rewrite E; vm_compute; reflexivity|].
  eexists. split; [exact E | vm_compute; reflexivity].
Qed.

Print Assumptions C04_ex_world.
Print Assumptions C04_ex_domains_instance.
Print Assumptions C04_ex_good.
Print Assumptions C04_ex_marked.
Print Assumptions C04_ex_cache_filled.
Print Assumptions C04_ex_cache_hit.
Print Assumptions C04_ex_renaming_not_identity.
Print Assumptions C04_ex_batch.
Print Assumptions C04_ex_check_trees.
Print Assumptions C04_good_def.
Print Assumptions C04_cache_ok_def.
Print Assumptions C04_dups_ok_def.
Print Assumptions C04_single_def.
