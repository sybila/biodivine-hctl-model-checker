(** C13 -- EW and AW are weak until. *)
From HCTL Require Import Base TT Ops Kripke.
From HCTL Require Import SemFacts Laws.

Local Notation inU G U A := (forall v, mem (g_L G) A v = true -> mem (g_L G) U v = true).
Local Notation st G U := (steady_of G U).
Local Notation Mem G A := (fun v0 : val => mem (g_L G) A v0 = true).

(** the computed sets are the greatest fixed points of the until unfolding
    (EWs / AWs of Spec/Kripke.v), for arbitrary argument sets and any network *)
Theorem C13_ew : forall G U, wf_graph G U -> forall S T R,
  shaped (g_L G) S -> inU G U S -> shaped (g_L G) T -> inU G U T ->
  eval_ew G U S T (st G U) = Ok R ->
  forall v, mem (g_L G) R v = true <-> (mem (g_L G) U v = true /\ EWs G (Mem G S) (Mem G T) v).
Proof.
  intros G U WF S T R SS IS ST IT H.
  exact (proj2 (wf_binary_spec WF Syntax.EW (self_spec S SS IS) (self_spec T ST IT) H)).
Qed.

Theorem C13_aw : forall G U, wf_graph G U -> forall S T R,
  shaped (g_L G) S -> inU G U S -> shaped (g_L G) T -> inU G U T ->
  eval_aw G U S T = Ok R ->
  forall v, mem (g_L G) R v = true <-> (mem (g_L G) U v = true /\ AWs G (Mem G S) (Mem G T) v).
Proof.
  intros G U WF S T R SS IS ST IT H.
  exact (proj2 (wf_binary_spec WF Syntax.AW (self_spec S SS IS) (self_spec T ST IT) H)).
Qed.

(** E[S W T] = E[S U T] or EG S, as sets *)
Theorem C13_ew_equation : forall G U, wf_graph G U -> forall S T R Reu Reg,
  shaped (g_L G) S -> inU G U S -> shaped (g_L G) T -> inU G U T ->
  eval_ew G U S T (st G U) = Ok R -> eval_eu_saturated G S T = Ok Reu -> eval_eg G S (st G U) = Ok Reg ->
  R = tor Reu Reg.
Proof. exact ew_equation. Qed.

(** A[S W T] = not E[not T U (not S and not T)] *)
Theorem C13_aw_equation : forall G U S T, eval_aw G U S T =
  (let* r := eval_eu_saturated G (eval_neg U T) (tand (eval_neg U S) (eval_neg U T)) in Ok (eval_neg U r)).
Proof. reflexivity. Qed.

(** every state of T belongs to both weak untils *)
Theorem C13_ew_includes_psi : forall G U, wf_graph G U -> forall S T R v,
  shaped (g_L G) S -> inU G U S -> shaped (g_L G) T -> inU G U T ->
  eval_ew G U S T (st G U) = Ok R -> mem (g_L G) T v = true -> mem (g_L G) R v = true.
Proof.
  intros G U WF S T R v SS IS ST IT H Hv. apply (C13_ew G U WF S T R SS IS ST IT H).
  split; [apply IT, Hv | apply KripkeFacts.gfpW_includes, Hv].
Qed.

Theorem C13_aw_includes_psi : forall G U, wf_graph G U -> forall S T R v,
  shaped (g_L G) S -> inU G U S -> shaped (g_L G) T -> inU G U T ->
  eval_aw G U S T = Ok R -> mem (g_L G) T v = true -> mem (g_L G) R v = true.
Proof.
  intros G U WF S T R v SS IS ST IT H Hv. apply (C13_aw G U WF S T R SS IS ST IT H).
  split; [apply IT, Hv | apply KripkeFacts.gfpW_includes, Hv].
Qed.

(** the specification-level law behind the first equation *)
Theorem C13_spec_split : forall G (P Q : val -> Prop) v, (forall u, EUs G P Q u \/ ~ EUs G P Q u) ->
  (EWs G P Q v <-> EUs G P Q v \/ EGs G P v).
Proof. exact KripkeFacts.EW_split. Qed.

Print Assumptions C13_ew.
Print Assumptions C13_aw.
Print Assumptions C13_ew_equation.
Print Assumptions C13_aw_equation.
Print Assumptions C13_ew_includes_psi.
Print Assumptions C13_aw_includes_psi.
Print Assumptions C13_spec_split.
