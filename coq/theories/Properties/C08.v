(** C08 -- results are invariant under meaning-preserving rewrites of the formula text.
    The proofs behind the statements are in Proofs/AlphaFacts.v (part 1), Proofs/ParenFacts.v
    (part 2 and the constants of part 4), Proofs/SpacingFacts.v (part 3 and the hybrid operators
    of part 4) and Proofs/RewriteFacts.v ([model_check] for parts 3 and 4).

    The evaluator is a function of the preprocessed tree, so two formula texts with the
    same outcome of [parse_and_minimize] get the same outcome of [model_check]
    ([C08_model_check_same_front]).  The four parts show that this outcome is not changed by
      1. renaming bound variables,
      2. redundant parentheses,
      3. white space at token boundaries,
      4. the alternative spellings of hybrid operators and of the constants.

    Vocabulary of part 1 (AlphaFacts.v; [db], [rename], [well_scoped] are from PrepFacts.v):
    - [no_requant scope t]: no quantifier (bind / exists / forall) of [t] binds a name that
      is in [scope] or bound by an enclosing quantifier of [t];
    - [dprep props n d]: validation and naming of the de Bruijn form [d] below [n]
      quantifiers, in the traversal order of [prep]: the first unknown proposition gives
      [Err EUnknownProp], the first free variable or jump target [Err EFreeVar], otherwise
      [Ok] of the tree named by depth; it never answers [Err ERequantified];
    - [dname n d]: the tree named by depth; [dclosed props d]: no free variable, only known
      propositions.

    Vocabulary of part 2 (ParenFacts.v; [G], [L], [U] are the grammar of ParserFacts.v):
    - [teq x y]: the tokens are equal, or both are operands (atoms or groups) that derive the
      same trees ([forall t, U [x] t <-> U [y] t]);
    - [GW ts ts' t]: [ts] derives [t] and [ts'] is [ts] with groups put around any number of
      operands of that derivation, at any depth ([LW], [UW]: the same for [L n], [U]).

    Vocabulary of part 3 (SpacingFacts.v), everything for an arbitrary classification
    [ext_alnum] of the code points >= 128:
    - [next c rest] / [nexts cs]: one iteration of the tokenizer loop without the recursive
      calls: it drops a white-space character ([ASkip]), reads a complete token ([APush]),
      an opening ([AOpen]) or closing ([AClose]) parenthesis, or fails ([C08_tok_next]);
    - [ws_str w]: all characters are white space; [is_sep c]: white space that is not a name
      character -- every white-space character below 128 and, if [ext_alnum] rejects white
      space as Unicode does, every white-space character ([C08_is_sep_unicode]);
      [sep_str w]: all characters are separators;
    - [name_str n]: a non-empty string of name characters; [prop_text n]: a name that does
      not start with white space and is none of [3], [V], [EX] .. [AW] ([reserved]);
    - [seg_txt x d w1 w2 w3 w4 s]: the segment [w1 {x} w2 (in w3 %d% w4)? : s] of a hybrid
      operator; [dom_ok pd d]: a domain is only written where domains are parsed;
    - [hyb_heads]: the spellings [!], [3], [V], [@], [\bind], [\exists], [\forall], [\jump]
      with their operators; [simple_ops]: [~ & | ^ => <=>] with their tokens;
    - [lsim s s']: the loop behaves on [s'] as on [s] (same action, similar rests), except
      that it may drop additional white space at the start of an iteration;
    - [respaced s s']: the syntactic counterpart, token by token from the left
      ([C08_respaced_rules]). *)
From HCTL Require Import Base Syntax Tokenizer Parser Preprocess TT Pipeline.
From HCTL Require Import PrepFacts ParserFacts AlphaFacts ParenFacts SpacingFacts RewriteFacts.

(** * Names of bound variables *)

(** [rename] -- hence the result of a successful preprocessing -- depends on the de Bruijn
    form only *)
Theorem C08_rename_depends_on_db :
  forall (t1 t2 : tree) (s1 s2 : list str),
    length s1 = length s2 -> db s1 t1 = db s2 t2 -> rename s1 t1 = rename s2 t2.
Proof. exact rename_alpha. Qed.

Theorem C08_rename_is_dname :
  forall (t : tree) (scope : list str), rename scope t = dname (length scope) (db scope t).
Proof. exact rename_dname. Qed.

(** well-scopedness is "no re-quantification" plus a property of the de Bruijn form; only
    the first conjunct is not alpha-invariant *)
Theorem C08_well_scoped_iff :
  forall (props : list str) (t : tree) (scope : list str),
    well_scoped props scope t <-> no_requant scope t /\ dclosed props (db scope t).
Proof. exact well_scoped_iff. Qed.

(** the outcome of preprocessing is a function of the de Bruijn form, or the error
    "re-quantified variable" *)
Theorem C08_preprocess_factors :
  forall (props : list str) (t : tree),
    preprocess props t = dprep props 0 (db [] t) \/ preprocess props t = Err ERequantified.
Proof. exact preprocess_factors. Qed.

Theorem C08_preprocess_factors_exact :
  forall (props : list str) (t : tree),
    no_requant [] t -> preprocess props t = dprep props 0 (db [] t).
Proof. exact preprocess_factors_exact. Qed.

(** the same for [prep] under the invariant of its map *)
Theorem C08_prep_factors :
  forall (props : list str) (t : tree) (scope : list str) (ren : list (str * str)),
    (forall x, alookup str_eqb x ren
               = option_map (fun i => xs (length scope - i)) (index x scope)) ->
    prep props ren (xs (length scope)) t = dprep props (length scope) (db scope t)
    \/ prep props ren (xs (length scope)) t = Err ERequantified.
Proof. exact prep_factors. Qed.

Theorem C08_dprep_never_requantified :
  forall (props : list str) (d : dtree) (n : nat), dprep props n d <> Err ERequantified.
Proof. exact dprep_never_requantified. Qed.

Theorem C08_not_requantified :
  forall (props : list str) (t : tree),
    no_requant [] t -> preprocess props t <> Err ERequantified.
Proof. exact preprocess_not_requantified. Qed.

(** what holds without any side condition: alpha-equivalent trees have the same outcome
    (same tree or same error class) unless one of them is rejected for re-quantification *)
Theorem C08_alpha_general :
  forall (props : list str) (t1 t2 : tree),
    db [] t1 = db [] t2 ->
    preprocess props t1 = preprocess props t2
    \/ preprocess props t1 = Err ERequantified
    \/ preprocess props t2 = Err ERequantified.
Proof. exact preprocess_alpha_general. Qed.

(** alpha-equivalent trees that do not re-quantify have the same outcome: the same tree, or
    the same error class *)
Theorem C08_alpha_invariant :
  forall (props : list str) (t1 t2 : tree),
    db [] t1 = db [] t2 -> no_requant [] t1 -> no_requant [] t2 ->
    preprocess props t1 = preprocess props t2.
Proof. exact preprocess_alpha_invariant. Qed.

(** acceptance of one side transfers to every alpha-equivalent tree that does not
    re-quantify (the accepted side never does) *)
Theorem C08_alpha_ok :
  forall (props : list str) (t1 t2 t' : tree),
    db [] t1 = db [] t2 -> no_requant [] t2 ->
    preprocess props t1 = Ok t' -> preprocess props t2 = Ok t'.
Proof. exact preprocess_alpha_ok. Qed.

Theorem C08_alpha_ok_ok :
  forall (props : list str) (t1 t2 t1' t2' : tree),
    db [] t1 = db [] t2 ->
    preprocess props t1 = Ok t1' -> preprocess props t2 = Ok t2' -> t1' = t2'.
Proof. exact preprocess_alpha_ok_ok. Qed.

(** the side condition cannot be dropped:  !{x}: !{x}: {x}  and  !{x}: !{xx}: {xx}  have the
    same de Bruijn form, the first is rejected, the second accepted *)
Theorem C08_alpha_requant_counterexample :
  forall props : list str,
    db [] requant_example_1 = db [] requant_example_2
    /\ preprocess props requant_example_1 = Err ERequantified
    /\ preprocess props requant_example_2 = Ok requant_example_2.
Proof. exact preprocess_alpha_requant_counterexample. Qed.

(** * Redundant parentheses (token level) *)

Theorem C08_redundant_parentheses_outer :
  forall ts : list token, parse_tokens [TGroup ts] = parse_tokens ts.
Proof. exact parse_group. Qed.

Theorem C08_redundant_parentheses_double :
  forall l r ts : list token,
    parse_tokens (l ++ [TGroup [TGroup ts]] ++ r) = parse_tokens (l ++ [TGroup ts] ++ r).
Proof. intros l r ts. apply parse_congruence, Forall2_teq_context, teq_double_group. Qed.

Theorem C08_redundant_parentheses_atom :
  forall (l r : list token) (a : atom),
    parse_tokens (l ++ [TGroup [TAtom a]] ++ r) = parse_tokens (l ++ [TAtom a] ++ r).
Proof. intros l r a. apply parse_congruence, Forall2_teq_context, teq_group_atom. Qed.

(** interchangeable operands may be exchanged anywhere in a token list (same tree or same
    error); groups with interchangeable contents are interchangeable, so "anywhere"
    includes any nesting depth *)
Theorem C08_operand_congruence :
  forall ts ts' : list token, Forall2 teq ts ts' -> parse_tokens ts = parse_tokens ts'.
Proof. exact parse_congruence. Qed.

Theorem C08_teq_group :
  forall a b : list token, (forall t, G a t <-> G b t) -> teq (TGroup a) (TGroup b).
Proof. exact teq_group. Qed.

Theorem C08_teq_group_deep :
  forall a b : list token, Forall2 teq a b -> teq (TGroup a) (TGroup b).
Proof. intros a b F. apply teq_group, G_congruence, F. Qed.

Theorem C08_teq_double_group :
  forall ts : list token, teq (TGroup [TGroup ts]) (TGroup ts).
Proof. exact teq_double_group. Qed.

(** a group around an operand of the derivation: the body of a hybrid operator, either side
    of a binary operator, the operand of a unary operator, the content of a group, the whole
    formula -- any number of them, at any depth *)
Theorem C08_redundant_parentheses_operands :
  forall (ts ts' : list token) (t : tree),
    GW ts ts' t -> parse_tokens ts = Ok t /\ parse_tokens ts' = Ok t.
Proof.
  intros ts ts' t H. destruct (proj1 wrap_mut ts ts' t H) as [HG HG'].
  split; apply parse_complete; assumption.
Qed.

(** every accepted list is in the domain of that theorem (with nothing wrapped) *)
Theorem C08_wrapping_covers_grammar :
  forall (ts : list token) (t : tree), parse_tokens ts = Ok t -> GW ts ts t.
Proof. intros ts t H. apply (proj1 wrap_refl_mut), parse_sound, H. Qed.

(** the wrapping rules ([GW_wrap], [LW_wrap], [UW_wrap]) and the congruence rules *)
Theorem C08_wrapping_rules :
  (forall ts ts' t, GW ts ts' t -> GW ts [TGroup ts'] t) /\
  (forall n ts ts' t, LW n ts ts' t -> LW n ts [TGroup ts'] t) /\
  (forall ts ts' t, UW ts ts' t -> UW ts [TGroup ts'] t) /\
  (forall o x d ts ts' t,
     GW ts ts' t -> GW (THyb o x d :: ts) (THyb o x d :: ts') (Hybrid o x d t)) /\
  (forall ts ts' t, LW 6 ts ts' t -> GW ts ts' t) /\
  (forall ts ts' t, UW ts ts' t -> LW 0 ts ts' t) /\
  (forall n o l l' r r' a b,
     op_level o = n -> LW n l l' a -> LW (S n) r r' b ->
     LW (S n) (l ++ TBin o :: r) (l' ++ TBin o :: r') (Binary o a b)) /\
  (forall n ts ts' t, LW n ts ts' t -> LW (S n) ts ts' t) /\
  (forall o ts ts' t, UW ts ts' t -> UW (TUn o :: ts) (TUn o :: ts') (Unary o t)) /\
  (forall ts ts' t, GW ts ts' t -> UW [TGroup ts] [TGroup ts'] t).
Proof.
  exact (conj GW_wrap (conj LW_wrap (conj UW_wrap (conj GW_hyb (conj GW_expr
        (conj LW_unary (conj LW_bin (conj LW_skip (conj UW_un UW_group))))))))).
Qed.

(** one-step instances in terms of the grammar *)
Theorem C08_wrap_any_level :
  (forall ts t, G ts t -> U [TGroup ts] t) /\
  (forall n ts t, L n ts t -> U [TGroup ts] t) /\
  (forall ts t, U ts t -> U [TGroup ts] t).
Proof. exact (conj U_group (conj wrap_L_U wrap_U_U)). Qed.

Theorem C08_wrap_hybrid_body :
  forall (o : hybop) (x : str) (d : option str) (ts : list token) (t : tree),
    G ts t -> G (THyb o x d :: [TGroup ts]) (Hybrid o x d t).
Proof. intros o x d ts t H. apply G_hyb, wrap_G_G, H. Qed.

Theorem C08_wrap_unary_operand :
  forall (o : unop) (ts : list token) (t : tree),
    U ts t -> U (TUn o :: [TGroup ts]) (Unary o t).
Proof. intros o ts t H. apply U_un, wrap_U_U, H. Qed.

Theorem C08_wrap_binary_operands :
  forall (n : nat) (o : binop) (l r : list token) (a b : tree),
    op_level o = n -> L n l a -> L (S n) r b ->
    L (S n) ([TGroup l] ++ TBin o :: r) (Binary o a b)
    /\ L (S n) (l ++ TBin o :: [TGroup r]) (Binary o a b)
    /\ L (S n) ([TGroup l] ++ TBin o :: [TGroup r]) (Binary o a b).
Proof.
  intros n o l r a b Ho Hl Hr. repeat split; apply L_bin; try assumption;
    try (apply (wrap_L_L n), Hl); apply (wrap_L_L (S n)), Hr.
Qed.

(** * White space (character level) *)

Section WhiteSpace.
Variable ext_alnum : N -> bool.
Variable ext : bool.

(** the loop of the tokenizer, one iteration at a time *)
Theorem C08_tok_next :
  forall (f : nat) (c : N) (rest : str) (top : bool) (acc : list token),
    tok ext_alnum (S f) (c :: rest) top ext acc
    = let* a := next ext_alnum ext c rest in continue ext_alnum ext f top acc a.
Proof. exact (tok_next ext_alnum ext). Qed.

(** the fuel of [tokenize] suffices and its amount is irrelevant *)
Theorem C08_tok_fuel_enough :
  forall (f : nat) (cs : str) (top : bool) (acc : list token),
    length cs < f ->
    tok ext_alnum f cs top ext acc <> OutOfFuel
    /\ forall ts r, tok ext_alnum f cs top ext acc = Ok (ts, r) -> length r <= length cs.
Proof. exact (tok_fuel_enough ext_alnum ext). Qed.

Theorem C08_tok_fuel_irrelevant :
  forall (f f' : nat) (cs : str) (top : bool) (acc : list token),
    length cs < f -> length cs < f' ->
    tok ext_alnum f cs top ext acc = tok ext_alnum f' cs top ext acc.
Proof. exact (tok_fuel_irrelevant ext_alnum ext). Qed.

(** leading white space: any white space *)
Theorem C08_whitespace_leading :
  forall w s : str,
    forallb is_ws w = true -> tokenize ext_alnum ext (w ++ s) = tokenize ext_alnum ext s.
Proof. exact (tokenize_leading_ws ext_alnum ext). Qed.

(** trailing white space: any white space whose first character is not (classified as) a
    name character *)
Theorem C08_whitespace_trailing :
  forall s w : str,
    forallb is_ws w = true -> peek_name_char ext_alnum w = false ->
    tokenize ext_alnum ext (s ++ w) = tokenize ext_alnum ext s.
Proof. exact (tokenize_trailing_ws ext_alnum ext). Qed.

Theorem C08_whitespace_trailing_sep :
  forall s w : str,
    sep_str ext_alnum w -> tokenize ext_alnum ext (s ++ w) = tokenize ext_alnum ext s.
Proof. exact (tokenize_trailing_sep ext_alnum ext). Qed.

(** separators: all white space below 128, all white space if [ext_alnum] is Unicode-like *)
Theorem C08_is_sep_unicode :
  forall c : N,
    (forall x, is_ws x = true -> ext_alnum x = false) -> is_sep ext_alnum c = is_ws c.
Proof. exact (is_sep_ws_unicode ext_alnum). Qed.

(** the general statements: similar inputs give the same token list (or the same error) ... *)
Theorem C08_whitespace_simulation :
  forall s s' : str,
    lsim ext_alnum ext s s' -> tokenize ext_alnum ext s' = tokenize ext_alnum ext s.
Proof. exact (tokenize_lsim ext_alnum ext). Qed.

(** ... from any state of the loop (whatever was read before is in [acc]; inside a group
    [top] is false and the unread rests are similar again) *)
Theorem C08_whitespace_simulation_loop :
  forall (f : nat) (cs cs' : str),
    lsim ext_alnum ext cs cs' ->
    forall (f' : nat) (top : bool) (acc : list token),
      length cs < f -> length cs' < f' ->
      rrel ext_alnum ext (tok ext_alnum f cs top ext acc) (tok ext_alnum f' cs' top ext acc).
Proof. exact (tok_lsim ext_alnum ext). Qed.

Theorem C08_whitespace :
  forall s s' : str,
    respaced ext_alnum ext s s' -> tokenize ext_alnum ext s' = tokenize ext_alnum ext s.
Proof. exact (tokenize_respaced ext_alnum ext). Qed.

Theorem C08_respaced_lsim :
  forall s s' : str, respaced ext_alnum ext s s' -> lsim ext_alnum ext s s'.
Proof. exact (respaced_lsim ext_alnum ext). Qed.

(** the rules of [respaced] (its constructors): an unchanged rest; an inserted separator;
    and one rule per kind of token, with the conditions under which the tokenizer reads
    exactly that text as one token *)
Theorem C08_respaced_rules :
  let R := respaced ext_alnum ext in
  (forall s, R s s) /\
  (forall c s s', is_sep ext_alnum c = true -> R s s' -> R s (c :: s')) /\
  (forall c s s', is_ws c = true -> R s s' -> R (c :: s) (c :: s')) /\
  (forall txt tk s s', In (txt, tk) simple_ops -> R s s' -> R (txt ++ s) (txt ++ s')) /\
  (forall c c2 tk s s',
     c = c_E \/ c = c_A -> temporal_token c c2 = Ok tk ->
     peek_name_char ext_alnum s = false ->
     R s s' -> R (c :: c2 :: s) (c :: c2 :: s')) /\
  (forall n s s',
     prop_text ext_alnum n -> peek_name_char ext_alnum s = false ->
     R s s' -> R (n ++ s) (n ++ s')) /\
  (forall x s s',
     name_str ext_alnum x -> R s s' ->
     R (c_lbrace :: x ++ c_rbrace :: s) (c_lbrace :: x ++ c_rbrace :: s')) /\
  (forall x s s',
     ext = true -> name_str ext_alnum x -> R s s' ->
     R (c_pct :: x ++ c_pct :: s) (c_pct :: x ++ c_pct :: s')) /\
  (forall s s', R s s' -> R (c_lpar :: s) (c_lpar :: s')) /\
  (forall s s', R s s' -> R (c_rpar :: s) (c_rpar :: s')) /\
  (forall pre pre' o x d w1 w2 w3 w4 w1' w2' w3' w4' s s',
     In (pre, o) hyb_heads -> In (pre', o) hyb_heads ->
     pre' = pre \/ peek_name_char ext_alnum pre' = false ->
     sep_str ext_alnum w1 -> ws_str w2 -> ws_str w3 -> ws_str w4 ->
     sep_str ext_alnum w1' -> ws_str w2' -> ws_str w3' -> ws_str w4' ->
     name_str ext_alnum x -> dom_ok ext_alnum (hyb_pd ext o) d -> R s s' ->
     R (pre ++ seg_txt x d w1 w2 w3 w4 s) (pre' ++ seg_txt x d w1' w2' w3' w4' s')).
Proof.
  exact (conj (rs_refl ext_alnum ext) (conj (rs_ins ext_alnum ext) (conj (rs_ws ext_alnum ext)
        (conj (rs_op ext_alnum ext) (conj (rs_temporal ext_alnum ext)
        (conj (rs_prop ext_alnum ext) (conj (rs_var ext_alnum ext) (conj (rs_wild ext_alnum ext)
        (conj (rs_lpar ext_alnum ext) (conj (rs_rpar ext_alnum ext)
              (rs_hyb ext_alnum ext))))))))))).
Qed.

(** the texts of the rules are read as one token *)
Theorem C08_token_texts :
  (forall txt tk s, In (txt, tk) simple_ops ->
     nexts ext_alnum ext (txt ++ s) = Ok (APush tk s)) /\
  (forall c c2 tk s, c = c_E \/ c = c_A -> temporal_token c c2 = Ok tk ->
     peek_name_char ext_alnum s = false ->
     nexts ext_alnum ext (c :: c2 :: s) = Ok (APush tk s)) /\
  (forall n s, prop_text ext_alnum n -> peek_name_char ext_alnum s = false ->
     nexts ext_alnum ext (n ++ s) = Ok (APush (TAtom (AProp n)) s)) /\
  (forall x s, name_str ext_alnum x ->
     nexts ext_alnum ext (c_lbrace :: x ++ c_rbrace :: s) = Ok (APush (TAtom (AVar x)) s)) /\
  (forall x s, ext = true -> name_str ext_alnum x ->
     nexts ext_alnum ext (c_pct :: x ++ c_pct :: s) = Ok (APush (TAtom (AWild x)) s)) /\
  (forall s, nexts ext_alnum ext (c_lpar :: s) = Ok (AOpen s)) /\
  (forall s, nexts ext_alnum ext (c_rpar :: s) = Ok (AClose s)) /\
  (forall pre o x d w1 w2 w3 w4 s,
     In (pre, o) hyb_heads ->
     sep_str ext_alnum w1 -> ws_str w2 -> ws_str w3 -> ws_str w4 ->
     name_str ext_alnum x -> dom_ok ext_alnum (hyb_pd ext o) d ->
     nexts ext_alnum ext (pre ++ seg_txt x d w1 w2 w3 w4 s) = Ok (APush (THyb o x d) s)).
Proof.
  exact (conj (nexts_simple_op ext_alnum ext) (conj (nexts_temporal ext_alnum ext)
        (conj (nexts_prop ext_alnum ext) (conj (nexts_var ext_alnum ext)
        (conj (nexts_wild ext_alnum ext) (conj (nexts_lpar ext_alnum ext)
        (conj (nexts_rpar ext_alnum ext) (nexts_hyb ext_alnum ext)))))))).
Qed.

(** the token boundaries, one by one: after an operator symbol ... *)
Theorem C08_whitespace_after_operator :
  forall (txt : str) (tk : token) (w s : str),
    In (txt, tk) simple_ops -> ws_str w ->
    lsim ext_alnum ext (txt ++ s) (txt ++ w ++ s).
Proof. exact (lsim_after_op ext_alnum ext). Qed.

Theorem C08_whitespace_after_temporal :
  forall (c c2 : N) (tk : token) (w s : str),
    c = c_E \/ c = c_A -> temporal_token c c2 = Ok tk ->
    peek_name_char ext_alnum s = false -> sep_str ext_alnum w ->
    respaced ext_alnum ext (c :: c2 :: s) (c :: c2 :: w ++ s).
Proof. exact (respaced_after_temporal ext_alnum ext). Qed.

(** ... around parentheses ... *)
Theorem C08_whitespace_around_lpar :
  forall w w' s : str,
    sep_str ext_alnum w -> sep_str ext_alnum w' ->
    respaced ext_alnum ext (c_lpar :: s) (w ++ c_lpar :: w' ++ s).
Proof. exact (respaced_around_lpar ext_alnum ext). Qed.

Theorem C08_whitespace_around_rpar :
  forall w w' s : str,
    sep_str ext_alnum w -> sep_str ext_alnum w' ->
    respaced ext_alnum ext (c_rpar :: s) (w ++ c_rpar :: w' ++ s).
Proof. exact (respaced_around_rpar ext_alnum ext). Qed.

(** ... between [}] and the next token, after a proposition, after a wild card ... *)
Theorem C08_whitespace_after_var :
  forall x w s : str,
    name_str ext_alnum x -> ws_str w ->
    lsim ext_alnum ext (c_lbrace :: x ++ c_rbrace :: s) (c_lbrace :: x ++ c_rbrace :: w ++ s).
Proof. exact (lsim_after_var ext_alnum ext). Qed.

Theorem C08_whitespace_after_prop :
  forall n w s : str,
    prop_text ext_alnum n -> peek_name_char ext_alnum s = false -> sep_str ext_alnum w ->
    respaced ext_alnum ext (n ++ s) (n ++ w ++ s).
Proof. exact (respaced_after_prop ext_alnum ext). Qed.

Theorem C08_whitespace_after_wild :
  forall x w s : str,
    ext = true -> name_str ext_alnum x -> sep_str ext_alnum w ->
    respaced ext_alnum ext (c_pct :: x ++ c_pct :: s) (c_pct :: x ++ c_pct :: w ++ s).
Proof. exact (respaced_after_wild ext_alnum ext). Qed.

(** ... and inside / after a hybrid segment, where [skip_ws] is called (with any admissible
    spelling of the operator) *)
Theorem C08_whitespace_hybrid :
  forall (pre pre' : str) (o : hybop) (x : str) (d : option str) (w1 w2 w3 w4 w5 s : str),
    In (pre, o) hyb_heads -> In (pre', o) hyb_heads ->
    pre' = pre \/ peek_name_char ext_alnum pre' = false ->
    sep_str ext_alnum w1 -> ws_str w2 -> ws_str w3 -> ws_str w4 -> sep_str ext_alnum w5 ->
    name_str ext_alnum x -> dom_ok ext_alnum (hyb_pd ext o) d ->
    respaced ext_alnum ext (pre ++ seg_txt x d [] [] [] [] s)
             (pre' ++ seg_txt x d w1 w2 w3 w4 (w5 ++ s)).
Proof. exact (respaced_hybrid ext_alnum ext). Qed.

(** * Spellings of the hybrid operators *)

Theorem C08_spellings_bind :
  forall (rest : str) (f : nat) (top : bool) (acc : list token),
    peek_name_char ext_alnum rest = false ->
    tok ext_alnum (S f) (c_bslash :: s_bind ++ rest) top ext acc
    = tok ext_alnum (S f) (c_bang :: rest) top ext acc.
Proof. exact (tok_spelling_bind ext_alnum ext). Qed.

Theorem C08_spellings_exists :
  forall (rest : str) (f : nat) (top : bool) (acc : list token),
    peek_name_char ext_alnum rest = false ->
    tok ext_alnum (S f) (c_bslash :: s_exists ++ rest) top ext acc
    = tok ext_alnum (S f) (c_three :: rest) top ext acc.
Proof. exact (tok_spelling_exists ext_alnum ext). Qed.

Theorem C08_spellings_forall :
  forall (rest : str) (f : nat) (top : bool) (acc : list token),
    peek_name_char ext_alnum rest = false ->
    tok ext_alnum (S f) (c_bslash :: s_forall ++ rest) top ext acc
    = tok ext_alnum (S f) (c_V :: rest) top ext acc.
Proof. exact (tok_spelling_forall ext_alnum ext). Qed.

Theorem C08_spellings_jump :
  forall (rest : str) (f : nat) (top : bool) (acc : list token),
    peek_name_char ext_alnum rest = false ->
    tok ext_alnum (S f) (c_bslash :: s_jump ++ rest) top ext acc
    = tok ext_alnum (S f) (c_at :: rest) top ext acc.
Proof. exact (tok_spelling_jump ext_alnum ext). Qed.

(** all spellings of one operator, for the whole text (with the fuel of [tokenize]) *)
Theorem C08_spellings :
  forall (pre pre' : str) (o : hybop) (seg : str),
    In (pre, o) hyb_heads -> In (pre', o) hyb_heads ->
    peek_name_char ext_alnum seg = false ->
    tokenize ext_alnum ext (pre ++ seg) = tokenize ext_alnum ext (pre' ++ seg).
Proof. exact (tokenize_spelling ext_alnum ext). Qed.

Theorem C08_spellings_side_condition_needed :
  tokenize ext_alnum ext (c_three :: [c_x]) = Ok [TAtom (AProp [c_three; c_x])]
  /\ tokenize ext_alnum ext (c_bslash :: s_exists ++ [c_x]) = Err ELex.
Proof. exact (spelling_side_condition_needed ext_alnum ext). Qed.

End WhiteSpace.

(** * Spellings of the constants *)

Theorem C08_constant_spellings :
  atom_of_prop_name s_true = ATrue /\ atom_of_prop_name s_True = ATrue
  /\ atom_of_prop_name s_1 = ATrue
  /\ atom_of_prop_name s_false = AFalse /\ atom_of_prop_name s_False = AFalse
  /\ atom_of_prop_name s_0 = AFalse.
Proof. repeat split; reflexivity. Qed.

(** names with the same [atom_of_prop_name] are interchangeable anywhere in a token list *)
Theorem C08_prop_spelling :
  forall (l r : list token) (a b : str),
    atom_of_prop_name a = atom_of_prop_name b ->
    parse_tokens (l ++ [TAtom (AProp a)] ++ r) = parse_tokens (l ++ [TAtom (AProp b)] ++ r).
Proof. exact parse_prop_spelling. Qed.

Theorem C08_true_spellings :
  forall (l r : list token) (a b : str),
    (a = s_true \/ a = s_True \/ a = s_1) -> (b = s_true \/ b = s_True \/ b = s_1) ->
    parse_tokens (l ++ [TAtom (AProp a)] ++ r) = parse_tokens (l ++ [TAtom (AProp b)] ++ r).
Proof.
  intros l r a b Ha Hb. apply parse_prop_spelling. transitivity ATrue; [|symmetry].
  - destruct Ha as [-> | [-> | ->]]; reflexivity.
  - destruct Hb as [-> | [-> | ->]]; reflexivity.
Qed.

Theorem C08_false_spellings :
  forall (l r : list token) (a b : str),
    (a = s_false \/ a = s_False \/ a = s_0) -> (b = s_false \/ b = s_False \/ b = s_0) ->
    parse_tokens (l ++ [TAtom (AProp a)] ++ r) = parse_tokens (l ++ [TAtom (AProp b)] ++ r).
Proof.
  intros l r a b Ha Hb. apply parse_prop_spelling. transitivity AFalse; [|symmetry].
  - destruct Ha as [-> | [-> | ->]]; reflexivity.
  - destruct Hb as [-> | [-> | ->]]; reflexivity.
Qed.

(** * The entry points *)

Section EntryPoints.
Variable ext_alnum : N -> bool.

(** the evaluator only sees the outcome of the front end *)
Theorem C08_model_check_same_front :
  forall (w : world) (k : nat) (m : mode) (ctx : list (str * tt)) (fs fs' : list str),
    Forall2 (fun s s' => parse_and_minimize ext_alnum (m_ext m) (w_names w) s
                         = parse_and_minimize ext_alnum (m_ext m) (w_names w) s') fs fs' ->
    model_check ext_alnum w k m ctx fs = model_check ext_alnum w k m ctx fs'.
Proof. exact (model_check_same_front ext_alnum). Qed.

Theorem C08_parse_formula_respaced :
  forall (ext : bool) (s s' : str),
    respaced ext_alnum ext s s' ->
    parse_formula ext_alnum ext s' = parse_formula ext_alnum ext s.
Proof. exact (parse_formula_respaced ext_alnum). Qed.

Theorem C08_model_check_respaced :
  forall (w : world) (k : nat) (m : mode) (ctx : list (str * tt)) (fs fs' : list str),
    Forall2 (respaced ext_alnum (m_ext m)) fs fs' ->
    model_check ext_alnum w k m ctx fs' = model_check ext_alnum w k m ctx fs.
Proof. exact (model_check_respaced ext_alnum). Qed.

Theorem C08_parse_formula_operands :
  forall (ext : bool) (s s' : str) (ts ts' : list token),
    tokenize ext_alnum ext s = Ok ts -> tokenize ext_alnum ext s' = Ok ts' ->
    Forall2 teq ts ts' ->
    parse_formula ext_alnum ext s = parse_formula ext_alnum ext s'.
Proof.
  intros ext s s' ts ts' T T' F. unfold parse_formula. rewrite T, T'. cbn [bind].
  apply parse_congruence, F.
Qed.

Theorem C08_parse_and_minimize_alpha :
  forall (ext : bool) (props : list str) (s1 s2 : str) (t1 t2 : tree),
    parse_formula ext_alnum ext s1 = Ok t1 -> parse_formula ext_alnum ext s2 = Ok t2 ->
    db [] t1 = db [] t2 -> no_requant [] t1 -> no_requant [] t2 ->
    parse_and_minimize ext_alnum ext props s1 = parse_and_minimize ext_alnum ext props s2.
Proof.
  intros ext props s1 s2 t1 t2 P1 P2 E N1 N2.
  unfold parse_and_minimize. rewrite P1, P2. cbn [bind].
  apply preprocess_alpha_invariant; assumption.
Qed.

End EntryPoints.

Print Assumptions C08_rename_depends_on_db.
Print Assumptions C08_rename_is_dname.
Print Assumptions C08_well_scoped_iff.
Print Assumptions C08_preprocess_factors.
Print Assumptions C08_preprocess_factors_exact.
Print Assumptions C08_prep_factors.
Print Assumptions C08_dprep_never_requantified.
Print Assumptions C08_not_requantified.
Print Assumptions C08_alpha_general.
Print Assumptions C08_alpha_invariant.
Print Assumptions C08_alpha_ok.
Print Assumptions C08_alpha_ok_ok.
Print Assumptions C08_alpha_requant_counterexample.
Print Assumptions C08_redundant_parentheses_outer.
Print Assumptions C08_redundant_parentheses_double.
Print Assumptions C08_redundant_parentheses_atom.
Print Assumptions C08_operand_congruence.
Print Assumptions C08_teq_group.
Print Assumptions C08_teq_group_deep.
Print Assumptions C08_teq_double_group.
Print Assumptions C08_redundant_parentheses_operands.
Print Assumptions C08_wrapping_covers_grammar.
Print Assumptions C08_wrapping_rules.
Print Assumptions C08_wrap_any_level.
Print Assumptions C08_wrap_hybrid_body.
Print Assumptions C08_wrap_unary_operand.
Print Assumptions C08_wrap_binary_operands.
Print Assumptions C08_tok_next.
Print Assumptions C08_tok_fuel_enough.
Print Assumptions C08_tok_fuel_irrelevant.
Print Assumptions C08_whitespace_leading.
Print Assumptions C08_whitespace_trailing.
Print Assumptions C08_whitespace_trailing_sep.
Print Assumptions C08_is_sep_unicode.
Print Assumptions C08_whitespace_simulation.
Print Assumptions C08_whitespace_simulation_loop.
Print Assumptions C08_whitespace.
Print Assumptions C08_respaced_lsim.
Print Assumptions C08_respaced_rules.
Print Assumptions C08_token_texts.
Print Assumptions C08_whitespace_after_operator.
Print Assumptions C08_whitespace_after_temporal.
Print Assumptions C08_whitespace_around_lpar.
Print Assumptions C08_whitespace_around_rpar.
Print Assumptions C08_whitespace_after_var.
Print Assumptions C08_whitespace_after_prop.
Print Assumptions C08_whitespace_after_wild.
Print Assumptions C08_whitespace_hybrid.
Print Assumptions C08_spellings_bind.
Print Assumptions C08_spellings_exists.
Print Assumptions C08_spellings_forall.
Print Assumptions C08_spellings_jump.
Print Assumptions C08_spellings.
Print Assumptions C08_spellings_side_condition_needed.
Print Assumptions C08_constant_spellings.
Print Assumptions C08_prop_spelling.
Print Assumptions C08_true_spellings.
Print Assumptions C08_false_spellings.
Print Assumptions C08_model_check_same_front.
Print Assumptions C08_parse_formula_respaced.
Print Assumptions C08_model_check_respaced.
Print Assumptions C08_parse_formula_operands.
Print Assumptions C08_parse_and_minimize_alpha.
