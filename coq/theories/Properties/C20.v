(** C20 -- the answer for a colour equals the answer on the network instantiated by that
    colour.  The proofs are in Proofs/ColourFacts.v. *)
From HCTL Require Import Base Syntax MarkDup TT Ops Eval Kripke HCTL.
From HCTL Require Import EvalPure Main ColourFacts.

(** [has_colour c v]: the parameter bits of v are those of c *)
Goal forall c v, has_colour c v <-> (forall j, v (TP j) = c (TP j)).
Proof. intros; unfold has_colour; tauto. Qed.

(** 1. satisfaction at a valuation of colour c reads the graph only through its dimensions
    and through its transitions in colour c (Gamma and names are the same on both sides) *)
Theorem C20_sat_depends_on_colour_only : forall G G' names Gamma (c : val),
  g_n G = g_n G' -> g_k G = g_k G' ->
  (forall i v, (forall j, v (TP j) = c (TP j)) -> enabled G i v = enabled G' i v) ->
  forall t v, (forall j, v (TP j) = c (TP j)) ->
  (sat G names Gamma t v <-> sat G' names Gamma t v).
Proof. exact sat_depends_on_colour_only. Qed.

(** 2. the instantiation of a graph by a colour: every parameter level of every update
    function is fixed to the value the colour gives it *)
Theorem C20_fix_colour_eq : forall c L t, fix_colour c L t =
  match L, t with
  | g :: L', Node lo hi =>
      match g with
      | TP _ => let s := fix_colour c L' (if c g then hi else lo) in Node s s
      | _ => Node (fix_colour c L' lo) (fix_colour c L' hi)
      end
  | _, _ => t
  end.
Proof. intros c [|g L] [b|lo hi]; reflexivity. Qed.

Theorem C20_instantiate_eq : forall c G, instantiate c G =
  {| g_n := g_n G; g_p := g_p G; g_k := g_k G; g_L := g_L G;
     g_upd := map (fix_colour c (g_L G)) (g_upd G) |}.
Proof. reflexivity. Qed.

Theorem C20_mem_fix_colour : forall c L t v, NoDup L -> shaped L t ->
  mem L (fix_colour c L t) v = mem L t (fun g => match g with TP _ => c g | _ => v g end).
Proof. intros c L t v _ _. exact (mem_fix_colour c L t v). Qed.

Theorem C20_shaped_fix_colour : forall c L t, shaped L t -> shaped L (fix_colour c L t).
Proof. exact shaped_fix_colour. Qed.

(** in colour c the instantiated graph has the transitions of G ... *)
Theorem C20_enabled_instantiate : forall c G i v, (forall j, v (TP j) = c (TP j)) ->
  enabled (instantiate c G) i v = enabled G i v.
Proof. exact enabled_instantiate_colour. Qed.

(** ... hence the same answers *)
Theorem C20_colour_slice : forall c G names Gamma t v, (forall j, v (TP j) = c (TP j)) ->
  (sat (instantiate c G) names Gamma t v <-> sat G names Gamma t v).
Proof. exact colour_slice. Qed.

(** the transition structure of the instantiated graph does not depend on the colour bits *)
Theorem C20_instantiate_ignores_colour : forall c G i v w,
  (forall j, v (TS j) = w (TS j)) -> (forall j e, v (TX j e) = w (TX j e)) ->
  enabled (instantiate c G) i v = enabled (instantiate c G) i w.
Proof. exact instantiate_ignores_colour. Qed.

(** the instantiated graph is a well-formed environment whenever G is (same unit) *)
Theorem C20_wf_env_instantiate : forall c G names U,
  wf_env G names U -> wf_env (instantiate c G) names U.
Proof. exact wf_env_instantiate. Qed.

(** 3. the evaluator: on a valuation of colour c inside both units the result computed on G
    and the result computed on the instantiated graph agree *)
Theorem C20_eval_node_colour_slice : forall G names c U U',
  wf_env G names U -> wf_env (instantiate c G) names U' ->
  forall sw sw' t ctx ctx' R R' ctx1 ctx1',
  plainf t -> supported G t -> duplicates ctx = [] -> duplicates ctx' = [] ->
  eval_node G names sw (steady_of G U) t U ctx = Ok (R, ctx1) ->
  eval_node (instantiate c G) names sw' (steady_of (instantiate c G) U') t U' ctx' = Ok (R', ctx1') ->
  forall v, (forall j, v (TP j) = c (TP j)) ->
  mem (g_L G) U v = true -> mem (g_L G) U' v = true ->
  mem (g_L G) R v = mem (g_L G) R' v.
Proof. exact eval_node_colour_slice. Qed.

Theorem C20_peval_colour_slice : forall G names c U U',
  wf_env G names U -> wf_env (instantiate c G) names U' ->
  forall sw sw' t R R', plainf t -> supported G t ->
  peval G names sw (steady_of G U) t U = Ok R ->
  peval (instantiate c G) names sw' (steady_of (instantiate c G) U') t U' = Ok R' ->
  forall v, (forall j, v (TP j) = c (TP j)) ->
  mem (g_L G) U v = true -> mem (g_L G) U' v = true ->
  mem (g_L G) R v = mem (g_L G) R' v.
Proof. exact peval_colour_slice. Qed.

(** the same with one unit: only the environment of G is assumed *)
Theorem C20_eval_node_colour_slice_same_unit : forall G names c U sw sw' t ctx ctx' R R' ctx1 ctx1',
  wf_env G names U ->
  plainf t -> supported G t -> duplicates ctx = [] -> duplicates ctx' = [] ->
  eval_node G names sw (steady_of G U) t U ctx = Ok (R, ctx1) ->
  eval_node (instantiate c G) names sw' (steady_of (instantiate c G) U) t U ctx' = Ok (R', ctx1') ->
  forall v, (forall j, v (TP j) = c (TP j)) -> mem (g_L G) U v = true ->
  mem (g_L G) R v = mem (g_L G) R' v.
Proof.
  intros G names c U sw sw' t ctx ctx' R R' ctx1 ctx1' WF Hpl Hsup Hd Hd' H H' v Hc Hu.
  exact (eval_node_colour_slice G names c U U WF (wf_env_instantiate c G names U WF)
           sw sw' t ctx ctx' R R' ctx1 ctx1' Hpl Hsup Hd Hd' H H' v Hc Hu Hu).
Qed.

Print Assumptions C20_sat_depends_on_colour_only.
Print Assumptions C20_fix_colour_eq.
Print Assumptions C20_instantiate_eq.
Print Assumptions C20_mem_fix_colour.
Print Assumptions C20_shaped_fix_colour.
Print Assumptions C20_enabled_instantiate.
Print Assumptions C20_colour_slice.
Print Assumptions C20_instantiate_ignores_colour.
Print Assumptions C20_wf_env_instantiate.
Print Assumptions C20_eval_node_colour_slice.
Print Assumptions C20_peval_colour_slice.
Print Assumptions C20_eval_node_colour_slice_same_unit.
