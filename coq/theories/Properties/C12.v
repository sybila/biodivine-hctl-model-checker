(** C12 -- pattern shortcuts agree with generic evaluation.  Statements only.
    With wild-cards and domains [eval_node] is the cache-free extended evaluator whatever the
    switches (C02), whose result denotes [sat]: near misses and patterns inside restricted
    scopes get the result of their own semantics. *)
From HCTL Require Import Base Syntax MarkDup TT Ops Eval Kripke HCTL.
From HCTL Require Import SemFacts EvalPure Main.

(** switching the shortcuts on or off does not change the result, wherever the patterns
    occur in the formula *)
Theorem C12_shortcuts_agree :
  forall (G : genv) (names : list str) (U : tt), wf_env G names U ->
  forall (t : tree) (c1 c2 : ectx) (R1 R2 : tt) (c1' c2' : ectx),
    plainf t -> supported G t -> duplicates c1 = [] -> duplicates c2 = [] ->
    eval_node G names {| use_patterns := true |} (steady_of G U) t U c1 = Ok (R1, c1') ->
    eval_node G names {| use_patterns := false |} (steady_of G U) t U c2 = Ok (R2, c2') ->
    R1 = R2.
Proof. exact (fun G names U WF => shortcuts_agree G names U WF (fun _ _ => True)). Qed.
Print Assumptions C12_shortcuts_agree.

(** the precomputed steady-state set is the meaning of  !{x}: AX {x}  (any variable name
    with a spare copy) *)
Theorem C12_steady_shortcut :
  forall (G : genv) (names : list str) (U : tt), wf_env G names U ->
  forall (Gamma : str -> val -> Prop) x e, var_of G x = Some e -> e < g_k G ->
    spec_of G U (steady_of G U) (sat G names Gamma (Hybrid Bind x None (Unary AX (Terminal (AVar x))))).
Proof. intros G names U [? ? ? ? ? ? ? ? ? ?]; intros; eapply steady_pattern_spec; eauto. Qed.
Print Assumptions C12_steady_shortcut.

(** the attractor shortcut is modelled by its specification (bottom SCCs = meaning of
    !{x}: AG EF {x}); what the model returns for it denotes that formula *)
Theorem C12_attractor_shortcut :
  forall (G : genv) (names : list str) (U : tt), wf_env G names U ->
  forall (Gamma : str -> val -> Prop) x e R, var_of G x = Some e -> e < g_k G ->
    attractors G U e = Ok R ->
    spec_of G U R (sat G names Gamma (Hybrid Bind x None (Unary AG (Unary EF (Terminal (AVar x)))))).
Proof. intros G names U [? ? ? ? ? ? ? ? ? ?]; intros; eapply attractor_pattern_spec; eauto. Qed.
Print Assumptions C12_attractor_shortcut.
