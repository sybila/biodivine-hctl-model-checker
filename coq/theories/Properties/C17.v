(** C17 -- the CLI's formula-file loader (src/load_inputs.rs [load_formulae]) and the labels
    under which the CLI stores its results (src/analysis.rs).  Statements and the last step of each proof; model in
    Model/Shell.v, lemmas in Proofs/ShellFacts.v.

    Reading guide.  [load_formulae content] is the loader applied to the content of the file.
    [lines] is Rust's [str::lines], [trim] is [str::trim].  [kept_line l] says that the line
    [l], once trimmed, is neither empty nor starts with '#'.  [clean_formula f]: [f] is not
    empty, does not start with '#', has no white space at either end and no line feed.
    [join_nl] joins with "\n"; [formulae_txt] terminates every formula with "\n" (the format
    of the formulae.txt archive entry).  [result_label i] is the label "formula-{i}";
    [analysis_results rs] is the map built by inserting the i-th result under that label. *)
From HCTL Require Import Base Tokenizer TT Shell.
From HCTL Require Import BaseFacts ShellFacts.

(** * The library functions the specification is phrased with *)

(** [trim s] is the unique middle part [t] of a decomposition [s = a ++ t ++ b] with [a], [b]
    white space and [t] without white space at its ends *)
Theorem C17_trim_spec : forall s, exists a b,
  s = a ++ trim s ++ b /\ forallb is_ws a = true /\ forallb is_ws b = true /\
  no_ws_ends (trim s).
Proof. exact trim_spec. Qed.

Theorem C17_trim_unique : forall s a t b, s = a ++ t ++ b ->
  forallb is_ws a = true -> forallb is_ws b = true -> no_ws_ends t -> trim s = t.
Proof. exact trim_unique. Qed.

(** [lines]: no line contains a line feed; "\n"-terminated or "\n"-separated lines without
    line feed and final carriage return are read back unchanged *)
Theorem C17_lines_no_nl : forall s l, In l (lines s) -> ~ In c_nl l.
Proof. exact lines_no_nl. Qed.

Theorem C17_lines_terminated : forall ls, Forall one_line ls -> lines (formulae_txt ls) = ls.
Proof. exact lines_formulae_txt. Qed.

Theorem C17_lines_joined : forall ls, Forall one_line ls -> Forall (fun l => l <> []) ls ->
  lines (join_nl ls) = ls.
Proof. exact lines_join_nl. Qed.

(** * load_formulae *)

(** The result is the list of the trimmed kept lines in file order: there is a strictly
    increasing list [idx] of line positions, containing exactly the positions of the kept
    lines, such that formula number j is the trimmed line number [nth j idx]. *)
Theorem C17_load_formulae_spec : forall content,
  exists idx, increasing idx /\
    (forall k, In k idx <-> k < length (lines content) /\ kept_line (nth k (lines content) [])) /\
    load_formulae content = map (fun k => trim (nth k (lines content) [])) idx.
Proof. exact load_formulae_spec. Qed.

(** ... and this determines the result: for any such [idx] *)
Theorem C17_load_formulae_spec_unique : forall content idx,
  increasing idx ->
  (forall k, In k idx <-> k < length (lines content) /\ kept_line (nth k (lines content) [])) ->
  load_formulae content = map (fun k => trim (nth k (lines content) [])) idx.
Proof. exact load_formulae_spec_unique. Qed.

Theorem C17_load_formulae_In : forall content f,
  In f (load_formulae content) <->
  exists l, In l (lines content) /\ f = trim l /\ f <> [] /\ hd_error f <> Some c_hash.
Proof. exact load_formulae_In. Qed.

(** never an empty string, a comment, leading / trailing white space or a line break *)
Theorem C17_load_formulae_clean : forall content, Forall clean_formula (load_formulae content).
Proof. exact load_formulae_clean. Qed.

(** every list of clean formulae written one per line is loaded back unchanged ... *)
Theorem C17_load_formulae_fixed : forall fs, Forall clean_formula fs ->
  load_formulae (join_nl fs) = fs /\ load_formulae (formulae_txt fs) = fs.
Proof. exact load_formulae_fixed. Qed.

(** ... in particular the loader is idempotent on its own output re-joined with '\n' (and on
    the formulae.txt entry that the CLI writes from it) *)
Theorem C17_load_formulae_idempotent : forall content,
  load_formulae (join_nl (load_formulae content)) = load_formulae content /\
  load_formulae (formulae_txt (load_formulae content)) = load_formulae content.
Proof. intros content. apply load_formulae_fixed, load_formulae_clean. Qed.

(** * Labels *)

Theorem C17_label_text : forall i,
  result_label i = s_formula_dash ++ dec_of_N (N.of_nat i).
Proof. reflexivity. Qed.

Theorem C17_dec_of_N_injective : forall a b, dec_of_N a = dec_of_N b -> a = b.
Proof. exact dec_of_N_inj. Qed.

Theorem C17_labels_distinct : forall i j, result_label i = result_label j -> i = j.
Proof. exact result_label_inj. Qed.

Theorem C17_labels_admissible : forall i, admissible (result_label i).
Proof. exact result_label_admissible. Qed.

(** the CLI's result map binds "formula-i" to result i and nothing else, without clashes *)
Theorem C17_results_map : forall rs,
  NoDup (map fst (analysis_results rs)) /\
  (forall i, alookup str_eqb (result_label i) (analysis_results rs) = nth_error rs i) /\
  (forall l, (forall i, i < length rs -> l <> result_label i) ->
             alookup str_eqb l (analysis_results rs) = None).
Proof. exact analysis_results_spec. Qed.

(** so the archive written by the CLI reloads to the same results: [results] is the result map
    in the order in which the writer iterates over it, [names] the order in which the loader
    visits the entries *)
Theorem C17_labels : forall print parse, (forall b, parse (print b) = Some b) ->
  forall rs (results : setmap) model formulae names,
    NoDup (map fst results) ->
    (forall l b, In (l, b) results <-> In (l, b) (analysis_results rs)) ->
    is_file_names (build_result_archive print results model formulae) names ->
    exists m,
      load_names parse names (build_result_archive print results model formulae) [] = LOk m /\
      NoDup (map fst m) /\
      (forall i, alookup str_eqb (result_label i) m = nth_error rs i) /\
      (forall l, (forall i, i < length rs -> l <> result_label i) -> alookup str_eqb l m = None) /\
      (forall l b, In (l, b) m <-> In (l, b) (analysis_results rs)).
Proof. exact cli_archive_reloads. Qed.

Print Assumptions C17_trim_spec.
Print Assumptions C17_trim_unique.
Print Assumptions C17_lines_no_nl.
Print Assumptions C17_lines_terminated.
Print Assumptions C17_lines_joined.
Print Assumptions C17_load_formulae_spec.
Print Assumptions C17_load_formulae_spec_unique.
Print Assumptions C17_load_formulae_In.
Print Assumptions C17_load_formulae_clean.
Print Assumptions C17_load_formulae_fixed.
Print Assumptions C17_load_formulae_idempotent.
Print Assumptions C17_label_text.
Print Assumptions C17_dec_of_N_injective.
Print Assumptions C17_labels_distinct.
Print Assumptions C17_labels_admissible.
Print Assumptions C17_results_map.
Print Assumptions C17_labels.
