(** Cached -- the cache-free theorems C01, C02/C10, C03, C12, C14, C15, C18, C20 in the
    configuration the real entry points use: [m_nocache = false], i.e. duplicate sub-formulae
    are marked by [mark_duplicates] and the sub-formula cache is in use.
    Statements with the last step of each proof; the proofs are in Proofs/CachedFacts.v.  The
    module [CachedExamples] at the end runs the entry points on a concrete world by evaluation.

    How.  C04b / C04c prove that, with OR without duplicate marking,
      check_trees w k m ts [] []   = mapM (singleS w k m) ts            (plain modes)
      check_trees w k m ts cp cd   = mapM (singleX w k cp cd m) ts      (extended mode)
    where [singleS] / [singleX] are the cache-free evaluators [peval] / [peval_ext] followed by
    the sanitiser.  The cache-free theorems are applied formula by formula.  Every lemma of
    CachedFacts.v holds for both values of [m_nocache]; here they are stated for
    [m_nocache = false].

    Side conditions.
    - [world_ok w] (NoPanic.v; [Cached_world_ok_def]): the hypotheses of C01_check_trees_correct.
    - check_trees level, plain: [good ea ext G names t] (C04b; [C04_good_def]) -- what the cache
      invariant needs: plain, supported, known propositions, parser-producible names, named by
      depth; closedness is [depth_named 0 t].  Extended: [topx] (C04c; [C04_topx_def]) and the
      context hypotheses of C02 ([ctx_ignores_copies], [wild_sets_ok], [dom_sets_ok]).
    - model_check level: NO tree-level hypothesis; the trees are those [validate_all] returns
      ([parse_and_minimize] of the strings), which satisfy the side conditions
      ([C04_validated_good], [C04_validated_topx]).  Extended: the user's context sets are
      shaped over colours and states; [Gamma] is membership in them ([Gamma_of], [ctx_lifted]).

    Scope / what is partial.
    - [m_unsafe_ex = true] is covered for C14 in the plain modes (dirty AND sanitised results:
      more than the cache-free C14) and for C18; the other originals are about the real
      self-loop set.  The extended-mode statements assume [m_unsafe_ex = false] (the scope of
      the cache invariant for extended formulae, C04c part B).
    - C03 extended: "subset of the unit" is FALSE for extended formulae
      ([Cached_C03_within_unit_ext_refuted]: a wild-card set is returned as it is); what holds is
      exactness inside the unit ([Cached_C03_within_unit_ext_partial]).  Closed results ignore the
      spare copies everywhere (stronger than C10_closed_result_ignores_copies).
    - C12 extended: the results with and without pattern shortcuts have the same members INSIDE
      the unit ([Cached_C12_patterns_irrelevant_ext_partial]); equality of the decision trees
      outside the unit is not shown (the cache-free C02 does not show it either).
    - C14 extended: complete, sanitised results included.  It rests on [peval_ext_reads]
      (CachedFacts.v, "The raw result of a closed formula does not read the spare copies"): the
      raw result of a closed EXTENDED formula does not read the spare copies ANYWHERE (C10 says
      so only inside the unit), so the sanitiser never panics
      ([Cached_closed_ext_result_ignores_copies]); with it C15 "sanitised = raw" holds for
      extended formulae as well. *)
From HCTL Require Import Base Syntax Tokenizer Parser Preprocess Canon MarkDup TT Ops Eval Pipeline Kripke HCTL.
From HCTL Require Import EvalPure Main LayoutFacts PrepFacts NoPanic CacheFacts CacheGen.
From HCTL Require Import ExtSem ExtFacts ExtEval CacheExt CacheExtEntry Unsafe ColourFacts IndepFacts.
From HCTL Require Import CachedFacts.

(** * 0. The definitions of Proofs/NoPanic.v and Proofs/CachedFacts.v the statements use *)

Theorem Cached_world_ok_def :
  forall w : world, world_ok w <->
    (List.Forall (shaped (Lpn (w_p w) (w_n w))) (w_upd w)
     /\ shaped (Lpn (w_p w) (w_n w)) (w_unit w)
     /\ (forall v v', (forall j, v (TP j) = v' (TP j)) ->
           mem (Lpn (w_p w) (w_n w)) (w_unit w) v = mem (Lpn (w_p w) (w_n w)) (w_unit w) v')
     /\ length (w_names w) <= w_n w).
Proof. exact (fun w => conj (fun H => H) (fun H => H)). Qed.

(** the meaning of a context label at the string entry point: membership in the user's set *)
Theorem Cached_Gamma_def :
  forall (w : world) k ctx l v,
    Gamma_of (genv_of w k) (ctx_lifted w k ctx) l v <->
    match alookup str_eqb l (map (fun ps => (fst ps, lift w k (snd ps))) ctx) with
    | Some s => mem (g_L (genv_of w k)) s v = true
    | None => False
    end.
Proof. exact (fun w k ctx l v => conj (fun H => H) (fun H => H)). Qed.

Theorem Cached_labels_def :
  forall ctx t,
    (labels_known ctx t <->
       (forall l, has_wild l t \/ has_dom l t -> alookup str_eqb l ctx <> None))
    /\ (label_missing ctx t <->
          (exists l, (has_wild l t \/ has_dom l t) /\ alookup str_eqb l ctx = None)).
Proof. exact (fun ctx t => conj (conj (fun H => H) (fun H => H)) (conj (fun H => H) (fun H => H))). Qed.

(** verdicts on a formula string of the extended syntax: the checks of [validate_all] in
    their order -- tokenizer, parser, scoping, number of spare copies, context labels *)
Theorem Cached_acceptedx_def :
  forall ea props k ctx f,
    acceptedx ea props k ctx f <->
    (exists t, parse_formula ea true f = Ok t /\ tree_ok props k t /\ labels_known ctx t).
Proof. exact (fun ea props k ctx f => conj (fun H => H) (fun H => H)). Qed.

Theorem Cached_rejectedx_def :
  forall ea props k ctx f e,
    rejectedx ea props k ctx f e <->
    ((tokenize ea true f = Err ELex /\ e = ELex)
     \/ (exists ts, tokenize ea true f = Ok ts /\ parse_tokens ts = Err EParse /\ e = EParse)
     \/ (exists t, parse_formula ea true f = Ok t
                   /\ (tree_rejected props k t e
                       \/ (tree_ok props k t /\ label_missing ctx t /\ e = EMissingContext)))).
Proof. exact (fun ea props k ctx f e => conj (fun H => H) (fun H => H)). Qed.

(** the network instantiated by the colour [c] (every parameter level of every update table
    fixed to the value [c] gives it), with unit set [u'] *)
Theorem Cached_colour_world_def :
  forall c u' (w : world),
    colour_world c u' w =
    {| w_p := w_p w; w_n := w_n w; w_names := w_names w;
       w_upd := map (fix_colour c (Lpn (w_p w) (w_n w))) (w_upd w); w_unit := u' |}.
Proof. reflexivity. Qed.

Theorem Cached_colour_world_genv :
  forall c u' (w : world) k, genv_of (colour_world c u' w) k = instantiate c (genv_of w k).
Proof. exact genv_of_colour_world. Qed.
Print Assumptions Cached_colour_world_genv.

(** the trees [validate_all] returns are the preprocessed formulae, position by position *)
Theorem Cached_validate_all_parsed :
  forall ea ext props k ctx fs ts cp cd,
    validate_all ea ext props k ctx fs = Ok (ts, cp, cd) ->
    List.Forall2 (fun f t => parse_and_minimize ea ext props f = Ok t) fs ts.
Proof. exact validate_all_parsed. Qed.
Print Assumptions Cached_validate_all_parsed.

(** ... and, in the plain syntax, good and closed *)
Theorem Cached_validated_good_closed :
  forall ea (w : world) k ctx fs r,
    validate_all ea false (w_names w) k ctx fs = Ok r ->
    exists ts, r = (ts, [], [])
      /\ List.Forall (fun t => good ea false (genv_of w k) (w_names w) t /\ depth_named 0 t) ts
      /\ List.Forall2 (fun f t => parse_and_minimize ea false (w_names w) f = Ok t) fs ts.
Proof. exact validate_all_vplain. Qed.
Print Assumptions Cached_validated_good_closed.

Theorem Cached_closed_by_depth :
  forall G t, depth_named 0 t -> closed_copies G t.
Proof. exact ClosedIndep.depth_named_closed. Qed.
Print Assumptions Cached_closed_by_depth.

(** * 1. C01: the results are exactly the satisfying valuations of the unit *)

Theorem Cached_C01_check_trees_correct :
  forall ea ext (w : world) (k : nat), world_ok w ->
  forall (Gamma : str -> val -> Prop) m ts rs,
    m_ext m = false -> m_sanitize m = false -> m_unsafe_ex m = false -> m_nocache m = false ->
    List.Forall (good ea ext (genv_of w k) (w_names w)) ts ->
    check_trees w k m ts [] [] = Ok rs ->
    List.Forall2 (fun t R => forall v,
       mem (g_L (genv_of w k)) R v = true <->
       (mem (g_L (genv_of w k)) (unit_of w k) v = true /\ sat (genv_of w k) (w_names w) Gamma t v)) ts rs.
Proof. intros; eapply cached_C01_check_trees; eassumption. Qed.
Print Assumptions Cached_C01_check_trees_correct.

(** the string entry point, whatever the strings *)
Theorem Cached_C01_model_check_correct :
  forall ea (w : world) (k : nat), world_ok w ->
  forall (Gamma : str -> val -> Prop) m ctx fs rs,
    m_ext m = false -> m_sanitize m = false -> m_unsafe_ex m = false -> m_nocache m = false ->
    model_check ea w k m ctx fs = Ok rs ->
    exists ts,
      List.Forall2 (fun f t => parse_and_minimize ea false (w_names w) f = Ok t) fs ts
      /\ List.Forall2 (fun t R => forall v,
           mem (g_L (genv_of w k)) R v = true <->
           (mem (g_L (genv_of w k)) (unit_of w k) v = true /\ sat (genv_of w k) (w_names w) Gamma t v)) ts rs.
Proof. intros; eapply cached_C01_model_check; eassumption. Qed.
Print Assumptions Cached_C01_model_check_correct.

(** * 2. C02 / C10: extended formulae *)

Theorem Cached_C02_check_trees_correct :
  forall ea (w : world) (k : nat), world_ok w ->
  forall cprops cdoms (Gamma : str -> val -> Prop),
    ctx_ignores_copies Gamma ->
    wild_sets_ok (genv_of w k) Gamma (wild_of w k cprops) ->
    dom_sets_ok (genv_of w k) Gamma (doms_of w k cprops cdoms) ->
  forall m ts rs,
    m_ext m = true -> m_sanitize m = false -> m_unsafe_ex m = false -> m_nocache m = false ->
    List.Forall (topx ea (genv_of w k) (w_names w) (wild_of w k cprops) (doms_of w k cprops cdoms)) ts ->
    check_trees w k m ts cprops cdoms = Ok rs ->
    List.Forall2 (fun t R => shaped (g_L (genv_of w k)) R /\
       forall v, mem (g_L (genv_of w k)) (unit_of w k) v = true ->
                 (mem (g_L (genv_of w k)) R v = true <-> sat (genv_of w k) (w_names w) Gamma t v)) ts rs.
Proof. intros; eapply cached_C02_check_trees; eassumption. Qed.
Print Assumptions Cached_C02_check_trees_correct.

(** the extended string entry point: [Gamma] is membership in the user's context sets *)
Theorem Cached_C02_model_check_correct :
  forall ea (w : world) (k : nat), world_ok w ->
  forall ctx, (forall l s, alookup str_eqb l ctx = Some s -> shaped (Lpn (w_p w) (w_n w)) s) ->
  forall m fs rs,
    m_ext m = true -> m_sanitize m = false -> m_unsafe_ex m = false -> m_nocache m = false ->
    model_check ea w k m ctx fs = Ok rs ->
    exists ts,
      List.Forall2 (fun f t => parse_and_minimize ea true (w_names w) f = Ok t) fs ts
      /\ List.Forall2 (fun t R => shaped (g_L (genv_of w k)) R /\
           forall v, mem (g_L (genv_of w k)) (unit_of w k) v = true ->
             (mem (g_L (genv_of w k)) R v = true <->
              sat (genv_of w k) (w_names w) (Gamma_of (genv_of w k) (ctx_lifted w k ctx)) t v)) ts rs.
Proof. intros; eapply cached_C02_model_check; eassumption. Qed.
Print Assumptions Cached_C02_model_check_correct.

(** C10_check_trees_ext_empty_correct: the extended entry point with empty contexts *)
Theorem Cached_C10_check_trees_ext_empty_correct :
  forall ea ext (w : world) (k : nat), world_ok w ->
  forall (Gamma : str -> val -> Prop) m ts rs,
    m_ext m = true -> m_sanitize m = false -> m_unsafe_ex m = false -> m_nocache m = false ->
    List.Forall (good ea ext (genv_of w k) (w_names w)) ts ->
    check_trees w k m ts [] [] = Ok rs ->
    List.Forall2 (fun t R => forall v,
       mem (g_L (genv_of w k)) R v = true <->
       (mem (g_L (genv_of w k)) (unit_of w k) v = true /\ sat (genv_of w k) (w_names w) Gamma t v)) ts rs.
Proof. intros; eapply cached_C10_check_trees_ext_empty; eassumption. Qed.
Print Assumptions Cached_C10_check_trees_ext_empty_correct.

(** * 3. C03: results stay inside the unit; closed results ignore the spare copies *)

Theorem Cached_C03_within_unit :
  forall ea ext (w : world) (k : nat), world_ok w ->
  forall m ts rs,
    m_ext m = false -> m_sanitize m = false -> m_unsafe_ex m = false -> m_nocache m = false ->
    List.Forall (good ea ext (genv_of w k) (w_names w)) ts ->
    check_trees w k m ts [] [] = Ok rs ->
    List.Forall (fun R => forall v,
       mem (g_L (genv_of w k)) R v = true -> mem (g_L (genv_of w k)) (unit_of w k) v = true) rs.
Proof. intros; eapply cached_C03_within_unit; eassumption. Qed.
Print Assumptions Cached_C03_within_unit.

Theorem Cached_C03_closed_ignores_copies :
  forall ea ext (w : world) (k : nat), world_ok w ->
  forall m ts rs,
    m_ext m = false -> m_sanitize m = false -> m_unsafe_ex m = false -> m_nocache m = false ->
    List.Forall (good ea ext (genv_of w k) (w_names w)) ts -> List.Forall (depth_named 0) ts ->
    check_trees w k m ts [] [] = Ok rs ->
    List.Forall (fun R => forall v v',
       (forall j, v (TP j) = v' (TP j)) -> (forall i, v (TS i) = v' (TS i)) ->
       mem (g_L (genv_of w k)) R v = mem (g_L (genv_of w k)) R v') rs.
Proof. intros; eapply cached_C03_closed_ignores_copies; eassumption. Qed.
Print Assumptions Cached_C03_closed_ignores_copies.

(** both, for the string entry point *)
Theorem Cached_C03_model_check :
  forall ea (w : world) (k : nat), world_ok w ->
  forall m ctx fs rs,
    m_ext m = false -> m_sanitize m = false -> m_unsafe_ex m = false -> m_nocache m = false ->
    model_check ea w k m ctx fs = Ok rs ->
    List.Forall (fun R =>
        (forall v, mem (g_L (genv_of w k)) R v = true -> mem (g_L (genv_of w k)) (unit_of w k) v = true)
        /\ (forall v v', (forall j, v (TP j) = v' (TP j)) -> (forall i, v (TS i) = v' (TS i)) ->
              mem (g_L (genv_of w k)) R v = mem (g_L (genv_of w k)) R v')) rs.
Proof. intros; eapply cached_C03_model_check; eassumption. Qed.
Print Assumptions Cached_C03_model_check.

(** extended formulae: what holds instead of "subset of the unit" -- the part of the result
    inside the unit is exactly the set of satisfying valuations of the unit *)
Theorem Cached_C03_within_unit_ext_partial :
  forall ea (w : world) (k : nat), world_ok w ->
  forall cprops cdoms (Gamma : str -> val -> Prop),
    ctx_ignores_copies Gamma ->
    wild_sets_ok (genv_of w k) Gamma (wild_of w k cprops) ->
    dom_sets_ok (genv_of w k) Gamma (doms_of w k cprops cdoms) ->
  forall m ts rs,
    m_ext m = true -> m_sanitize m = false -> m_unsafe_ex m = false -> m_nocache m = false ->
    List.Forall (topx ea (genv_of w k) (w_names w) (wild_of w k cprops) (doms_of w k cprops cdoms)) ts ->
    check_trees w k m ts cprops cdoms = Ok rs ->
    List.Forall2 (fun t R => forall v,
       mem (g_L (genv_of w k)) (tand R (unit_of w k)) v = true <->
       (mem (g_L (genv_of w k)) (unit_of w k) v = true /\ sat (genv_of w k) (w_names w) Gamma t v)) ts rs.
Proof. intros; eapply cached_C03_ext_in_unit; eassumption. Qed.
Print Assumptions Cached_C03_within_unit_ext_partial.

(** closed extended formulae ([topx] includes [depth_named 0]): the result does not read the
    spare copies (inside AND outside the unit) *)
Theorem Cached_C03_closed_ignores_copies_ext :
  forall ea (w : world) (k : nat), world_ok w ->
  forall cprops cdoms (Gamma : str -> val -> Prop),
    ctx_ignores_copies Gamma ->
    wild_sets_ok (genv_of w k) Gamma (wild_of w k cprops) ->
    dom_sets_ok (genv_of w k) Gamma (doms_of w k cprops cdoms) ->
  forall m ts rs,
    m_ext m = true -> m_sanitize m = false -> m_unsafe_ex m = false -> m_nocache m = false ->
    List.Forall (topx ea (genv_of w k) (w_names w) (wild_of w k cprops) (doms_of w k cprops cdoms)) ts ->
    check_trees w k m ts cprops cdoms = Ok rs ->
    List.Forall (fun R => forall v v',
       (forall j, v (TP j) = v' (TP j)) -> (forall i, v (TS i) = v' (TS i)) ->
       mem (g_L (genv_of w k)) R v = mem (g_L (genv_of w k)) R v') rs.
Proof. intros; eapply cached_C03_ext_closed_ignores_copies; eassumption. Qed.
Print Assumptions Cached_C03_closed_ignores_copies_ext.

Theorem Cached_C03_model_check_ext :
  forall ea (w : world) (k : nat), world_ok w ->
  forall ctx, (forall l s, alookup str_eqb l ctx = Some s -> shaped (Lpn (w_p w) (w_n w)) s) ->
  forall m fs rs,
    m_ext m = true -> m_sanitize m = false -> m_unsafe_ex m = false -> m_nocache m = false ->
    model_check ea w k m ctx fs = Ok rs ->
    (exists ts,
       List.Forall2 (fun f t => parse_and_minimize ea true (w_names w) f = Ok t) fs ts
       /\ List.Forall2 (fun t R => forall v,
            mem (g_L (genv_of w k)) (tand R (unit_of w k)) v = true <->
            (mem (g_L (genv_of w k)) (unit_of w k) v = true
             /\ sat (genv_of w k) (w_names w) (Gamma_of (genv_of w k) (ctx_lifted w k ctx)) t v)) ts rs)
    /\ List.Forall (fun R => forall v v',
          (forall j, v (TP j) = v' (TP j)) -> (forall i, v (TS i) = v' (TS i)) ->
          mem (g_L (genv_of w k)) R v = mem (g_L (genv_of w k)) R v') rs.
Proof. intros; eapply cached_C03_ext_model_check; eassumption. Qed.
Print Assumptions Cached_C03_model_check_ext.

(** * 4. C12: the pattern shortcuts do not change the results *)

(** plain modes: the same outcome (equal decision trees), sanitised or dirty *)
Theorem Cached_C12_patterns_irrelevant :
  forall ea ext (w : world) (k : nat), world_ok w ->
  forall m m' ts,
    m_ext m = false -> m_ext m' = false -> m_unsafe_ex m = false -> m_unsafe_ex m' = false ->
    m_nocache m = false -> m_nocache m' = false -> m_sanitize m = m_sanitize m' ->
    m_nopatterns m = false -> m_nopatterns m' = true ->
    List.Forall (good ea ext (genv_of w k) (w_names w)) ts ->
    check_trees w k m ts [] [] = check_trees w k m' ts [] [].
Proof. intros; eapply cached_C12_check_trees; eassumption. Qed.
Print Assumptions Cached_C12_patterns_irrelevant.

Theorem Cached_C12_patterns_irrelevant_model_check :
  forall ea (w : world) (k : nat), world_ok w ->
  forall m m' ctx fs,
    m_ext m = false -> m_ext m' = false -> m_unsafe_ex m = false -> m_unsafe_ex m' = false ->
    m_nocache m = false -> m_nocache m' = false -> m_sanitize m = m_sanitize m' ->
    m_nopatterns m = false -> m_nopatterns m' = true ->
    model_check ea w k m ctx fs = model_check ea w k m' ctx fs.
Proof. intros; eapply cached_C12_model_check; eassumption. Qed.
Print Assumptions Cached_C12_patterns_irrelevant_model_check.

(** extended mode: the same members inside the unit *)
Theorem Cached_C12_patterns_irrelevant_ext_partial :
  forall ea (w : world) (k : nat), world_ok w ->
  forall cprops cdoms (Gamma : str -> val -> Prop),
    ctx_ignores_copies Gamma ->
    wild_sets_ok (genv_of w k) Gamma (wild_of w k cprops) ->
    dom_sets_ok (genv_of w k) Gamma (doms_of w k cprops cdoms) ->
  forall m m' ts rs rs',
    m_ext m = true -> m_ext m' = true -> m_sanitize m = false -> m_sanitize m' = false ->
    m_unsafe_ex m = false -> m_unsafe_ex m' = false -> m_nocache m = false -> m_nocache m' = false ->
    m_nopatterns m = false -> m_nopatterns m' = true ->
    List.Forall (topx ea (genv_of w k) (w_names w) (wild_of w k cprops) (doms_of w k cprops cdoms)) ts ->
    check_trees w k m ts cprops cdoms = Ok rs -> check_trees w k m' ts cprops cdoms = Ok rs' ->
    List.Forall2 (fun R R' => forall v, mem (g_L (genv_of w k)) (unit_of w k) v = true ->
       mem (g_L (genv_of w k)) R v = mem (g_L (genv_of w k)) R' v) rs rs'.
Proof.
  intros ea w k W cp cd G Gx WO DO m m' ts rs rs' a b c d e f _ _ _ _.
  exact (cached_C12_ext_in_unit ea w k W cp cd G Gx WO DO m m' ts rs rs' a b c d e f).
Qed.
Print Assumptions Cached_C12_patterns_irrelevant_ext_partial.

Theorem Cached_C12_patterns_irrelevant_model_check_ext_partial :
  forall ea (w : world) (k : nat), world_ok w ->
  forall ctx, (forall l s, alookup str_eqb l ctx = Some s -> shaped (Lpn (w_p w) (w_n w)) s) ->
  forall m m' fs rs rs',
    m_ext m = true -> m_ext m' = true -> m_sanitize m = false -> m_sanitize m' = false ->
    m_unsafe_ex m = false -> m_unsafe_ex m' = false -> m_nocache m = false -> m_nocache m' = false ->
    m_nopatterns m = false -> m_nopatterns m' = true ->
    model_check ea w k m ctx fs = Ok rs -> model_check ea w k m' ctx fs = Ok rs' ->
    List.Forall2 (fun R R' => forall v, mem (g_L (genv_of w k)) (unit_of w k) v = true ->
       mem (g_L (genv_of w k)) R v = mem (g_L (genv_of w k)) R' v) rs rs'.
Proof.
  intros ea w k W ctx C m m' fs rs rs' a b c d e f _ _ _ _.
  exact (cached_C12_ext_model_check ea w k W ctx C m m' fs rs rs' a b c d e f).
Qed.
Print Assumptions Cached_C12_patterns_irrelevant_model_check_ext_partial.

(** * 5. C14: invalid input is rejected with an error, never with a panic, never silently *)

(** ** plain modes, all of them: real or empty self-loop set, sanitised or dirty
    (C14 leaves out the sanitised variant of the unsafe_ex entry point; here it is covered:
    the raw result of a closed formula ignores the spare copies whatever self-loop set is
    handed to the evaluator, [Cached_closed_plain_result_ignores_copies]) *)

Theorem Cached_closed_plain_result_ignores_copies :
  forall ea ext (w : world) (k : nat), world_ok w ->
  forall m t R,
    good ea ext (genv_of w k) (w_names w) t -> depth_named 0 t ->
    peval (genv_of w k) (w_names w) {| use_patterns := negb (m_nopatterns m) |}
          (if m_unsafe_ex m then empty (genv_of w k) else steady_of (genv_of w k) (unit_of w k))
          t (unit_of w k) = Ok R ->
    forall v v', (forall g, not_extra g = true -> v g = v' g) ->
      mem (g_L (genv_of w k)) R v = mem (g_L (genv_of w k)) R v'.
Proof. exact plain_closed_result_indep. Qed.
Print Assumptions Cached_closed_plain_result_ignores_copies.

Theorem Cached_C14_no_panic :
  forall ea (w : world) (k : nat) m ctx fs,
    world_ok w -> m_ext m = false -> m_nocache m = false ->
    (forall p, model_check ea w k m ctx fs <> Panic p) /\ model_check ea w k m ctx fs <> OutOfFuel.
Proof. intros; eapply cached_C14_no_panic; eassumption. Qed.
Print Assumptions Cached_C14_no_panic.

Theorem Cached_C14_cases :
  forall ea (w : world) (k : nat) m ctx fs,
    world_ok w -> m_ext m = false -> m_nocache m = false ->
    (exists rs, model_check ea w k m ctx fs = Ok rs /\ length rs = length fs
                /\ List.Forall (accepted ea (w_names w) k) fs)
    \/ (exists e, model_check ea w k m ctx fs = Err e
                  /\ first_reject (accepted ea (w_names w) k) (rejected ea (w_names w) k) fs e).
Proof. intros; eapply cached_C14_cases; eassumption. Qed.
Print Assumptions Cached_C14_cases.

Theorem Cached_C14_error_iff_strings :
  forall ea (w : world) (k : nat) m ctx fs e,
    world_ok w -> m_ext m = false -> m_nocache m = false ->
    (model_check ea w k m ctx fs = Err e
     <-> first_reject (accepted ea (w_names w) k) (rejected ea (w_names w) k) fs e).
Proof. intros; eapply cached_C14_err_iff; eassumption. Qed.
Print Assumptions Cached_C14_error_iff_strings.

Theorem Cached_C14_ok_iff :
  forall ea (w : world) (k : nat) m ctx fs,
    world_ok w -> m_ext m = false -> m_nocache m = false ->
    ((exists rs, model_check ea w k m ctx fs = Ok rs) <-> List.Forall (accepted ea (w_names w) k) fs).
Proof. intros; eapply cached_C14_ok_iff; eassumption. Qed.
Print Assumptions Cached_C14_ok_iff.

Theorem Cached_C14_error_iff :
  forall ea (w : world) (k : nat) m ctx fs ts e,
    world_ok w -> m_ext m = false -> m_nocache m = false ->
    Forall2 (fun f t => parse_formula ea false f = Ok t) fs ts ->
    (model_check ea w k m ctx fs = Err e
     <-> exists ts1 t ts2,
           ts = ts1 ++ t :: ts2
           /\ List.Forall (fun t1 => well_scoped (w_names w) [] t1 /\ qdepth t1 <= k) ts1
           /\ (scope_violation (w_names w) [] t e
               \/ (well_scoped (w_names w) [] t /\ k < qdepth t /\ e = EVarSupport))).
Proof. intros; eapply cached_C14_err_iff_parsed; eassumption. Qed.
Print Assumptions Cached_C14_error_iff.

Theorem Cached_C14_some_error_iff :
  forall ea (w : world) (k : nat) m ctx fs ts,
    world_ok w -> m_ext m = false -> m_nocache m = false ->
    Forall2 (fun f t => parse_formula ea false f = Ok t) fs ts ->
    ((exists e, model_check ea w k m ctx fs = Err e)
     <-> List.Exists (fun t => ~ well_scoped (w_names w) [] t \/ k < qdepth t) ts).
Proof. intros; eapply cached_C14_errs_iff_parsed; eassumption. Qed.
Print Assumptions Cached_C14_some_error_iff.

(** ** extended mode (wild-card propositions, domains, the context-label check) *)

(** sanitised or dirty: never a panic, never out of fuel, on any strings and any shaped
    context *)
Theorem Cached_C14_no_panic_ext :
  forall ea (w : world) (k : nat), world_ok w ->
  forall ctx, (forall l s, alookup str_eqb l ctx = Some s -> shaped (Lpn (w_p w) (w_n w)) s) ->
  forall m fs,
    m_ext m = true -> m_unsafe_ex m = false -> m_nocache m = false ->
    (forall p, model_check ea w k m ctx fs <> Panic p) /\ model_check ea w k m ctx fs <> OutOfFuel.
Proof. intros; eapply cached_C14_ext_no_panic; eassumption. Qed.
Print Assumptions Cached_C14_no_panic_ext.

Theorem Cached_C14_cases_ext :
  forall ea (w : world) (k : nat), world_ok w ->
  forall ctx, (forall l s, alookup str_eqb l ctx = Some s -> shaped (Lpn (w_p w) (w_n w)) s) ->
  forall m fs,
    m_ext m = true -> m_unsafe_ex m = false -> m_nocache m = false ->
    (exists rs, model_check ea w k m ctx fs = Ok rs /\ length rs = length fs
                /\ List.Forall (acceptedx ea (w_names w) k ctx) fs)
    \/ (exists e, model_check ea w k m ctx fs = Err e
                  /\ first_reject (acceptedx ea (w_names w) k ctx) (rejectedx ea (w_names w) k ctx) fs e).
Proof. intros; eapply cached_C14_ext_cases; eassumption. Qed.
Print Assumptions Cached_C14_cases_ext.

(** an error exactly when some formula is rejected -- lexical error, parse error, free
    variable, re-quantification, unknown proposition, too few spare copies, missing context
    label; the class is that of the first cause of the first rejected formula *)
Theorem Cached_C14_error_iff_ext :
  forall ea (w : world) (k : nat), world_ok w ->
  forall ctx, (forall l s, alookup str_eqb l ctx = Some s -> shaped (Lpn (w_p w) (w_n w)) s) ->
  forall m fs e,
    m_ext m = true -> m_unsafe_ex m = false -> m_nocache m = false ->
    (model_check ea w k m ctx fs = Err e
     <-> first_reject (acceptedx ea (w_names w) k ctx) (rejectedx ea (w_names w) k ctx) fs e).
Proof. intros; eapply cached_C14_ext_err_iff; eassumption. Qed.
Print Assumptions Cached_C14_error_iff_ext.

Theorem Cached_C14_ok_iff_ext :
  forall ea (w : world) (k : nat), world_ok w ->
  forall ctx, (forall l s, alookup str_eqb l ctx = Some s -> shaped (Lpn (w_p w) (w_n w)) s) ->
  forall m fs,
    m_ext m = true -> m_unsafe_ex m = false -> m_nocache m = false ->
    ((exists rs, model_check ea w k m ctx fs = Ok rs)
     <-> List.Forall (acceptedx ea (w_names w) k ctx) fs).
Proof. intros; eapply cached_C14_ext_ok_iff; eassumption. Qed.
Print Assumptions Cached_C14_ok_iff_ext.

(** with every formula tokenized and parsed (extended syntax) *)
Theorem Cached_C14_error_iff_parsed_ext :
  forall ea (w : world) (k : nat), world_ok w ->
  forall ctx, (forall l s, alookup str_eqb l ctx = Some s -> shaped (Lpn (w_p w) (w_n w)) s) ->
  forall m fs ts e,
    m_ext m = true -> m_unsafe_ex m = false -> m_nocache m = false ->
    Forall2 (fun f t => parse_formula ea true f = Ok t) fs ts ->
    (model_check ea w k m ctx fs = Err e
     <-> exists ts1 t ts2,
           ts = ts1 ++ t :: ts2
           /\ List.Forall (fun t1 => (well_scoped (w_names w) [] t1 /\ qdepth t1 <= k)
                                     /\ labels_known ctx t1) ts1
           /\ ((scope_violation (w_names w) [] t e
                \/ (well_scoped (w_names w) [] t /\ k < qdepth t /\ e = EVarSupport))
               \/ ((well_scoped (w_names w) [] t /\ qdepth t <= k) /\ label_missing ctx t
                   /\ e = EMissingContext))).
Proof. intros; eapply cached_C14_ext_err_iff_parsed; eassumption. Qed.
Print Assumptions Cached_C14_error_iff_parsed_ext.

Theorem Cached_C14_error_class_ext :
  forall ea props k ctx f e,
    rejectedx ea props k ctx f e ->
    e = ELex \/ e = EParse \/ e = EFreeVar \/ e = ERequantified \/ e = EUnknownProp
    \/ e = EVarSupport \/ e = EMissingContext.
Proof. exact rejectedx_class. Qed.
Print Assumptions Cached_C14_error_class_ext.

Theorem Cached_C14_verdict_exclusive_ext :
  forall ea props k ctx f,
    (acceptedx ea props k ctx f \/ exists e, rejectedx ea props k ctx f e)
    /\ (forall e, acceptedx ea props k ctx f -> ~ rejectedx ea props k ctx f e)
    /\ (forall e e', rejectedx ea props k ctx f e -> rejectedx ea props k ctx f e' -> e = e').
Proof.
  exact (fun ea props k ctx f =>
           conj (classifyx ea props k ctx f)
                (conj (fun e => acceptedx_not_rejectedx ea props k ctx f e)
                      (fun e e' => rejectedx_unique ea props k ctx f e e'))).
Qed.
Print Assumptions Cached_C14_verdict_exclusive_ext.

(** the reason why the sanitiser cannot panic on extended formulae: the raw result of a closed
    extended formula (cache-free evaluator, any switches) does not read the spare copies *)
Theorem Cached_closed_ext_result_ignores_copies :
  forall ea (w : world) (k : nat), world_ok w ->
  forall cprops cdoms (Gamma : str -> val -> Prop),
    ctx_ignores_copies Gamma ->
    wild_sets_ok (genv_of w k) Gamma (wild_of w k cprops) ->
    dom_sets_ok (genv_of w k) Gamma (doms_of w k cprops cdoms) ->
  forall sw t R,
    topx ea (genv_of w k) (w_names w) (wild_of w k cprops) (doms_of w k cprops cdoms) t ->
    peval_ext (genv_of w k) (w_names w) sw (steady_of (genv_of w k) (unit_of w k))
              (wild_of w k cprops) (doms_of w k cprops cdoms) t (unit_of w k) = Ok R ->
    (forall v v', (forall g, is_extra_tag g = false -> v g = v' g) ->
       mem (g_L (genv_of w k)) R v = mem (g_L (genv_of w k)) R v')
    /\ exists S, sanitize (genv_of w k) R = Ok S.
Proof.
  intros ea w k WOK cp cd Gamma Gx WO DO sw t R TX E. split.
  - intros v v' H. apply (topx_result_extras_indep ea w k WOK cp cd Gamma Gx WO DO sw t R TX E).
    intros g Hg. apply H, negb_true_iff, Hg.
  - destruct (topx_result_sanitize ea w k WOK cp cd Gamma Gx WO DO sw t R TX E) as (S & ES & _).
    exists S. exact ES.
Qed.
Print Assumptions Cached_closed_ext_result_ignores_copies.

(** * 6. C15: sanitised = raw; independence of the number of spare copies *)

Theorem Cached_C15_sanitize_eq_raw :
  forall ea ext (w : world) (k : nat), world_ok w ->
  forall m m' ts rs,
    m_ext m = false -> m_ext m' = false -> m_unsafe_ex m = false -> m_unsafe_ex m' = false ->
    m_nocache m = false -> m_nocache m' = false ->
    m_sanitize m = false -> m_sanitize m' = true ->
    List.Forall (good ea ext (genv_of w k) (w_names w)) ts -> List.Forall (depth_named 0) ts ->
    check_trees w k m ts [] [] = Ok rs ->
    exists ss, check_trees w k m' ts [] [] = Ok ss
      /\ List.Forall2 (fun R S => shaped (filter not_extra (g_L (genv_of w k))) S /\
           forall v, mem (filter not_extra (g_L (genv_of w k))) S v = mem (g_L (genv_of w k)) R v) rs ss.
Proof.
  intros ea ext w k W m m' ts rs a b c d _ _.
  exact (cached_C15_sanitize_eq_raw ea ext w k W m m' ts rs a b c d).
Qed.
Print Assumptions Cached_C15_sanitize_eq_raw.

Theorem Cached_C15_sanitize_eq_raw_model_check :
  forall ea (w : world) (k : nat), world_ok w ->
  forall m m' ctx fs rs,
    m_ext m = false -> m_ext m' = false -> m_unsafe_ex m = false -> m_unsafe_ex m' = false ->
    m_nocache m = false -> m_nocache m' = false ->
    m_sanitize m = false -> m_sanitize m' = true ->
    model_check ea w k m ctx fs = Ok rs ->
    exists ss, model_check ea w k m' ctx fs = Ok ss
      /\ List.Forall2 (fun R S => shaped (filter not_extra (g_L (genv_of w k))) S /\
           forall v, mem (filter not_extra (g_L (genv_of w k))) S v = mem (g_L (genv_of w k)) R v) rs ss.
Proof.
  intros ea w k W m m' ctx fs rs a b c d _ _.
  exact (cached_C15_model_check_sanitize_eq_raw ea w k W m m' ctx fs rs a b c d).
Qed.
Print Assumptions Cached_C15_sanitize_eq_raw_model_check.

(** extended formulae (new: not in C15) *)
Theorem Cached_C15_sanitize_eq_raw_ext :
  forall ea (w : world) (k : nat), world_ok w ->
  forall cprops cdoms (Gamma : str -> val -> Prop),
    ctx_ignores_copies Gamma ->
    wild_sets_ok (genv_of w k) Gamma (wild_of w k cprops) ->
    dom_sets_ok (genv_of w k) Gamma (doms_of w k cprops cdoms) ->
  forall m m' ts rs,
    m_ext m = true -> m_ext m' = true -> m_unsafe_ex m = false -> m_unsafe_ex m' = false ->
    m_nocache m = false -> m_nocache m' = false ->
    m_sanitize m = false -> m_sanitize m' = true -> m_nopatterns m = m_nopatterns m' ->
    List.Forall (topx ea (genv_of w k) (w_names w) (wild_of w k cprops) (doms_of w k cprops cdoms)) ts ->
    check_trees w k m ts cprops cdoms = Ok rs ->
    exists ss, check_trees w k m' ts cprops cdoms = Ok ss
      /\ List.Forall2 (fun R S => shaped (filter not_extra (g_L (genv_of w k))) S /\
           forall v, mem (filter not_extra (g_L (genv_of w k))) S v = mem (g_L (genv_of w k)) R v) rs ss.
Proof.
  intros ea w k W cp cd G Gx WO DO m m' ts rs a b c d _ _.
  exact (cached_C15_ext_sanitize_eq_raw ea w k W cp cd G Gx WO DO m m' ts rs a b c d).
Qed.
Print Assumptions Cached_C15_sanitize_eq_raw_ext.

Theorem Cached_C15_sanitize_eq_raw_model_check_ext :
  forall ea (w : world) (k : nat), world_ok w ->
  forall ctx, (forall l s, alookup str_eqb l ctx = Some s -> shaped (Lpn (w_p w) (w_n w)) s) ->
  forall m m' fs rs,
    m_ext m = true -> m_ext m' = true -> m_unsafe_ex m = false -> m_unsafe_ex m' = false ->
    m_nocache m = false -> m_nocache m' = false ->
    m_sanitize m = false -> m_sanitize m' = true -> m_nopatterns m = m_nopatterns m' ->
    model_check ea w k m ctx fs = Ok rs ->
    exists ss, model_check ea w k m' ctx fs = Ok ss
      /\ List.Forall2 (fun R S => shaped (filter not_extra (g_L (genv_of w k))) S /\
           forall v, mem (filter not_extra (g_L (genv_of w k))) S v = mem (g_L (genv_of w k)) R v) rs ss.
Proof.
  intros ea w k W ctx C m m' fs rs a b c d _ _.
  exact (cached_C15_ext_model_check_sanitize_eq_raw ea w k W ctx C m m' fs rs a b c d).
Qed.
Print Assumptions Cached_C15_sanitize_eq_raw_model_check_ext.

(** two numbers of spare copies: the sanitised batch results are the same list of trees over
    the layout  parameters ++ states, each the set of (colour, state) pairs of the unit that
    satisfy the formula (pattern switches may differ) *)
Theorem Cached_C15_k_independent :
  forall ea ext (w : world) (k k' : nat), world_ok w ->
  forall m m' ts ss,
    m_ext m = false -> m_ext m' = false -> m_unsafe_ex m = false -> m_unsafe_ex m' = false ->
    m_nocache m = false -> m_nocache m' = false ->
    m_sanitize m = true -> m_sanitize m' = true ->
    List.Forall (good ea ext (genv_of w k) (w_names w)) ts ->
    List.Forall (good ea ext (genv_of w k') (w_names w)) ts ->
    List.Forall (depth_named 0) ts ->
    check_trees w k m ts [] [] = Ok ss ->
    check_trees w k' m' ts [] [] = Ok ss
    /\ List.Forall2 (fun t S => shaped (Lpn (w_p w) (w_n w)) S /\
         forall (Gamma : str -> val -> Prop) v, mem (Lpn (w_p w) (w_n w)) S v = true <->
           (mem (Lpn (w_p w) (w_n w)) (w_unit w) v = true /\ sat (genv_of w k) (w_names w) Gamma t v)) ts ss.
Proof.
  intros ea ext w k k' W m m' ts ss a b c d _ _.
  exact (cached_C15_k_independent ea ext w k k' W m m' ts ss a b c d).
Qed.
Print Assumptions Cached_C15_k_independent.

Theorem Cached_C15_k_independent_model_check :
  forall ea (w : world) (k k' : nat) m m' ctx ctx' fs ss ss',
    world_ok w ->
    m_ext m = false -> m_ext m' = false -> m_unsafe_ex m = false -> m_unsafe_ex m' = false ->
    m_nocache m = false -> m_nocache m' = false ->
    m_sanitize m = true -> m_sanitize m' = true ->
    model_check ea w k m ctx fs = Ok ss -> model_check ea w k' m' ctx' fs = Ok ss' ->
    ss = ss'
    /\ exists ts, List.Forall2 (fun f t => parse_and_minimize ea false (w_names w) f = Ok t) fs ts
       /\ List.Forall2 (fun t S => shaped (Lpn (w_p w) (w_n w)) S /\
            forall (Gamma : str -> val -> Prop) v, mem (Lpn (w_p w) (w_n w)) S v = true <->
              (mem (Lpn (w_p w) (w_n w)) (w_unit w) v = true /\ sat (genv_of w k) (w_names w) Gamma t v)) ts ss.
Proof.
  intros ea w k k' m m' ctx ctx' fs ss ss' W a b c d _ _.
  exact (cached_C15_model_check_k_independent ea w k k' m m' ctx ctx' fs ss ss' W a b c d).
Qed.
Print Assumptions Cached_C15_k_independent_model_check.

(** * 7. C18: the self-loop-free variant (plain or extended; any contexts) *)

Theorem Cached_C18_fragment :
  forall (w : world) k m m' ts cp cd,
    m_nocache m = false -> m_nocache m' = false ->
    m_ext m = m_ext m' -> m_sanitize m = m_sanitize m' -> m_nopatterns m = m_nopatterns m' ->
    List.Forall in_fragment ts ->
    check_trees w k m ts cp cd = check_trees w k m' ts cp cd.
Proof. intros; apply cached_C18_fragment_check_trees; first [assumption | congruence]. Qed.
Print Assumptions Cached_C18_fragment.

(** the formulae that parse are in the fragment (without EX, AX, AF, EG, AU, EW) *)
Theorem Cached_C18_fragment_model_check :
  forall ea (w : world) k m m' ctx fs,
    m_nocache m = false -> m_nocache m' = false ->
    m_ext m = m_ext m' -> m_sanitize m = m_sanitize m' -> m_nopatterns m = m_nopatterns m' ->
    (forall f t0, In f fs -> parse_formula ea (m_ext m) f = Ok t0 -> in_fragment t0) ->
    model_check ea w k m ctx fs = model_check ea w k m' ctx fs.
Proof. intros; apply cached_C18_fragment_model_check; first [assumption | congruence]. Qed.
Print Assumptions Cached_C18_fragment_model_check.

(** no valid colour has a steady state: any formulae *)
Theorem Cached_C18_no_steady :
  forall (w : world) k, world_ok w ->
    (forall v, mem (g_L (genv_of w k)) (unit_of w k) v = true -> ~ vsteady (genv_of w k) v) ->
  forall m m' ts cp cd,
    m_nocache m = false -> m_nocache m' = false ->
    m_ext m = m_ext m' -> m_sanitize m = m_sanitize m' -> m_nopatterns m = m_nopatterns m' ->
    check_trees w k m ts cp cd = check_trees w k m' ts cp cd.
Proof. intros; apply cached_C18_no_steady_check_trees; first [assumption | congruence]. Qed.
Print Assumptions Cached_C18_no_steady.

Theorem Cached_C18_no_steady_model_check :
  forall ea (w : world) k, world_ok w ->
    (forall v, mem (g_L (genv_of w k)) (unit_of w k) v = true -> ~ vsteady (genv_of w k) v) ->
  forall m m' ctx fs,
    m_nocache m = false -> m_nocache m' = false ->
    m_ext m = m_ext m' -> m_sanitize m = m_sanitize m' -> m_nopatterns m = m_nopatterns m' ->
    model_check ea w k m ctx fs = model_check ea w k m' ctx fs.
Proof. intros; apply cached_C18_no_steady_model_check; first [assumption | congruence]. Qed.
Print Assumptions Cached_C18_no_steady_model_check.

(** * 8. C20: the answer for a colour is the answer on the network instantiated by it *)

Theorem Cached_C20_colour_slice :
  forall ea ext (w : world) (k : nat), world_ok w ->
  forall (c : val) (u' : tt),
    shaped (Lpn (w_p w) (w_n w)) u' ->
    (forall v v', (forall j, v (TP j) = v' (TP j)) ->
       mem (Lpn (w_p w) (w_n w)) u' v = mem (Lpn (w_p w) (w_n w)) u' v') ->
  forall m m' ts rs rs',
    m_ext m = false -> m_ext m' = false -> m_sanitize m = false -> m_sanitize m' = false ->
    m_unsafe_ex m = false -> m_unsafe_ex m' = false -> m_nocache m = false -> m_nocache m' = false ->
    List.Forall (good ea ext (genv_of w k) (w_names w)) ts ->
    check_trees w k m ts [] [] = Ok rs -> check_trees (colour_world c u' w) k m' ts [] [] = Ok rs' ->
    List.Forall2 (fun R R' => forall v, (forall j, v (TP j) = c (TP j)) ->
       mem (g_L (genv_of w k)) (unit_of w k) v = true ->
       mem (g_L (genv_of w k)) (unit_of (colour_world c u' w) k) v = true ->
       mem (g_L (genv_of w k)) R v = mem (g_L (genv_of w k)) R' v) rs rs'.
Proof.
  intros ea ext w k W c u' S C m m' ts rs rs' a b c0 d e f _ _.
  exact (cached_C20_check_trees ea ext w k W c u' S C m m' ts rs rs' a b c0 d e f).
Qed.
Print Assumptions Cached_C20_colour_slice.

Theorem Cached_C20_colour_slice_model_check :
  forall ea (w : world) (k : nat) (c : val) (u' : tt) m m' ctx ctx' fs rs rs',
    world_ok w ->
    shaped (Lpn (w_p w) (w_n w)) u' ->
    (forall v v', (forall j, v (TP j) = v' (TP j)) ->
       mem (Lpn (w_p w) (w_n w)) u' v = mem (Lpn (w_p w) (w_n w)) u' v') ->
    m_ext m = false -> m_ext m' = false -> m_sanitize m = false -> m_sanitize m' = false ->
    m_unsafe_ex m = false -> m_unsafe_ex m' = false -> m_nocache m = false -> m_nocache m' = false ->
    model_check ea w k m ctx fs = Ok rs -> model_check ea (colour_world c u' w) k m' ctx' fs = Ok rs' ->
    List.Forall2 (fun R R' => forall v, (forall j, v (TP j) = c (TP j)) ->
       mem (g_L (genv_of w k)) (unit_of w k) v = true ->
       mem (g_L (genv_of w k)) (unit_of (colour_world c u' w) k) v = true ->
       mem (g_L (genv_of w k)) R v = mem (g_L (genv_of w k)) R' v) rs rs'.
Proof.
  intros ea w k c u' m m' ctx ctx' fs rs rs' W S C a b c0 d e f _ _.
  exact (cached_C20_model_check ea w k c u' m m' ctx ctx' fs rs rs' W S C a b c0 d e f).
Qed.
Print Assumptions Cached_C20_colour_slice_model_check.

(** * Examples (non-vacuity): the hypotheses are satisfiable, the cache is really in use *)

From HCTL Require Import TTFacts OpsFacts C04b C04c.

Module CachedExamples.

(** the world of C04b/C04c: variables a, b (b follows a, a is always updated to 1), one
    parameter bit; all colours valid *)
Example Cached_ex_world : world_ok ex_w /\ world_ok exc_w.
Proof. split; exact C04_ex_world. Qed.

Definition ea : N -> bool := fun _ => false.
(** the default configuration: duplicates marked *)
Definition md (x san ux np : bool) : mode :=
  {| m_ext := x; m_sanitize := san; m_unsafe_ex := ux; m_nocache := false; m_nopatterns := np |}.
Definition show (r : res (list tt)) : list nat + option errkind :=
  match r with Ok rs => inl (map card rs) | Err e => inr (Some e) | _ => inr None end.

(** "!{x}: (EX {x})", "!{x}: !{y}: (AX (EX {y}))", "!{x}: AX {x}" *)
Definition p1 : str := [33;123;120;125;58;32;40;69;88;32;123;120;125;41]%N.
Definition p2 : str :=
  [33;123;120;125;58;32;33;123;121;125;58;32;40;65;88;32;40;69;88;32;123;121;125;41;41]%N.
Definition p3 : str := [33;123;120;125;58;32;65;88;32;123;120;125]%N.

(** the batch has a marked duplicate: (EX {x}) of p1 and (EX {xx}) of p2 share the key *)
Example Cached_ex_marked :
  exists ts, validate_all ea false (w_names ex_w) 2 [] [p1; p2; p3] = Ok (ts, [], [])
             /\ map snd (mark_duplicates ts) = [1].
Proof. eexists. split; [vm_compute; reflexivity|]. vm_compute. reflexivity. Qed.

(** C01 with the cache on, on strings *)
Example Cached_ex_C01 :
  exists rs,
    model_check ea ex_w 2 (md false false false false) [] [p1; p2; p3] = Ok rs
    /\ map card rs = [32; 32; 32]
    /\ exists ts,
         List.Forall2 (fun f t => parse_and_minimize ea false (w_names ex_w) f = Ok t) [p1; p2; p3] ts
         /\ List.Forall2 (fun t R => forall v,
              mem (g_L (genv_of ex_w 2)) R v = true <->
              (mem (g_L (genv_of ex_w 2)) (unit_of ex_w 2) v = true
               /\ sat (genv_of ex_w 2) (w_names ex_w) (fun _ _ => True) t v)) ts rs.
Proof.
  eassert (model_check ea ex_w 2 (md false false false false) [] [p1; p2; p3] = Ok _) as E
    by (vm_compute; reflexivity).
  eexists. split; [exact E|]. split; [vm_compute; reflexivity|].
  exact (Cached_C01_model_check_correct ea ex_w 2 (proj1 Cached_ex_world) (fun _ _ => True)
           (md false false false false) [] [p1; p2; p3] _ eq_refl eq_refl eq_refl eq_refl E).
Qed.

(** C12, C14, C15 on the same strings: the theorems apply, the outcomes are answers *)
Example Cached_ex_C12_C14_C15 :
  model_check ea ex_w 2 (md false false false false) [] [p1; p2; p3]
  = model_check ea ex_w 2 (md false false false true) [] [p1; p2; p3]
  /\ show (model_check ea ex_w 2 (md false true false false) [] [p1; p2; p3]) = inl [2; 2; 2]
  /\ model_check ea ex_w 2 (md false true false false) [] [p1; p2; p3]
     = model_check ea ex_w 3 (md false true false true) [] [p1; p2; p3]
  /\ show (model_check ea ex_w 1 (md false true false false) [] [p1; p2; p3]) = inr (Some EVarSupport)
  /\ (forall p, model_check ea ex_w 2 (md false true false false) [] [p1; p2; p3] <> Panic p).
Proof.
  pose proof (proj1 Cached_ex_world) as WOK.
  eassert (model_check ea ex_w 2 (md false true false false) [] [p1; p2; p3] = Ok _) as E1
    by (vm_compute; reflexivity).
  split; [apply (Cached_C12_patterns_irrelevant_model_check ea ex_w 2 WOK); reflexivity|].
  split; [rewrite E1; reflexivity|]. split.
  - (* with three spare copies the batch is accepted as well (C14), hence answered, and by C15
       with the same sets *)
    pose proof (proj1 (Cached_C14_ok_iff ea ex_w 2 (md false true false false) [] _ WOK eq_refl eq_refl)
                  (ex_intro _ _ E1)) as A2.
    assert (List.Forall (accepted ea (w_names ex_w) 3) [p1; p2; p3]) as A3.
    { eapply Forall_impl; [|exact A2]. intros f (t & P & WS & Q). exists t. split; [exact P|]. split; [exact WS | lia]. }
    destruct (proj2 (Cached_C14_ok_iff ea ex_w 3 (md false true false true) [] _ WOK eq_refl eq_refl) A3)
      as [ss' E2].
    rewrite E1, E2. f_equal.
    exact (proj1 (Cached_C15_k_independent_model_check ea ex_w 2 3 (md false true false false)
                    (md false true false true) [] [] [p1; p2; p3] _ ss'
                    WOK eq_refl eq_refl eq_refl eq_refl eq_refl eq_refl eq_refl eq_refl E1 E2)).
  - split; [vm_compute; reflexivity|].
    apply (Cached_C14_no_panic ea ex_w 2 (md false true false false) [] [p1; p2; p3] WOK); reflexivity.
Qed.

(** no panic in any of the eight plain configurations with the cache on, on any strings *)
Example Cached_ex_C14_all_plain_modes :
  forall san ux np fs p, model_check ea ex_w 2 (md false san ux np) [] fs <> Panic p.
Proof.
  intros san ux np fs.
  apply (Cached_C14_no_panic ea ex_w 2 (md false san ux np) [] fs (proj1 Cached_ex_world)); reflexivity.
Qed.

(** extended mode: the instance of C04c (domains A = "a is 1", B = "b is 1"); the sub-formula
    (EX {x}) of g1 is served from the cache for (EX {xx}) of g2 *)
Example Cached_ex_C02 :
  exists (Gamma : str -> val -> Prop) rs,
    ctx_ignores_copies Gamma
    /\ check_trees exc_w 2 (md true false false false) [exc_g1; exc_g2] [] exc_cdoms = Ok rs
    /\ map card rs = [128; 96]
    /\ List.Forall2 (fun t R => shaped (g_L (genv_of exc_w 2)) R /\
         forall v, mem (g_L (genv_of exc_w 2)) (unit_of exc_w 2) v = true ->
           (mem (g_L (genv_of exc_w 2)) R v = true <-> sat (genv_of exc_w 2) (w_names exc_w) Gamma t v))
         [exc_g1; exc_g2] rs.
Proof.
  destruct C04c_ex_hypotheses as (Gamma & Gx & WO & DO & F).
  destruct (proj2 (proj2 C04c_ex_batch)) as (rs & E & CARD).
  exists Gamma, rs. split; [exact Gx|]. split; [exact E|]. split; [exact CARD|].
  exact (Cached_C02_check_trees_correct exc_ea exc_w 2 (proj2 Cached_ex_world) [] exc_cdoms Gamma Gx WO DO
           (md true false false false) [exc_g1; exc_g2] rs eq_refl eq_refl eq_refl eq_refl F E).
Qed.

(** the extended string entry point: "3{x} in %A%: (EX {x})",
    "3{x} in %B%: 3{y} in %A%: (AX (EX {y}))", "%A%", and the unbound label "%Z%" *)
Definition s1 : str := [51;123;120;125;32;105;110;32;37;65;37;58;32;40;69;88;32;123;120;125;41]%N.
Definition s2 : str :=
  [51;123;120;125;32;105;110;32;37;66;37;58;32;51;123;121;125;32;105;110;32;37;65;37;58;32;
   40;65;88;32;40;69;88;32;123;121;125;41;41]%N.
Definition s3 : str := [37;65;37]%N.
Definition s4 : str := [37;90;37]%N.

Lemma exc_ctx_shaped :
  forall l s, alookup str_eqb l exc_cdoms = Some s -> shaped (Lpn (w_p exc_w) (w_n exc_w)) s.
Proof.
  intros l s E. unfold exc_cdoms in E. cbn [alookup] in E.
  destruct (str_eqb l exc_lA); [injection E as <-; vm_compute; tauto|].
  destruct (str_eqb l exc_lB); [injection E as <-; vm_compute; tauto | discriminate E].
Qed.

Example Cached_ex_C02_C14_strings :
  show (model_check ea exc_w 2 (md true false false false) exc_cdoms [s1; s2; s3]) = inl [128; 96; 64]
  /\ show (model_check ea exc_w 2 (md true true false false) exc_cdoms [s1; s2; s3]) = inl [8; 6; 4]
  /\ model_check ea exc_w 2 (md true false false false) exc_cdoms [s1; s4] = Err EMissingContext
  /\ first_reject (acceptedx ea (w_names exc_w) 2 exc_cdoms) (rejectedx ea (w_names exc_w) 2 exc_cdoms)
                  [s1; s4] EMissingContext
  /\ (forall san fs p, model_check ea exc_w 2 (md true san false false) exc_cdoms fs <> Panic p).
Proof.
  split; [vm_compute; reflexivity|]. split; [vm_compute; reflexivity|].
  assert (model_check ea exc_w 2 (md true false false false) exc_cdoms [s1; s4] = Err EMissingContext) as E
    by (vm_compute; reflexivity).
  split; [exact E|]. split.
  - apply (Cached_C14_error_iff_ext ea exc_w 2 (proj2 Cached_ex_world) exc_cdoms exc_ctx_shaped
             (md true false false false) [s1; s4] EMissingContext); first [exact E | reflexivity].
  - intros san fs. apply (Cached_C14_no_panic_ext ea exc_w 2 (proj2 Cached_ex_world) exc_cdoms exc_ctx_shaped
                        (md true san false false) fs); reflexivity.
Qed.

(** "subset of the unit" fails for extended formulae: only the colour p0 = 1 is valid, the
    set of label A is everything, the formula is %A% *)
Definition wu : world :=
  {| w_p := 1; w_n := 2; w_names := [[97%N]; [98%N]];
     w_upd := [const (Lpn 1 2) true; lit (Lpn 1 2) (TS 0)];
     w_unit := lit (Lpn 1 2) (TP 0) |}.

Example Cached_C03_within_unit_ext_refuted :
  world_ok wu
  /\ exists R v,
       check_trees wu 1 (md true false false false) [Terminal (AWild [65%N])]
                   [([65%N], const (Lpn 1 2) true)] [] = Ok [R]
       /\ mem (g_L (genv_of wu 1)) R v = true /\ mem (g_L (genv_of wu 1)) (unit_of wu 1) v = false
       /\ card R = 32 /\ card (unit_of wu 1) = 16.
Proof.
  split.
  - split; [|split; [|split]].
    + constructor; [apply shaped_const|]. constructor; [apply shaped_lit | constructor].
    + apply shaped_lit.
    + intros v v' H. cbn [wu w_unit w_p w_n].
      rewrite !(mem_lit (Lpn 1 2) (TP 0)) by (try (left; reflexivity); apply (IndepFacts.NoDup_Lpn 1 2)).
      apply H.
    + cbn. lia.
  - eexists. exists (fun _ => false). split; [vm_compute; reflexivity|].
    split; [|split; [|split]]; vm_compute; reflexivity.
Qed.

(** C18: a one-variable network a' = !a has no steady state *)
Definition wn : world :=
  {| w_p := 0; w_n := 1; w_names := [[97%N]];
     w_upd := [tminus (const (Lpn 0 1) true) (lit (Lpn 0 1) (TS 0))];
     w_unit := const (Lpn 0 1) true |}.
(** "EX a", "!{x}: AX {x}" *)
Definition q1 : str := [69;88;32;97]%N.

Example Cached_ex_C18 :
  world_ok wn
  /\ (forall v, mem (g_L (genv_of wn 1)) (unit_of wn 1) v = true -> ~ vsteady (genv_of wn 1) v)
  /\ model_check ea wn 1 (md false false false false) [] [q1; p3]
     = model_check ea wn 1 (md false false true false) [] [q1; p3]
  /\ show (model_check ea wn 1 (md false false true false) [] [q1; p3]) = inl [2; 0].
Proof.
  assert (world_ok wn) as WOK.
  { split; [|split; [|split]].
    - constructor; [|constructor]. apply shapedb_iff. vm_compute. reflexivity.
    - apply shaped_const.
    - intros v v' _. cbn [wn w_unit w_p w_n]. rewrite !mem_const. reflexivity.
    - cbn. lia. }
  assert (forall v, mem (g_L (genv_of wn 1)) (unit_of wn 1) v = true -> ~ vsteady (genv_of wn 1) v) as NS.
  { intros v Hv ST. destruct WOK as (A & B & C & D).
    pose proof (LayoutFacts.world_wf wn 1 A B C D) as WF.
    assert (mem (g_L (genv_of wn 1)) (steady_of (genv_of wn 1) (unit_of wn 1)) v = true) as X.
    { apply (mem_steady_of (genv_of wn 1) (wf_nodup _ _ _ WF) (wf_upd_shaped _ _ _ WF) (wf_TS_in _ _ _ WF)
               (unit_of wn 1) v (wf_U_shaped _ _ _ WF)). split; assumption. }
    assert (steady_of (genv_of wn 1) (unit_of wn 1) = empty (genv_of wn 1)) as E by (vm_compute; reflexivity).
    rewrite E, mem_empty in X. discriminate X. }
  split; [exact WOK|]. split; [exact NS|]. split; [|vm_compute; reflexivity].
  apply (Cached_C18_no_steady_model_check ea wn 1 WOK NS); reflexivity.
Qed.

(** C20: the world of C04b instantiated by the colour p0 = 1 *)
Definition cT : val := fun _ => true.

Example Cached_ex_C20 :
  world_ok (colour_world cT (w_unit ex_w) ex_w)
  /\ exists rs rs',
       model_check ea ex_w 2 (md false false false false) [] [p1; p2; p3] = Ok rs
       /\ model_check ea (colour_world cT (w_unit ex_w) ex_w) 2 (md false false false true) [] [p1; p2; p3] = Ok rs'
       /\ List.Forall2 (fun R R' => forall v, (forall j, v (TP j) = cT (TP j)) ->
            mem (g_L (genv_of ex_w 2)) (unit_of ex_w 2) v = true ->
            mem (g_L (genv_of ex_w 2)) (unit_of (colour_world cT (w_unit ex_w) ex_w) 2) v = true ->
            mem (g_L (genv_of ex_w 2)) R v = mem (g_L (genv_of ex_w 2)) R' v) rs rs'.
Proof.
  pose proof (proj1 Cached_ex_world) as WOK. pose proof WOK as (A & B & C & D).
  pose proof (colour_world_ok ex_w WOK cT (w_unit ex_w) B C) as WOK'.
  split; [exact WOK'|].
  destruct Cached_ex_C01 as (rs & E & _).
  (* the instantiated world has the same names: the strings are accepted there too (C14),
     hence answered *)
  pose proof (proj1 (Cached_C14_ok_iff ea ex_w 2 (md false false false false) [] _ WOK eq_refl eq_refl)
                (ex_intro _ _ E)) as ACC.
  destruct (proj2 (Cached_C14_ok_iff ea (colour_world cT (w_unit ex_w) ex_w) 2 (md false false false true)
                     [] _ WOK' eq_refl eq_refl) ACC) as [rs' E'].
  exists rs, rs'. split; [exact E|]. split; [exact E'|].
  exact (Cached_C20_colour_slice_model_check ea ex_w 2 cT (w_unit ex_w)
           (md false false false false) (md false false false true) [] [] [p1; p2; p3] rs rs' WOK B C
           eq_refl eq_refl eq_refl eq_refl eq_refl eq_refl eq_refl eq_refl E E').
Qed.

End CachedExamples.

Print Assumptions CachedExamples.Cached_ex_world.
Print Assumptions CachedExamples.Cached_ex_marked.
Print Assumptions CachedExamples.Cached_ex_C01.
Print Assumptions CachedExamples.Cached_ex_C12_C14_C15.
Print Assumptions CachedExamples.Cached_ex_C14_all_plain_modes.
Print Assumptions CachedExamples.Cached_ex_C02.
Print Assumptions CachedExamples.Cached_ex_C02_C14_strings.
Print Assumptions CachedExamples.Cached_C03_within_unit_ext_refuted.
Print Assumptions CachedExamples.Cached_ex_C18.
Print Assumptions CachedExamples.Cached_ex_C20.
Print Assumptions Cached_world_ok_def.
Print Assumptions Cached_Gamma_def.
Print Assumptions Cached_labels_def.
Print Assumptions Cached_acceptedx_def.
Print Assumptions Cached_rejectedx_def.
Print Assumptions Cached_colour_world_def.
