(** C16 -- result archives reload to the sets written (src/generate_output.rs
    [build_result_archive], src/load_inputs.rs [load_bdd_bundle]).  Statements and the last step of each proof; model in
    Model/Shell.v, lemmas in Proofs/ShellFacts.v.

    Reading guide.  An archive is the ordered list of its entries (name, content).  The BDD
    text codec is a parameter [print] / [parse] with the law [parse (print b) = Some b].
    [build_result_archive print results model formulae] is the archive written for the result
    map [results] (an association list label -> set, in the order in which the HashMap is
    iterated); [load_names parse names a []] is the loader visiting the entry names in the
    order [names], where [is_file_names a names] says that [names] lists every distinct entry
    name of [a] once (zip 0.6.6 returns them in HashMap order); [load_bdd_bundle parse a] is
    the loader visiting them in archive order.  Loaded maps are compared through [alookup],
    through their entries, or literally.

    A label [l] is [admissible] if it is not empty and does not end with '/': this is exactly
    the condition under which [Path::extension] of "l.bdd" is "bdd" ([C16_admissible_exact]);
    e.g. the entry ".bdd" written for the empty label has no extension and is skipped. *)
From HCTL Require Import Base Tokenizer TT Shell.
From HCTL Require Import ShellFacts.

(** * Entries of the archive *)

Theorem C16_entries : forall print (sets : setmap) model formulae,
  length (build_result_archive print sets model formulae) = length sets + 2.
Proof.
  intros print sets model formulae. unfold build_result_archive.
  rewrite app_length, map_length. reflexivity.
Qed.

Theorem C16_entry_names : forall print (sets : setmap) model formulae,
  map fst (build_result_archive print sets model formulae)
  = map (fun l => l ++ s_dot_bdd) (map fst sets) ++ [s_model_aeon; s_formulae_txt].
Proof. exact build_names. Qed.

(** the model can be read back from the archive (this is what the archive is for) *)
Theorem C16_model_entry : forall print (sets : setmap) model formulae,
  by_name s_model_aeon (build_result_archive print sets model formulae) = Some model.
Proof. exact by_name_build_model. Qed.

(** * Admissible labels *)

Theorem C16_admissible_exact : forall l,
  extension (l ++ s_dot_bdd) = Some s_bdd <-> admissible l.
Proof. exact extension_bdd_iff. Qed.

(** * Round trip *)

(** pairwise distinct admissible labels: whatever the two iteration orders, the loader
    succeeds and returns the same association list up to order *)
Theorem C16_roundtrip : forall print parse, (forall b, parse (print b) = Some b) ->
  forall (sets : setmap) model formulae names,
    NoDup (map fst sets) -> Forall admissible (map fst sets) ->
    is_file_names (build_result_archive print sets model formulae) names ->
    exists m,
      load_names parse names (build_result_archive print sets model formulae) [] = LOk m /\
      NoDup (map fst m) /\
      (forall l, alookup str_eqb l m = alookup str_eqb l sets) /\
      (forall l b, In (l, b) m <-> In (l, b) sets) /\
      length m = length sets.
Proof. exact roundtrip. Qed.

(** entries visited in archive order: literally the same list, in reverse insertion order *)
Theorem C16_roundtrip_in_order : forall print parse, (forall b, parse (print b) = Some b) ->
  forall (sets : setmap) model formulae,
    NoDup (map fst sets) -> Forall admissible (map fst sets) ->
    load_bdd_bundle parse (build_result_archive print sets model formulae) = LOk (rev sets).
Proof. exact roundtrip_exact. Qed.

(** without the admissibility hypothesis: exactly the sets with an admissible label come
    back, the others are silently dropped *)
Theorem C16_roundtrip_general : forall print parse, (forall b, parse (print b) = Some b) ->
  forall (sets : setmap) model formulae names,
    NoDup (map fst sets) ->
    is_file_names (build_result_archive print sets model formulae) names ->
    exists m,
      load_names parse names (build_result_archive print sets model formulae) [] = LOk m /\
      NoDup (map fst m) /\
      forall l b, In (l, b) m <-> In (l, b) sets /\ admissible l.
Proof. exact roundtrip_general_entries. Qed.

(** * The metadata entries *)

(** [model.aeon] and [formulae.txt] are skipped by the loader, in any archive and whatever
    they contain; by [C16_roundtrip] ([In (l, b) m <-> In (l, b) sets]) they contribute no
    label to the loaded map either *)
Theorem C16_other_entries_ignored : forall parse n names (a : archive) (loaded : setmap),
  n = s_model_aeon \/ n = s_formulae_txt ->
  load_names parse (n :: names) a loaded = load_names parse names a loaded.
Proof. exact load_names_skip_metadata. Qed.

(** any entry whose extension is not "bdd" is skipped *)
Theorem C16_non_bdd_entries_ignored : forall parse n names (a : archive) (loaded : setmap),
  opt_eqb str_eqb (extension n) (Some s_bdd) = false ->
  load_names parse (n :: names) a loaded = load_names parse names a loaded.
Proof. exact load_names_skip. Qed.

(** * formulae.txt *)

(** line i of the [formulae.txt] entry is formula i, for formulae without a line feed and
    without a final carriage return ([one_line]; a formula "f\r" would be read back as "f") *)
Theorem C16_formula_order : forall print (sets : setmap) model formulae,
  Forall one_line formulae ->
  exists content,
    by_name s_formulae_txt (build_result_archive print sets model formulae) = Some content /\
    lines content = formulae /\
    forall i, nth_error (lines content) i = nth_error formulae i.
Proof.
  intros print sets model formulae Hfs. exists (formulae_txt formulae).
  split; [apply by_name_build_formulae|]. rewrite (lines_formulae_txt formulae Hfs). split; reflexivity.
Qed.

(** the formulae returned by [load_formulae] are such formulae *)
Theorem C16_loaded_formulae_one_line : forall content, Forall one_line (load_formulae content).
Proof. intros; eapply clean_all_one_line, load_formulae_clean. Qed.

Print Assumptions C16_entries.
Print Assumptions C16_entry_names.
Print Assumptions C16_model_entry.
Print Assumptions C16_admissible_exact.
Print Assumptions C16_roundtrip.
Print Assumptions C16_roundtrip_in_order.
Print Assumptions C16_roundtrip_general.
Print Assumptions C16_other_entries_ignored.
Print Assumptions C16_non_bdd_entries_ignored.
Print Assumptions C16_formula_order.
Print Assumptions C16_loaded_formulae_one_line.
