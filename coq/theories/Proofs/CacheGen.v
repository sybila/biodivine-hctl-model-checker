(** The cache invariant for plain formulae (property C04), for an arbitrary self-loop set handed
    to the evaluator that is shaped and does not read the spare copies: [steady_of G U] and
    [empty G] (the set of the mode [m_unsafe_ex]) are instances.  Under [cache_okS] and
    [dups_ok], [eval_node] returns what the cache-free evaluator [peval] returns and keeps the
    invariants ([eval_node_cacheS]).  What makes a cache hit right is [peval_rename] (CopyRel.v):
    renaming the only variable of a formula commutes with the evaluator.  Then the entry point:
    [check_trees] is [mapM singleS] in every mode with [m_ext = false].

    Names.  The suffix [S] marks a statement or definition for an arbitrary self-loop set
    [steady]; the same name without it (CacheFacts.v, C04b) is its instance at [steady_of G U]:
    [entry_ok], [cache_okL], [cache_ok] unfold to [entry_okS], [cache_okLS], [cache_okS] at
    that set, and C04b passes from the one to the other by conversion. *)
From Coq Require Import Permutation.
From HCTL Require Import Base Syntax Preprocess Canon MarkDup TT Ops Eval Pipeline Kripke HCTL.
From HCTL Require Import TTFacts OpsFacts FixFacts SemFacts HybridFacts EvalPure Main Termination.
From HCTL Require Import IndepFacts PrepFacts RoundTrip CanonFacts CanonAlpha MarkDupFacts RenameFacts LayoutFacts NoPanic CacheFacts CopyRel LexFacts.
From HCTL Require Import BaseFacts.

(** a set that reads the colour and the state only *)
Definition ignores_copies (G : genv) (S : tt) : Prop :=
  forall v w, (forall j, v (TP j) = w (TP j)) -> (forall i, v (TS i) = w (TS i)) ->
    mem (g_L G) S v = mem (g_L G) S w.

Section CacheS.
Variable ext_alnum : N -> bool.
Variable ext : bool.
Variable G : genv.
Variable names : list str.
Variable sw : switches.
Variable U : tt.
Hypothesis WF : wf_env G names U.
Variable steady : tt.
Hypothesis steady_shaped : shaped (g_L G) steady.
Hypothesis steady_copies : ignores_copies G steady.
Local Notation L := (g_L G).
Local Notation pev := (peval G names sw steady).
Local Notation good := (good ext_alnum ext G names).
Local Notation dups_ok := (dups_ok ext_alnum ext).

Definition entry_okS (k : key) (S : tt) (rn : list (str * str)) : Prop :=
  exists t0, good t0 /\ canonize (render t0) = (fst k, rn) /\ length rn <= 1
             /\ pev t0 U = Ok S.

Definition cache_okLS (ca : list (key * (tt * list (str * str)))) : Prop :=
  forall k S rn, In (k, (S, rn)) ca -> entry_okS k S rn.

Definition cache_okS (c : ectx) : Prop := cache_okLS (cache c).

Lemma pev_totalS t : good t -> exists R, pev t U = Ok R /\ shaped L R.
Proof.
  intros (A & B & C & _). destruct WF.
  apply (peval_total G names sw steady U); assumption.
Qed.

(** a cache hit returns the [peval] result of the node and never panics *)
Theorem hit_okS t canon ren dm S rn :
  good t -> canonize (render t) = (canon, ren) -> entry_okS (canon, dm) S rn ->
  exists R, rename_back G rn ren S = Ok R /\ pev t U = Ok R.
Proof.
  intros (Pl & Su & _ & W & d & DN) CT (t0 & (Pl0 & Su0 & _ & W0 & d0 & DN0) & CT0 & LEN & P0).
  cbn [fst] in CT0.
  destruct (hit_names ext_alnum ext G d d0 t t0 canon ren rn S W W0 DN DN0 Su Su0 CT CT0 LEN)
    as [(-> & -> & ->) | (x0 & x & cn & e0 & e & -> & -> & I0 & I1 & RB & ET0 & ET & SAME)].
  - exists S. split; [reflexivity | exact P0].
  - exists (substitute_hctl_var G S e0 e). split; [exact RB|].
    destruct (Nat.eq_dec e0 e) as [EQ | NE].
    + rewrite (SAME EQ). subst e0. unfold substitute_hctl_var. rewrite Nat.eqb_refl. exact P0.
    + rewrite ET. rewrite <- ET0 in P0.
      exact (peval_rename G names U WF sw steady x x0 e e0 t0 S steady_shaped steady_copies
               I1 I0 NE Pl0 P0).
Qed.

Lemma cache_okLS_ainsert k S rn ca :
  entry_okS k S rn -> cache_okLS ca -> cache_okLS (ainsert key_eqb k (S, rn) ca).
Proof.
  intros E H k' S' rn' [EQ | IN].
  - injection EQ as <- <- <-. exact E.
  - apply H. eapply in_aremove; exact IN.
Qed.

Lemma hit_ctx_okS t k c :
  cache_okS c -> dups_ok c -> cache_okS (hit_ctx t k c) /\ dups_ok (hit_ctx t k c).
Proof.
  intros CO DO. destruct (hit_ctx_sub t k c) as (HC & HD & _). split.
  - intros k' S rn IN. exact (CO k' S rn (HC _ _ IN)).
  - intros k' m IN. destruct (HD k' m IN) as [m' IN']. exact (DO k' m' IN').
Qed.

Lemma finish_okS t k save R c1 :
  good t -> fst k = fst (canonize (render t)) -> pev t U = Ok R ->
  (save = true -> length (snd (canonize (render t))) <= 1) ->
  cache_okS c1 -> dups_ok c1 ->
  exists c', finish_at k (snd (canonize (render t))) save (R, c1) = Ok (R, c')
             /\ cache_okS c' /\ dups_ok c'.
Proof.
  intros GT EK PT LEN CO DO. unfold finish_at. destruct save.
  - eexists. split; [reflexivity|]. cbn [fst snd]. split; [|exact DO].
    unfold cache_okS. cbn [cache set_cache fst snd]. apply cache_okLS_ainsert; [|exact CO].
    exists t. split; [exact GT|]. split; [|split; [apply LEN; reflexivity | exact PT]].
    rewrite EK. destruct (canonize (render t)); reflexivity.
  - exists c1. split; [reflexivity|]. split; assumption.
Qed.

(** A node under the invariants: a hit is [hit_okS]; on a miss it is enough to run [eval_miss]
    with any continuation that keeps the invariants, as [finish_at] does. *)
Lemma node_okS t c R :
  good t -> cache_okS c -> dups_ok c -> pev t U = Ok R ->
  (forall F, (forall c1, cache_okS c1 -> dups_ok c1 ->
                exists c', F (R, c1) = Ok (R, c') /\ cache_okS c' /\ dups_ok c') ->
     exists c', eval_miss G names sw steady F t U c = Ok (R, c') /\ cache_okS c' /\ dups_ok c') ->
  exists c', eval_node G names sw steady t U c = Ok (R, c') /\ pev t U = Ok R
             /\ cache_okS c' /\ dups_ok c'.
Proof.
  intros GT CO DO PT MISS.
  enough (exists R' c', eval_node G names sw steady t U c = Ok (R', c')
                        /\ (R' = R /\ cache_okS c' /\ dups_ok c'))
    as (R' & c' & E & -> & CO' & DO') by (exists c'; repeat split; assumption).
  apply node_cases.
  - intros cached cren Hit.
    destruct (hit_okS t _ _ _ cached cren GT (surjective_pairing _) (CO _ _ _ Hit)) as (R' & RB & PR).
    exists R'. split; [exact RB|]. split; [congruence | exact (hit_ctx_okS t (key_of c t) c CO DO)].
  - destruct (MISS _ (fun c1 => finish_okS t (key_of c t) _ R c1 GT eq_refl PT
                                  (save_single ext_alnum ext G names t c GT DO))) as (c' & E & I).
    exists R, c'. split; [exact E|]. split; [reflexivity | exact I].
Qed.

Theorem eval_node_cacheS : forall t c,
  good t -> cache_okS c -> dups_ok c ->
  exists R c', eval_node G names sw steady t U c = Ok (R, c') /\ pev t U = Ok R
               /\ cache_okS c' /\ dups_ok c'.
Proof.
  (* Induction on the formula.  The result [R] is fixed first: the cache-free evaluator is total
     on good trees.  By [node_okS] only the miss is left: the arguments are evaluated by the
     induction hypothesis (which also says that they return the [peval] results), so
     [eval_miss] computes what [peval] computes, and [FIN] stores it under the invariants. *)
  induction t as [a | o a IH | o a IHa b IHb | o x d a IH]; intros c GT CO DO;
    destruct (pev_totalS _ GT) as (R & PT & _); exists R;
    apply (node_okS _ c R GT CO DO PT); intros F FIN.
  - unfold eval_miss. cbn [peval is_attractor_pattern is_fixed_point_pattern] in *.
    rewrite !andb_false_r in *.
    destruct a as [nm | y | | | w]; cbn [bind] in *.
    + destruct (index_of nm names 0); [|discriminate PT]. injection PT as <-. exact (FIN c CO DO).
    + destruct (hctl_var_id G y); cbn [bind] in *; try discriminate PT.
      injection PT as <-. exact (FIN c CO DO).
    + injection PT as <-. exact (FIN c CO DO).
    + injection PT as <-. exact (FIN c CO DO).
    + discriminate PT.
  - destruct (IH c (good_sub_unary _ _ _ _ _ _ GT) CO DO) as (A & c1 & EA & PA & CO1 & DO1).
    rewrite peval_unary, PA in PT. cbn [bind] in PT.
    rewrite (eval_miss_unary G names sw steady F o a U c A c1 EA), PT. exact (FIN c1 CO1 DO1).
  - destruct (good_sub_binary _ _ _ _ _ _ _ GT) as [GA GB].
    destruct (IHa c GA CO DO) as (A & c1 & EA & PA & CO1 & DO1).
    destruct (IHb c1 GB CO1 DO1) as (B & c2 & EB & PB & CO2 & DO2).
    rewrite peval_binary, PA in PT. cbn [bind] in PT. rewrite PB in PT. cbn [bind] in PT.
    rewrite (eval_miss_binary G names sw steady F o a b U c A c1 B c2 EA EB), PT. exact (FIN c2 CO2 DO2).
  - pose proof (good_sub_hybrid _ _ _ _ _ _ _ _ GT) as GA.
    assert (d = None) as -> by (destruct GT as ((E & _) & _); exact E).
    unfold eval_miss. rewrite peval_unfold_hybrid in PT.
    destruct (use_patterns sw && is_attractor_pattern (Hybrid o x None a)) eqn:PAt.
    { destruct (hctl_var_id G (pattern_var (Hybrid o x None a))); cbn [bind] in *; try discriminate PT.
      rewrite PT. cbn [bind]. exact (FIN c CO DO). }
    destruct (use_patterns sw && is_fixed_point_pattern (Hybrid o x None a)) eqn:PFx.
    { injection PT as <-. exists c. split; [reflexivity|]. split; assumption. }
    destruct (jump_or_quantifier o) as [-> | [Ho _]].
    + (* below a jump the scope is not opened *)
      destruct (IH c GA CO DO) as (A & c1 & EA & PA & CO1 & DO1).
      rewrite EA. rewrite PA in PT. cbn [bind] in *.
      destruct (hctl_var_id G x); cbn [bind] in *; try discriminate PT.
      injection PT as <-. exact (FIN c1 CO1 DO1).
    + (* the quantifiers evaluate their body with the scope of [x] open *)
      destruct (IH (set_free c (sinsert x None (free_doms c))) GA CO DO) as (A & c1 & EA & PA & CO1 & DO1).
      assert ((let* e := hctl_var_id G x in eval_hybrid_quantifier G U U o e A) = Ok R) as PT'
        by (destruct o; try congruence; rewrite PA in PT; exact PT).
      destruct o; try congruence; rewrite EA; cbn [bind];
        (destruct (hctl_var_id G x); cbn [bind] in *; try discriminate PT');
        rewrite PT'; cbn [bind]; apply FIN; assumption.
Qed.

Lemma ctx_new_cache_okS dups : cache_okS (ctx_new dups).
Proof. intros k S rn []. Qed.

Theorem eval_all_cacheS : forall ts c,
  List.Forall good ts -> cache_okS c -> dups_ok c ->
  exists rs, eval_all G names sw steady U ts c = Ok rs
             /\ List.Forall2 (fun t R => pev t U = Ok R) ts rs.
Proof.
  intros ts c F CO DO.
  apply (eval_all_inv G names sw steady U (fun c => cache_okS c /\ dups_ok c) good); [|exact F | split; assumption].
  intros t c0 GT [CO0 DO0]. destruct (eval_node_cacheS t c0 GT CO0 DO0) as (R & c' & E & P & I').
  exists R, c'. auto.
Qed.

Theorem eval_node_cache_transparentS t c R c' :
  good t -> cache_okS c -> dups_ok c ->
  eval_node G names sw steady t U c = Ok (R, c') ->
  pev t U = Ok R /\ cache_okS c' /\ dups_ok c'.
Proof.
  intros GT CO DO E.
  destruct (eval_node_cacheS t c GT CO DO) as (R0 & c0 & E0 & P & CO' & DO').
  rewrite E in E0. injection E0 as <- <-. repeat split; assumption.
Qed.

Theorem eval_node_cache_totalS t c :
  good t -> cache_okS c -> dups_ok c ->
  exists R c', eval_node G names sw steady t U c = Ok (R, c').
Proof.
  intros GT CO DO.
  destruct (eval_node_cacheS t c GT CO DO) as (R0 & c0 & E0 & _). exists R0, c0. exact E0.
Qed.

Theorem batch_transparentS ts c rs :
  List.Forall good ts -> cache_okS c -> dups_ok c ->
  eval_all G names sw steady U ts c = Ok rs ->
  List.Forall2 (fun t R => pev t U = Ok R) ts rs.
Proof.
  intros F CO DO E. destruct (eval_all_cacheS ts c F CO DO) as (rs0 & E0 & F2).
  rewrite E in E0. injection E0 as <-. exact F2.
Qed.

Theorem batch_transparent_markedS ts rs :
  List.Forall good ts ->
  eval_all G names sw steady U ts (ctx_new (mark_duplicates ts)) = Ok rs ->
  List.Forall2 (fun t R => pev t U = Ok R) ts rs.
Proof.
  intros F E. apply (batch_transparentS ts (ctx_new (mark_duplicates ts)) rs F); try assumption.
  - apply ctx_new_cache_okS.
  - apply mark_duplicates_dups_ok. eapply Forall_impl; [|exact F]. intro t. apply good_named.
Qed.

End CacheS.

Lemma empty_ignores_copies G : ignores_copies G (empty G).
Proof. intros v w _ _. rewrite !mem_empty. reflexivity. Qed.

Lemma steady_of_ignores_copies G names U : wf_env G names U -> ignores_copies G (steady_of G U).
Proof.
  intros WF v w H1 H2. apply eq_true_iff_eq. destruct WF.
  rewrite !mem_steady_of by assumption. rewrite (wf_U_colour v w H1).
  split; intros [Hu Hs]; (split; [exact Hu|]); intros i Hi.
  - rewrite <- (enabled_ignores_copies G wf_upd_extras i v w H1 H2). apply Hs, Hi.
  - rewrite (enabled_ignores_copies G wf_upd_extras i v w H1 H2). apply Hs, Hi.
Qed.

Lemma wf_steady_shaped G names U : wf_env G names U -> shaped (g_L G) (steady_of G U).
Proof. intro WF. destruct WF. apply shaped_steady_of; assumption. Qed.

Section WorldS.
Variable ext_alnum : N -> bool.
Variable ext : bool.
Variable w : world.
Variable k : nat.
Hypothesis upd_ok : List.Forall (shaped (Lpn (w_p w) (w_n w))) (w_upd w).
Hypothesis unit_ok : shaped (Lpn (w_p w) (w_n w)) (w_unit w).
Hypothesis unit_colour : forall v v', (forall j, v (TP j) = v' (TP j)) ->
  mem (Lpn (w_p w) (w_n w)) (w_unit w) v = mem (Lpn (w_p w) (w_n w)) (w_unit w) v'.
Hypothesis names_ok : length (w_names w) <= w_n w.

Local Notation G := (genv_of w k).
Local Notation U := (unit_of w k).
Local Notation good := (good ext_alnum ext G (w_names w)).

(** the self-loop set of a mode *)
Definition steady_of_mode (m : mode) : tt :=
  if m_unsafe_ex m then empty G else steady_of G U.

(** what the entry point returns for one formula, in any plain mode *)
Definition singleS (m : mode) (t : tree) : res tt :=
  let* r := peval G (w_names w) {| use_patterns := negb (m_nopatterns m) |} (steady_of_mode m) t U in
  if m_sanitize m then sanitize G r else Ok r.

Lemma singleS_single m : m_unsafe_ex m = false -> singleS m = single w k m.
Proof. intro H. unfold single, singleS, steady_of_mode. rewrite H. reflexivity. Qed.

Theorem check_trees_mapS m ts :
  m_ext m = false -> List.Forall good ts ->
  check_trees w k m ts [] [] = mapM (singleS m) ts.
Proof.
  intros He F. unfold check_trees. rewrite He.
  pose proof (world_wf w k upd_ok unit_ok unit_colour names_ok) as WF.
  set (sw := {| use_patterns := negb (m_nopatterns m) |}).
  change (if m_unsafe_ex m then empty G else steady_of G U) with (steady_of_mode m).
  assert (shaped (g_L G) (steady_of_mode m)) as SS.
  { unfold steady_of_mode. destruct (m_unsafe_ex m); [apply shaped_empty | exact (wf_steady_shaped _ _ _ WF)]. }
  assert (ignores_copies G (steady_of_mode m)) as SC.
  { unfold steady_of_mode. destruct (m_unsafe_ex m);
      [apply empty_ignores_copies | eapply steady_of_ignores_copies; exact WF]. }
  pose proof (entry_dups_ok ext_alnum ext (m_nocache m) ts (Forall_impl _ (good_named _ _ _ _) F)) as DO.
  destruct (eval_all_cacheS ext_alnum ext G (w_names w) sw U WF (steady_of_mode m) SS SC ts _ F
              (ctx_new_cache_okS ext_alnum ext G (w_names w) sw U (steady_of_mode m) _) DO)
    as (rs & E & F2).
  rewrite E. cbn [bind]. exact (post_map_gen G _ _ ts rs F2).
Qed.

Local Notation ctm := check_trees_mapS.

Theorem cache_mode_irrelevantS m m' ts :
  m_ext m = false -> m_ext m' = false -> m_unsafe_ex m = m_unsafe_ex m' ->
  m_sanitize m = m_sanitize m' -> m_nopatterns m = m_nopatterns m' ->
  List.Forall good ts ->
  check_trees w k m ts [] [] = check_trees w k m' ts [] [].
Proof.
  intros He He' Hu Hs Hp F. rewrite (ctm m ts He F), (ctm m' ts He' F).
  unfold singleS, steady_of_mode. rewrite Hs, Hp, Hu. reflexivity.
Qed.

Theorem batch_positionS m ts rs i dt dr :
  m_ext m = false -> List.Forall good ts ->
  check_trees w k m ts [] [] = Ok rs -> i < length ts ->
  check_trees w k m [nth i ts dt] [] [] = Ok [nth i rs dr].
Proof. intro He. exact (run_position _ _ _ (fun l => ctm m l He) ts rs i dt dr). Qed.

Theorem batch_permutationS m ts ts' rs :
  m_ext m = false -> List.Forall good ts -> Permutation ts ts' ->
  check_trees w k m ts [] [] = Ok rs ->
  exists rs', check_trees w k m ts' [] [] = Ok rs'
              /\ Permutation (combine ts rs) (combine ts' rs').
Proof. intro He. exact (run_permutation _ _ _ (fun l => ctm m l He) (Leaf false) ts ts' rs). Qed.

Theorem batch_repetitionS m t ts r1 r2 rs :
  m_ext m = false -> List.Forall good (t :: t :: ts) ->
  check_trees w k m (t :: t :: ts) [] [] = Ok (r1 :: r2 :: rs) ->
  r1 = r2 /\ check_trees w k m (t :: ts) [] [] = Ok (r1 :: rs).
Proof. intro He. exact (run_repetition _ _ _ (fun l => ctm m l He) t ts r1 r2 rs). Qed.

End WorldS.

Theorem model_check_cache_mode_irrelevantS ea (w : world) k m m' ctx fs :
  List.Forall (shaped (Lpn (w_p w) (w_n w))) (w_upd w) ->
  shaped (Lpn (w_p w) (w_n w)) (w_unit w) ->
  (forall v v', (forall j, v (TP j) = v' (TP j)) ->
     mem (Lpn (w_p w) (w_n w)) (w_unit w) v = mem (Lpn (w_p w) (w_n w)) (w_unit w) v') ->
  length (w_names w) <= w_n w ->
  m_ext m = false -> m_ext m' = false -> m_unsafe_ex m = m_unsafe_ex m' ->
  m_sanitize m = m_sanitize m' -> m_nopatterns m = m_nopatterns m' ->
  model_check ea w k m ctx fs = model_check ea w k m' ctx fs.
Proof.
  intros H1 H2 H3 H4 He He' Hu Hs Hp. unfold model_check. rewrite He, He'.
  destruct (validate_all ea false (w_names w) k ctx fs) as [r| | |] eqn:V; try reflexivity.
  destruct (validate_all_good ea w k ctx fs r V) as (ts' & -> & F). cbn [bind fst snd].
  apply (cache_mode_irrelevantS ea false w k H1 H2 H3 H4); assumption.
Qed.
