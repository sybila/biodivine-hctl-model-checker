(** Every operator of Model/Ops.v maps related sets to related sets, for the relation on sets
    that a relation [R] on valuations induces ([trel], for every [R] that is a [vsim]); proved
    once here and used at two relations:
    - [crel e e0] (CacheFacts.v, "copy [e] of the one valuation is copy [e0] of the other"),
      which gives [srel]: the cache-free evaluator is parametric in the spare copy that holds a
      variable -- for ANY self-loop set handed to it that does not read the spare copies (in
      particular [steady_of G U] and [empty G]) -- [peval_ext_rel].  Consequence
      ([peval_rename]): for a formula with a single variable name,
        peval (the formula with the name x) = substitute_hctl_var (peval (... with x0)) e0 e;
    - [vagree A] (IndepFacts.v, same colour, state and copies in [A]), in CachedFacts.v: the
      result of a formula reads the copies of its free variables only. *)
From HCTL Require Import Base Syntax Preprocess Canon MarkDup TT Ops Eval Pipeline Kripke HCTL.
From HCTL Require Import TTFacts OpsFacts FixFacts SemFacts HybridFacts EvalPure Main Termination.
From HCTL Require Import IndepFacts PrepFacts RoundTrip CanonFacts CanonAlpha MarkDupFacts RenameFacts CacheFacts.
From HCTL Require Import ExtSem ExtFix ExtFacts ExtHybrid ExtEval.
From HCTL Require Import BaseFacts.

(** outcomes of the same kind, related sets *)
Definition rrel (R : tt -> tt -> Prop) (r r0 : res tt) : Prop :=
  match r, r0 with
  | Ok a, Ok a0 => R a a0
  | Err x, Err y => x = y
  | Panic p, Panic q => p = q
  | OutOfFuel, OutOfFuel => True
  | _, _ => False
  end.

Lemma rrel_bind (P Q : tt -> tt -> Prop) r r0 f f0 :
  rrel P r r0 -> (forall a a0, P a a0 -> rrel Q (f a) (f0 a0)) ->
  rrel Q (bind r f) (bind r0 f0).
Proof. destruct r, r0; cbn [rrel bind]; intros H K; try contradiction; auto. Qed.

(** ** a relation between valuations, lifted to sets

    [trel G R a a0]: the sets [a] and [a0] have the same members up to [R].  [srel] below is
    [trel G (crel e e0)]; [trel G (vagree A) a a] says that [a] reads the colour, the state and
    the copies in [A] only ([reads], CachedFacts.v).  The fixed-point loops of the two sides
    run in lockstep, because related sets are equal or different together when [R] is total in
    both directions, so no termination argument and no semantics are needed. *)
Definition trel (G : genv) (R : val -> val -> Prop) (a a0 : tt) : Prop :=
  shaped (g_L G) a /\ shaped (g_L G) a0 /\ forall v w, R v w -> mem (g_L G) a v = mem (g_L G) a0 w.

(** what the operators need of [R]: it keeps colour and state, is closed under changing the
    state on both sides, and is total in both directions *)
Record vsim (R : val -> val -> Prop) : Prop := {
  vsim_base : forall v w, R v w -> forall g, is_extra_tag g = false -> v g = w g;
  vsim_flip : forall i v w, R v w -> R (vflip (TS i) v) (vflip (TS i) w);
  vsim_state : forall u v w, R v w -> R (with_state u v) (with_state u w);
  vsim_left : forall w, exists v, R v w;
  vsim_right : forall v, exists w, R v w }.

Lemma rrel_diag (P : tt -> tt -> Prop) r x : rrel P r r -> r = Ok x -> P x x.
Proof. intros H ->. exact H. Qed.

Section SetRel.
Context {G : genv} {names : list str} {U : tt} (WF : wf_env G names U).
Local Notation L := (g_L G).
Local Notation n := (g_n G).
Local Notation k := (g_k G).
Local Notation ND := (wf_nodup _ _ _ WF).
Local Notation trel := (trel G).

Lemma trel_mono (R R' : val -> val -> Prop) a a0 :
  (forall v w, R v w -> R' v w) -> trel R' a a0 -> trel R a a0.
Proof. intros K (S1 & S2 & H). split; [exact S1|]. split; [exact S2|]. intros v w X. apply H, K, X. Qed.

Lemma trel_const (R : val -> val -> Prop) b : trel R (const L b) (const L b).
Proof. split; [apply shaped_const|]. split; [apply shaped_const|]. intros. rewrite !mem_const. reflexivity. Qed.

Lemma trel_map2 (R : val -> val -> Prop) f a a0 b b0 : trel R a a0 -> trel R b b0 -> trel R (map2 f a b) (map2 f a0 b0).
Proof.
  intros (S1 & S2 & H) (S3 & S4 & K). split; [apply shaped_map2; assumption|].
  split; [apply shaped_map2; assumption|]. intros v w Hr.
  rewrite !mem_map2 by assumption. rewrite (H v w Hr), (K v w Hr). reflexivity.
Qed.

Lemma trel_fold (R : val -> val -> Prop) f (g g0 : nat -> tt) l : forall acc acc0,
  (forall i, In i l -> trel R (g i) (g0 i)) -> trel R acc acc0 ->
  trel R (fold_left (fun a i => map2 f a (g i)) l acc) (fold_left (fun a i => map2 f a (g0 i)) l acc0).
Proof.
  induction l as [|x l IH]; intros acc acc0 Hg Ha; cbn [fold_left]; [exact Ha|].
  apply IH; [intros i Hi; apply Hg; right; exact Hi|].
  apply trel_map2; [exact Ha | apply Hg; left; reflexivity].
Qed.

Lemma trel_lit (R : val -> val -> Prop) g g0 : In g L -> In g0 L -> (forall v w, R v w -> v g = w g0) ->
  trel R (lit L g) (lit L g0).
Proof.
  intros IN IN0 H. split; [apply shaped_lit|]. split; [apply shaped_lit|]. intros v w Hr.
  rewrite !mem_lit by (try apply ND; assumption). apply H, Hr.
Qed.

(** a set that reads the colour and the state only is related to itself *)
Lemma trel_extras_indep (R : val -> val -> Prop) S : (forall v w, R v w -> forall g, is_extra_tag g = false -> v g = w g) ->
  shaped L S -> extras_indep G S -> trel R S S.
Proof. intros B SS X. split; [exact SS|]. split; [exact SS|]. intros v w Hr. apply X, B, Hr. Qed.

(** projecting the state out on both sides; projecting copy [e] out on one side and copy
    [e0] on the other: [R] relates the bodies, [R'] the results *)
Lemma trel_exq_state (R : val -> val -> Prop) a a0 : (forall u v w, R v w -> R (with_state u v) (with_state u w)) ->
  trel R a a0 -> trel R (exq is_state_tag L a) (exq is_state_tag L a0).
Proof.
  intros K (S1 & S2 & H). split; [apply shaped_exq, S1|]. split; [apply shaped_exq, S2|].
  intros v w Hr. apply eq_true_iff_eq. rewrite !(mem_exq_state G ND) by assumption.
  split; intros [u Hm]; exists u; [rewrite <- (H _ _ (K u v w Hr)) | rewrite (H _ _ (K u v w Hr))]; exact Hm.
Qed.

Lemma trel_exq_copy (R R' : val -> val -> Prop) e e0 a a0 :
  (forall u v w, R' v w -> R (set_copy e u v) (set_copy e0 u w)) ->
  trel R a a0 -> trel R' (exq (is_copy e) L a) (exq (is_copy e0) L a0).
Proof.
  intros K (S1 & S2 & H). split; [apply shaped_exq, S1|]. split; [apply shaped_exq, S2|].
  intros v w Hr. apply eq_true_iff_eq. rewrite !(mem_exq_copy G ND) by assumption.
  split; intros [u Hm]; exists u; [rewrite <- (H _ _ (K u v w Hr)) | rewrite (H _ _ (K u v w Hr))]; exact Hm.
Qed.

Section Operators.
Context {R : val -> val -> Prop} (RS : vsim R).
Local Notation related := (trel R).

Lemma trel_eq a a0 b b0 : related a a0 -> related b b0 -> (a = b <-> a0 = b0).
Proof.
  intros (S1 & S2 & H) (S3 & S4 & K). split; intro E.
  - apply (tt_ext L); try assumption; [apply ND|]. intro w. destruct (vsim_left R RS w) as [v Hr].
    rewrite <- (H _ _ Hr), <- (K _ _ Hr), E. reflexivity.
  - apply (tt_ext L); try assumption; [apply ND|]. intro v. destruct (vsim_right R RS v) as [w Hr].
    rewrite (H _ _ Hr), (K _ _ Hr), E. reflexivity.
Qed.

Lemma trel_eqb a a0 b b0 : related a a0 -> related b b0 -> tt_eqb a b = tt_eqb a0 b0.
Proof.
  intros H K. apply eq_true_iff_eq. rewrite !tt_eqb_eq. apply trel_eq; assumption.
Qed.

Lemma trel_is_empty a a0 : related a a0 -> is_empty a = is_empty a0.
Proof.
  intros (S1 & S2 & H). apply eq_true_iff_eq.
  rewrite (is_empty_iff L a ND S1), (is_empty_iff L a0 ND S2). split; intro E.
  - intro w. destruct (vsim_left R RS w) as [v Hr]. rewrite <- (H _ _ Hr). apply E.
  - intro v. destruct (vsim_right R RS v) as [w Hr]. rewrite (H _ _ Hr). apply E.
Qed.

Lemma trel_top : related U U.
Proof.
  split; [apply (wf_U_shaped _ _ _ WF)|]. split; [apply (wf_U_shaped _ _ _ WF)|].
  intros v w Hr. apply (wf_U_colour _ _ _ WF). intro j. apply (vsim_base R RS v w Hr). reflexivity.
Qed.

Lemma trel_state_lit i : i < n -> related (lit L (TS i)) (lit L (TS i)).
Proof.
  intro Hi. apply trel_lit; try apply (wf_TS_in _ _ _ WF), Hi.
  intros v w Hr. apply (vsim_base R RS v w Hr). reflexivity.
Qed.

Lemma trel_can_update i : i < n -> related (can_update G i) (can_update G i).
Proof.
  intro Hi. unfold can_update. apply trel_map2; [|apply trel_state_lit, Hi].
  apply trel_extras_indep; [apply (vsim_base R RS) | apply (wf_upd_shaped _ _ _ WF)|].
  intros v w H. apply (wf_upd_extras _ _ _ WF), H.
Qed.

Lemma trel_flip i a a0 : related a a0 -> related (flip (TS i) L a) (flip (TS i) L a0).
Proof.
  intros (S1 & S2 & H). split; [apply shaped_flip; assumption|].
  split; [apply shaped_flip; assumption|]. intros v w Hr.
  rewrite !mem_flip by (try apply ND; assumption). apply H, (vsim_flip R RS), Hr.
Qed.

Lemma trel_var_pre i a a0 : i < n -> related a a0 -> related (var_pre G i a) (var_pre G i a0).
Proof. intros Hi H. unfold var_pre. apply trel_map2; [apply trel_flip, H | apply trel_can_update, Hi]. Qed.

Lemma trel_pre a a0 : related a a0 -> related (pre G a) (pre G a0).
Proof.
  intro H. unfold pre.
  apply (trel_fold R orb (fun i => var_pre G i a) (fun i => var_pre G i a0)); [|apply trel_const].
  intros i Hi. apply trel_var_pre; [apply in_range, Hi | exact H].
Qed.

Lemma trel_steady_of a a0 : related a a0 -> related (steady_of G a) (steady_of G a0).
Proof.
  intro H. unfold steady_of. apply (trel_fold R _ (can_update G) (can_update G)); [|exact H].
  intros i Hi. apply trel_can_update, in_range, Hi.
Qed.

Variable steady : tt.
Hypothesis steady_rel : related steady steady.

(** the current units of the two sides: [Ua] ~ [Ub] *)
Section Units.
Variables Ua Ub : tt.
Hypothesis HU : related Ua Ub.

Lemma trel_ex a a0 : related a a0 -> related (eval_ex G a steady) (eval_ex G a0 steady).
Proof. intro H. unfold eval_ex. apply trel_map2; [apply trel_pre, H | apply trel_map2; assumption]. Qed.

Lemma trel_neg a a0 : related a a0 -> related (eval_neg Ua a) (eval_neg Ub a0).
Proof. intro H. unfold eval_neg. apply trel_map2; [exact HU | exact H]. Qed.

Lemma trel_ax a a0 : related a a0 -> related (eval_ax G Ua a steady) (eval_ax G Ub a0 steady).
Proof. intro H. unfold eval_ax. apply trel_neg, trel_ex, trel_neg, H. Qed.

Lemma trel_equiv a a0 b b0 : related a a0 -> related b b0 -> related (eval_equiv Ua a b) (eval_equiv Ub a0 b0).
Proof.
  intros H K. unfold eval_equiv. apply trel_map2; apply trel_map2; try assumption; apply trel_neg; assumption.
Qed.

(** ** the loops run in lockstep *)
Local Notation rr := (rrel related).

Lemma while_neq_rel F F0 : (forall a a0, related a a0 -> related (F a) (F0 a0)) ->
  forall fuel old old0 new new0, related old old0 -> related new new0 ->
    rr (while_neq fuel F old new) (while_neq fuel F0 old0 new0).
Proof.
  intros HF. induction fuel as [|f IH]; intros old old0 new new0 Ho Hn; cbn [while_neq];
    rewrite <- (trel_eqb _ _ _ _ Ho Hn); destruct (tt_eqb old new); cbn [rrel]; auto.
Qed.

Lemma sat_step_rel vars : (forall i, In i vars -> i < n) ->
  forall p p0 r r0, related p p0 -> related r r0 ->
    match sat_step G vars p r, sat_step G vars p0 r0 with
    | Some a, Some a0 => related a a0
    | None, None => True
    | _, _ => False
    end.
Proof.
  induction vars as [|i vars IH]; intros Hv p p0 r r0 Hp Hr; cbn [sat_step]; [exact I|].
  assert (related (tminus (tand p (var_pre G i r)) r) (tminus (tand p0 (var_pre G i r0)) r0)) as Hu.
  { apply trel_map2; [|exact Hr]. apply trel_map2; [exact Hp|].
    apply trel_var_pre; [apply Hv; left; reflexivity | exact Hr]. }
  rewrite <- (trel_is_empty _ _ Hu).
  destruct (is_empty (tminus (tand p (var_pre G i r)) r)).
  - apply IH; try assumption. intros j Hj. apply Hv. right. exact Hj.
  - apply trel_map2; assumption.
Qed.

Lemma eu_loop_rel : forall fuel p p0 r r0, related p p0 -> related r r0 ->
  rr (eu_loop G fuel p r) (eu_loop G fuel p0 r0).
Proof.
  induction fuel as [|f IH]; intros p p0 r r0 Hp Hr; cbn [eu_loop]; [exact I|].
  assert (forall i, In i (rev (range n)) -> i < n) as Hv
    by (intros i Hi; apply in_range, in_rev, Hi).
  pose proof (sat_step_rel (rev (range n)) Hv p p0 r r0 Hp Hr) as K.
  destruct (sat_step G (rev (range n)) p r), (sat_step G (rev (range n)) p0 r0);
    try contradiction; [apply IH; assumption | exact Hr].
Qed.

Lemma eu_rel a a0 b b0 : related a a0 -> related b b0 ->
  rr (eval_eu_saturated G a b) (eval_eu_saturated G a0 b0).
Proof. intros. unfold eval_eu_saturated. apply eu_loop_rel; assumption. Qed.

Lemma ef_rel a a0 : related a a0 -> rr (eval_ef_saturated G Ua a) (eval_ef_saturated G Ub a0).
Proof. intro H. unfold eval_ef_saturated. apply eu_rel; [exact HU | exact H]. Qed.

Lemma eg_rel a a0 : related a a0 -> rr (eval_eg G a steady) (eval_eg G a0 steady).
Proof.
  intro H. unfold eval_eg. apply while_neq_rel; [|exact H | apply trel_const].
  intros x x0 Hx. apply trel_map2; [exact Hx | apply trel_ex, Hx].
Qed.

Lemma au_rel a a0 b b0 : related a a0 -> related b b0 ->
  rr (eval_au G Ua a b steady) (eval_au G Ub a0 b0 steady).
Proof.
  intros H K. unfold eval_au. apply while_neq_rel; [|exact K | apply trel_const].
  intros x x0 Hx. apply trel_map2; [exact Hx|]. apply trel_map2; [exact H | apply trel_ax, Hx].
Qed.

Lemma rr_neg r r0 : rr r r0 ->
  rr (let* x := r in Ok (eval_neg Ua x)) (let* x := r0 in Ok (eval_neg Ub x)).
Proof. intro H. eapply rrel_bind; [exact H|]. intros a a0 K. cbn [rrel]. apply trel_neg, K. Qed.

Lemma af_rel a a0 : related a a0 -> rr (eval_af G Ua a steady) (eval_af G Ub a0 steady).
Proof. intro H. unfold eval_af. apply rr_neg, eg_rel, trel_neg, H. Qed.

Lemma ag_rel a a0 : related a a0 -> rr (eval_ag G Ua a) (eval_ag G Ub a0).
Proof. intro H. unfold eval_ag. apply rr_neg, ef_rel, trel_neg, H. Qed.

Lemma ew_rel a a0 b b0 : related a a0 -> related b b0 ->
  rr (eval_ew G Ua a b steady) (eval_ew G Ub a0 b0 steady).
Proof.
  intros H K. unfold eval_ew. apply rr_neg, au_rel; [apply trel_neg, K|].
  apply trel_map2; apply trel_neg; assumption.
Qed.

Lemma aw_rel a a0 b b0 : related a a0 -> related b b0 -> rr (eval_aw G Ua a b) (eval_aw G Ub a0 b0).
Proof.
  intros H K. unfold eval_aw. apply rr_neg, eu_rel; [apply trel_neg, K|].
  apply trel_map2; apply trel_neg; assumption.
Qed.

Lemma trel_unary o a a0 : related a a0 -> rr (eval_unary G Ua steady o a) (eval_unary G Ub steady o a0).
Proof.
  intro H. destruct o; cbn [eval_unary rrel].
  - apply trel_neg, H.
  - apply trel_ex, H.
  - apply trel_ax, H.
  - apply ef_rel, H.
  - apply af_rel, H.
  - apply eg_rel, H.
  - apply ag_rel, H.
Qed.

Lemma trel_binary o a a0 b b0 : related a a0 -> related b b0 ->
  rr (eval_binary G Ua steady o a b) (eval_binary G Ub steady o a0 b0).
Proof.
  intros H K. destruct o; cbn [eval_binary rrel].
  - apply trel_map2; assumption.
  - apply trel_map2; assumption.
  - unfold eval_xor. apply trel_neg, trel_equiv; assumption.
  - unfold eval_imp. apply trel_map2; [apply trel_neg, H | exact K].
  - apply trel_equiv; assumption.
  - apply eu_rel; assumption.
  - apply au_rel; assumption.
  - apply ew_rel; assumption.
  - apply aw_rel; assumption.
Qed.

Lemma trel_prop i : i < n -> related (eval_prop G Ua i) (eval_prop G Ub i).
Proof. intro Hi. unfold eval_prop. apply trel_map2; [apply trel_state_lit, Hi | exact HU]. Qed.

(** ** hybrid operators: the variable is in copy [e] on the one side, in copy [e0] on the other *)
Section Hybrid.
Variables e e0 : nat.
Hypothesis He : e < k.
Hypothesis He0 : e0 < k.
Hypothesis R_var : forall v w, R v w -> forall i, v (TX i e) = w (TX i e0).

Lemma trel_cmp : related (comparator_var_state G Ua e) (comparator_var_state G Ub e0).
Proof.
  pose proof HU as (SUa & SUb & HUm).
  split; [apply shaped_comparator, SUa|]. split; [apply shaped_comparator, SUb|].
  intros v w Hr. apply eq_true_iff_eq. destruct WF.
  rewrite !mem_comparator by assumption.
  rewrite (HUm v w Hr). unfold copy_is_state.
  assert (forall i, v (TS i) = w (TS i)) as H2 by (intro i; apply (vsim_base R RS v w Hr); reflexivity).
  split; intros [Hu Hc]; (split; [exact Hu|]); intros i Hi.
  - rewrite <- (R_var v w Hr), <- H2. apply Hc, Hi.
  - rewrite (R_var v w Hr), H2. apply Hc, Hi.
Qed.

Lemma trel_jump a a0 : related a a0 -> related (eval_jump G Ua a e) (eval_jump G Ub a0 e0).
Proof.
  intro H. unfold eval_jump, project_out_bn_vars.
  apply (trel_exq_state R _ _ (vsim_state R RS)), trel_map2; [apply trel_cmp | exact H].
Qed.

(** the restricted unit of a quantifier with a domain *)
Lemma trel_restricted dset : related dset dset ->
  related (tand Ua (compute_valid_domain_for_var G Ua dset e))
       (tand Ub (compute_valid_domain_for_var G Ub dset e0)).
Proof.
  intro HD. apply trel_map2; [exact HU|]. unfold compute_valid_domain_for_var, project_out_bn_vars.
  apply (trel_exq_state R _ _ (vsim_state R RS)), trel_map2; [exact HD | apply trel_cmp].
Qed.

End Hybrid.
End Units.
End Operators.

(** ** a quantifier over the variable in copy [e] / [e0]: [R] relates what is computed inside
    its scope (units, body), [R'] the results, which do not read the copy *)
Section Quantifier.
Context {R R' : val -> val -> Prop} (RS : vsim R).
Variables e e0 : nat.
Hypothesis He : e < k.
Hypothesis He0 : e0 < k.
Hypothesis R_var : forall v w, R v w -> forall i, v (TX i e) = w (TX i e0).
Hypothesis R_lift : forall u v w, R' v w -> R (set_copy e u v) (set_copy e0 u w).
Variables Ua Ub : tt.
Hypothesis HU' : trel R' Ua Ub.
Hypothesis HU : trel R Ua Ub.

Lemma trel_bind a a0 : trel R a a0 -> trel R' (eval_bind G Ua a e) (eval_bind G Ub a0 e0).
Proof.
  intro H. unfold eval_bind, project_out_hctl_var. apply (trel_exq_copy R R' e e0 _ _ R_lift).
  apply trel_map2; [apply (trel_cmp RS Ua Ub HU e e0 He He0 R_var) | exact H].
Qed.

Lemma trel_exists a a0 : trel R a a0 -> trel R' (eval_exists G a e) (eval_exists G a0 e0).
Proof. intro H. unfold eval_exists, project_out_hctl_var. apply (trel_exq_copy R R' e e0 _ _ R_lift), H. Qed.

(** [Ura], [Urb]: the (possibly restricted) units of the body *)
Lemma trel_quantifier Ura Urb o a a0 : trel R Ura Urb -> trel R a a0 ->
  rrel (trel R') (eval_hybrid_quantifier G Ua Ura o e a) (eval_hybrid_quantifier G Ub Urb o e0 a0).
Proof.
  intros HR H. destruct o; cbn [eval_hybrid_quantifier rrel]; try reflexivity.
  - apply trel_bind, trel_map2; [exact H | exact HR].
  - apply trel_exists, trel_map2; [exact H | exact HR].
  - unfold eval_neg. apply trel_map2; [exact HU'|]. apply trel_exists, trel_map2; [exact HR | exact H].
Qed.

Lemma trel_attractors : rrel (trel R') (attractors G Ua e) (attractors G Ub e0).
Proof.
  unfold attractors.
  apply (rrel_bind (trel R)); [apply (ef_rel RS Ua Ub HU); unfold eval_hctl_var; apply (trel_cmp RS Ua Ub HU e e0 He He0 R_var)|].
  intros a a0 H. eapply rrel_bind; [apply (ag_rel RS Ua Ub HU), H|].
  intros b b0 K. cbn [rrel]. apply trel_bind, trel_map2; [exact K | exact HU].
Qed.

End Quantifier.
End SetRel.

Section CopyRel.
Variable G : genv.
Variable names : list str.
Variable U : tt.
Hypothesis WF : wf_env G names U.
Local Notation L := (g_L G).
Local Notation n := (g_n G).
Local Notation k := (g_k G).

Variables e e0 : nat.

Definition srel (a a0 : tt) : Prop :=
  shaped L a /\ shaped L a0 /\ forall v w, crel e e0 v w -> mem L a v = mem L a0 w.

(** [crel e e0] is a [vsim]: every valuation is the right partner of its copy [e] := its
    copy [e0], and the left partner of its copy [e0] := its copy [e] *)
Lemma crel_vsim : vsim (crel e e0).
Proof.
  split.
  - apply crel_nonextra.
  - intros i v w. apply crel_flip.
  - intros u v w (H1 & H2 & H3). split; [exact H1|]. split; [reflexivity | exact H3].
  - intro w. exists (copy_from e e0 w).
    split; [|split]; intros; cbn [copy_from]; try reflexivity. rewrite Nat.eqb_refl. reflexivity.
  - intro v. exists (copy_from e0 e v). apply crel_copy_from.
Qed.

Lemma crel_var v w : crel e e0 v w -> forall i, v (TX i e) = w (TX i e0).
Proof. intros (_ & _ & H). exact H. Qed.

Lemma crel_lift u v w : crel e e0 v w -> crel e e0 (set_copy e u v) (set_copy e0 u w).
Proof. apply crel_set_copy. reflexivity. Qed.

(** a set that reads the colour and the state only is related to itself *)
Lemma srel_self S : shaped L S ->
  (forall v w, (forall j, v (TP j) = w (TP j)) -> (forall i, v (TS i) = w (TS i)) ->
     mem L S v = mem L S w) -> srel S S.
Proof.
  intros SS H. split; [exact SS|]. split; [exact SS|]. intros v w (H1 & H2 & _). apply H; assumption.
Qed.

(** the comparators need the two copies to exist *)
Hypothesis He : e < k.
Hypothesis He0 : e0 < k.

Variable steady : tt.
Hypothesis steady_rel : srel steady steady.

Lemma cmp_rel Ua Ub : srel Ua Ub -> srel (comparator_var_state G Ua e) (comparator_var_state G Ub e0).
Proof. intro HU. exact (trel_cmp WF crel_vsim Ua Ub HU e e0 He He0 crel_var). Qed.

Lemma quantifier_rel Ua Ub Ura Urb o a a0 : srel Ua Ub -> srel Ura Urb -> srel a a0 ->
  rrel srel (eval_hybrid_quantifier G Ua Ura o e a) (eval_hybrid_quantifier G Ub Urb o e0 a0).
Proof.
  intros HU HR H. exact (trel_quantifier WF crel_vsim e e0 He He0 crel_var crel_lift Ua Ub HU HU Ura Urb o a a0 HR H).
Qed.

Local Notation rr := (rrel srel).

(** ** the evaluators *)

Variable sw : switches.
Variables x x0 : str.
Hypothesis Hx : hctl_var_id G x = Ok e.
Hypothesis Hx0 : hctl_var_id G x0 = Ok e0.

(* closes "the pattern test does not see the name": case analysis on every tree, atom and
   operator variable under [vmap] down to the depth of the two patterns, then both sides
   compare the constant name with itself *)
Ltac pattern_crush :=
  repeat (cbn [vmap is_attractor_pattern is_fixed_point_pattern]; try reflexivity;
          match goal with
          | |- context [vmap _ ?t] => is_var t; destruct t
          | |- context [match ?o with _ => _ end] => is_var o; destruct o
          end);
  cbn [vmap is_attractor_pattern is_fixed_point_pattern]; rewrite ?str_eqb_refl; try reflexivity.

Lemma attractor_pattern_vmap o y d a :
  is_attractor_pattern (vmap (fun _ => x) (Hybrid o y d a))
  = is_attractor_pattern (vmap (fun _ => x0) (Hybrid o y d a)).
Proof. pattern_crush. Qed.

Lemma fixed_point_pattern_vmap o y d a :
  is_fixed_point_pattern (vmap (fun _ => x) (Hybrid o y d a))
  = is_fixed_point_pattern (vmap (fun _ => x0) (Hybrid o y d a)).
Proof. pattern_crush. Qed.

Variables wild doms : list (str * tt).
Hypothesis wild_rel : forall l s, alookup str_eqb l wild = Some s -> srel s s.
Hypothesis doms_rel : forall l s, alookup str_eqb l doms = Some s -> srel s s.

Local Notation pevx := (peval_ext G names sw steady wild doms).

Theorem peval_ext_rel : forall s Ua Ub, srel Ua Ub ->
  rr (pevx (vmap (fun _ => x) s) Ua) (pevx (vmap (fun _ => x0) s) Ub).
Proof.
  (* Induction on the formula, for all pairs of related units: the two runs take the same branch
     at every test (pattern tests do not see the name, [is_empty] and the loop exits agree on
     related sets) and every operator maps related sets to related sets; a quantifier with a
     domain continues in the two restricted units, which are related ([trel_restricted]). *)
  induction s as [a | o a IH | o a IHa b IHb | o y d a IH]; intros Ua Ub HU.
  - destruct a as [nm | y | | | l]; cbn [vmap peval_ext is_attractor_pattern is_fixed_point_pattern];
      rewrite ?andb_false_r; cbn [rrel].
    + destruct (index_of nm names 0) as [i|] eqn:E; cbn [rrel]; [|reflexivity].
      apply (trel_prop WF crel_vsim Ua Ub HU). exact (wf_names _ _ _ WF nm i E).
    + rewrite Hx, Hx0. cbn [bind rrel]. unfold eval_hctl_var. apply cmp_rel, HU.
    + exact HU.
    + apply trel_const.
    + destruct (alookup str_eqb l wild) as [s|] eqn:E; cbn [rrel]; [|reflexivity].
      eapply wild_rel; exact E.
  - cbn [vmap peval_ext is_attractor_pattern is_fixed_point_pattern].
    rewrite !andb_false_r. eapply rrel_bind; [apply IH, HU|]. intros A A0 H.
    apply (trel_unary WF crel_vsim steady steady_rel Ua Ub HU), H.
  - cbn [vmap peval_ext is_attractor_pattern is_fixed_point_pattern].
    rewrite !andb_false_r. eapply rrel_bind; [apply IHa, HU|]. intros A A0 H.
    eapply rrel_bind; [apply IHb, HU|]. intros B B0 K.
    apply (trel_binary WF crel_vsim steady steady_rel Ua Ub HU); assumption.
  - pose proof (attractor_pattern_vmap o y d a) as PA.
    pose proof (fixed_point_pattern_vmap o y d a) as PF.
    cbn [vmap] in *. rewrite !peval_ext_eq. rewrite PA, PF.
    destruct (use_patterns sw && is_attractor_pattern (Hybrid o x0 d (vmap (fun _ => x0) a))).
    { cbn [pattern_var]. rewrite Hx, Hx0. cbn [bind].
      apply (trel_attractors WF crel_vsim e e0 He He0 crel_var crel_lift Ua Ub HU). }
    destruct (use_patterns sw && is_fixed_point_pattern (Hybrid o x0 d (vmap (fun _ => x0) a))).
    { cbn [rrel]. exact steady_rel. }
    cbn [peval_ext_body]. destruct o.
    2: { eapply rrel_bind; [apply IH, HU|]. intros A A0 H. rewrite Hx, Hx0. cbn [bind rrel].
         apply (trel_jump WF crel_vsim Ua Ub HU e e0 He He0 crel_var), H. }
    (* the three quantifiers differ only in what they return for an empty domain *)
    all: destruct d as [dl|].
    1,3,5: destruct (alookup str_eqb dl doms) as [dset|] eqn:ED; cbn [rrel]; [|reflexivity];
      rewrite Hx, Hx0; cbn [bind];
      pose proof (trel_restricted WF crel_vsim Ua Ub HU e e0 He He0 crel_var dset (doms_rel _ _ ED)) as HR;
      rewrite <- (trel_is_empty WF crel_vsim _ _ HR);
      (destruct (is_empty (tand Ua (compute_valid_domain_for_var G Ua dset e))); cbn [rrel];
       [first [apply trel_const | exact HU]|]);
      eapply rrel_bind; [apply IH, HR|]; intros A A0 H; apply quantifier_rel; assumption.
    all: eapply rrel_bind; [apply IH, HU|]; intros A A0 H; rewrite Hx, Hx0; cbn [bind];
      apply quantifier_rel; assumption.
Qed.

End CopyRel.

Lemma plainf_vmap f s : plainf s -> plainf (vmap f s).
Proof.
  induction s as [a | o a IH | o a IHa b IHb | o z d a IH]; cbn [vmap plainf].
  - destruct a; auto.
  - exact IH.
  - intros [A B]; split; auto.
  - intros [A B]; split; auto.
Qed.

(** ** the evaluator on the renamed formula is the renamed set *)
Section Substitute.
Variable G : genv.
Variable names : list str.
Variable U : tt.
Hypothesis WF : wf_env G names U.
Local Notation L := (g_L G).

(** the extended evaluator (wild-cards, domains), at the top-level unit *)
Theorem peval_ext_rename sw steady wild doms x x0 e e0 s S0 :
  shaped L steady ->
  (forall v w, (forall j, v (TP j) = w (TP j)) -> (forall i, v (TS i) = w (TS i)) ->
     mem L steady v = mem L steady w) ->
  (forall l s1, alookup str_eqb l wild = Some s1 -> shaped L s1 /\
     forall v w, (forall j, v (TP j) = w (TP j)) -> (forall i, v (TS i) = w (TS i)) ->
       mem L s1 v = mem L s1 w) ->
  (forall l s1, alookup str_eqb l doms = Some s1 -> shaped L s1 /\
     forall v w, (forall j, v (TP j) = w (TP j)) -> (forall i, v (TS i) = w (TS i)) ->
       mem L s1 v = mem L s1 w) ->
  hctl_var_id G x = Ok e -> hctl_var_id G x0 = Ok e0 -> e0 <> e ->
  peval_ext G names sw steady wild doms (vmap (fun _ => x0) s) U = Ok S0 ->
  peval_ext G names sw steady wild doms (vmap (fun _ => x) s) U = Ok (substitute_hctl_var G S0 e0 e).
Proof.
  intros SS SX WX DX Hx Hx0 NE P0.
  destruct (var_id_of G x e Hx) as [_ He]. destruct (var_id_of G x0 e0 Hx0) as [_ He0].
  assert (srel G e e0 steady steady) as SR by (apply srel_self; assumption).
  assert (forall l s1, alookup str_eqb l wild = Some s1 -> srel G e e0 s1 s1) as WR
    by (intros l s1 H; destruct (WX l s1 H); apply srel_self; assumption).
  assert (forall l s1, alookup str_eqb l doms = Some s1 -> srel G e e0 s1 s1) as DR
    by (intros l s1 H; destruct (DX l s1 H); apply srel_self; assumption).
  pose proof (peval_ext_rel G names U WF e e0 He He0 steady SR sw x x0 Hx Hx0 wild doms WR DR s U U
                (trel_top WF (crel_vsim e e0))) as R.
  rewrite P0 in R. destruct (peval_ext G names sw steady wild doms (vmap (fun _ => x) s) U) as [S| | |];
    cbn [rrel] in R; try contradiction.
  destruct R as (S1 & S2 & H). f_equal.
  apply (tt_ext L); try assumption; [apply (wf_nodup _ _ _ WF) | apply shaped_substitute, S2|].
  intro v. rewrite (mem_substitute G names U WF S0 e0 e v S2 He0 He NE). apply H, crel_copy_from.
Qed.


(** the plain evaluator is the extended one on plain formulae *)
Theorem peval_rename sw steady x x0 e e0 s S0 :
  shaped L steady ->
  (forall v w, (forall j, v (TP j) = w (TP j)) -> (forall i, v (TS i) = w (TS i)) ->
     mem L steady v = mem L steady w) ->
  hctl_var_id G x = Ok e -> hctl_var_id G x0 = Ok e0 -> e0 <> e -> plainf s ->
  peval G names sw steady (vmap (fun _ => x0) s) U = Ok S0 ->
  peval G names sw steady (vmap (fun _ => x) s) U = Ok (substitute_hctl_var G S0 e0 e).
Proof.
  intros SS SX Hx Hx0 NE Pl.
  rewrite <- !(peval_ext_plain G names sw steady [] []) by apply plainf_vmap, Pl.
  apply (peval_ext_rename sw steady [] [] x x0 e e0 s S0 SS SX); try assumption;
    intros l s1 H; discriminate H.
Qed.

End Substitute.
