(** Facts about the definitions of Model/Base.v (strings as lists of code points and their
    Boolean equality, association lists, the result monad, decimal rendering), the equality
    tests of Model/Syntax.v, and the few facts about lists that the standard library of
    Coq 8.16 lacks.  Every proof file can use them. *)
From HCTL Require Import Base Syntax.

(** * Boolean equalities *)

Lemma str_eqb_eq a b : str_eqb a b = true <-> a = b.
Proof.
  unfold str_eqb. revert b. induction a as [|x a IH]; intros [|y b]; simpl; try (split; [discriminate|congruence]).
  - tauto.
  - rewrite andb_true_iff, N.eqb_eq, IH. split; [intros [-> ->]; reflexivity | intro H; injection H; auto].
Qed.

Lemma str_eqb_refl (a : str) : str_eqb a a = true.
Proof. apply str_eqb_eq. reflexivity. Qed.

Lemma str_eqb_neq (a b : str) : str_eqb a b = false <-> a <> b.
Proof.
  destruct (str_eqb a b) eqn:E.
  - apply str_eqb_eq in E. split; [discriminate | intro N; contradiction].
  - split; [|reflexivity]. intros _ EQ. apply str_eqb_eq in EQ. congruence.
Qed.

(** turn every boolean string comparison among the hypotheses into a (dis)equality *)
Ltac str_eq :=
  repeat match goal with
  | H : str_eqb _ _ = true |- _ => apply str_eqb_eq in H
  | H : str_eqb _ _ = false |- _ => apply str_eqb_neq in H
  end.

Lemma str_eq_dec : forall a b : str, {a = b} + {a <> b}.
Proof. apply list_eq_dec. apply N.eq_dec. Qed.

Lemma existsb_str_in (x : str) (l : list str) : existsb (str_eqb x) l = true <-> In x l.
Proof.
  rewrite existsb_exists. split.
  - intros [y [IN E]]. str_eq. subst y. exact IN.
  - intro IN. exists x. split; [exact IN | apply str_eqb_refl].
Qed.

Lemma list_eqb_eq {A} (eqb : A -> A -> bool) :
  (forall a b, eqb a b = true <-> a = b) ->
  forall a b, list_eqb eqb a b = true <-> a = b.
Proof.
  intro H. induction a as [|x a IH]; intros [|y b]; cbn [list_eqb];
    try (split; [discriminate|congruence]).
  - tauto.
  - rewrite andb_true_iff, H, IH. split; [intros [-> ->]; reflexivity | intro E; injection E; auto].
Qed.

Lemma opt_eqb_eq {A} (eqb : A -> A -> bool) :
  (forall a b, eqb a b = true <-> a = b) ->
  forall a b, opt_eqb eqb a b = true <-> a = b.
Proof.
  intro H. intros [x|] [y|]; cbn [opt_eqb]; try (split; [discriminate|congruence]).
  - rewrite H. split; [congruence | intro E; injection E; auto].
  - tauto.
Qed.

(** ** the equality tests of Model/Syntax.v *)

Lemma unop_eqb_eq a b : unop_eqb a b = true <-> a = b.
Proof. destruct a, b; cbn [unop_eqb]; split; congruence. Qed.

Lemma binop_eqb_eq a b : binop_eqb a b = true <-> a = b.
Proof.
  split; [|intros ->; destruct b; reflexivity].
  destruct a, b; cbn [binop_eqb]; intro H; first [reflexivity | discriminate H].
Qed.

Lemma hybop_eqb_eq a b : hybop_eqb a b = true <-> a = b.
Proof. destruct a, b; cbn [hybop_eqb]; split; congruence. Qed.

Lemma atom_eqb_eq a b : atom_eqb a b = true <-> a = b.
Proof.
  destruct a as [x|x| | |x], b as [y|y| | |y]; cbn [atom_eqb];
    try rewrite str_eqb_eq; split; congruence.
Qed.

Lemma tree_eqb_eq : forall a b, tree_eqb a b = true <-> a = b.
Proof.
  induction a as [x | o a IH | o a IHa b IHb | o x d a IH];
    intros [y | o' a' | o' a' b' | o' x' d' a']; cbn [tree_eqb];
    try (split; congruence).
  - rewrite atom_eqb_eq. split; congruence.
  - rewrite andb_true_iff, unop_eqb_eq, IH.
    split; [intros [-> ->]; reflexivity | intro E; injection E; auto].
  - rewrite !andb_true_iff, binop_eqb_eq, IHa, IHb.
    split; [intros [[-> ->] ->]; reflexivity | intro E; injection E; auto].
  - rewrite !andb_true_iff, hybop_eqb_eq, str_eqb_eq, (opt_eqb_eq str_eqb str_eqb_eq), IH.
    split; [intros [[[-> ->] ->] ->]; reflexivity | intro E; injection E; auto].
Qed.

Lemma tree_eqb_refl t : tree_eqb t t = true.
Proof. apply tree_eqb_eq. reflexivity. Qed.

(** * Association lists *)

Lemma alookup_Forall {A B} (eqb : A -> A -> bool) (P : B -> Prop) (l : list (A * B))
      (k : A) (v : B) :
  List.Forall (fun kv => P (snd kv)) l -> alookup eqb k l = Some v -> P v.
Proof.
  induction 1 as [|[k' v'] l Pv _ IH]; cbn [alookup]; [discriminate|].
  destruct (eqb k k'); [intro E; injection E as <-; exact Pv | exact IH].
Qed.

Lemma in_aremove {A B} (eqb : A -> A -> bool) (k : A) (l : list (A * B)) (p : A * B) :
  In p (aremove eqb k l) -> In p l.
Proof.
  induction l as [|[k' v] l IH]; cbn [aremove]; [intros []|].
  destruct (eqb k k'); cbn [In]; [intro H; right; exact (IH H)|].
  intros [E | H]; [left; exact E | right; exact (IH H)].
Qed.

(** over a key type with a Boolean equality that decides equality *)
Section AList.
Context {K V : Type}.
Variable eqb : K -> K -> bool.
Hypothesis eqb_eq : forall a b, eqb a b = true <-> a = b.
Implicit Types (m : list (K * V)) (k : K) (v : V).

Lemma alist_eqb_refl a : eqb a a = true.
Proof. apply eqb_eq. reflexivity. Qed.

Lemma alist_eqb_neq a b : a <> b -> eqb a b = false.
Proof. intro H. destruct (eqb a b) eqn:E; [apply eqb_eq in E; contradiction | reflexivity]. Qed.

Lemma alookup_aremove_same k (l : list (K * V)) : alookup eqb k (aremove eqb k l) = None.
Proof.
  induction l as [|[k' v] l IH]; cbn [aremove alookup]; [reflexivity|].
  destruct (eqb k k') eqn:E; [exact IH|]. cbn [alookup]. rewrite E. exact IH.
Qed.

Lemma alookup_aremove_other k k' (l : list (K * V)) : k <> k' ->
  alookup eqb k (aremove eqb k' l) = alookup eqb k l.
Proof.
  intro Hne. induction l as [|[k2 v] l IH]; cbn [aremove alookup]; [reflexivity|].
  destruct (eqb k' k2) eqn:E.
  - apply eqb_eq in E. subst k2. rewrite (alist_eqb_neq _ _ Hne). exact IH.
  - cbn [alookup]. destruct (eqb k k2); [reflexivity | exact IH].
Qed.

Lemma alookup_ainsert_same k v (l : list (K * V)) : alookup eqb k (ainsert eqb k v l) = Some v.
Proof. unfold ainsert. cbn [alookup]. rewrite alist_eqb_refl. reflexivity. Qed.

Lemma alookup_ainsert_other k k' v (l : list (K * V)) : k <> k' ->
  alookup eqb k (ainsert eqb k' v l) = alookup eqb k l.
Proof.
  intro Hne. unfold ainsert. cbn [alookup]. rewrite (alist_eqb_neq _ _ Hne).
  apply alookup_aremove_other. exact Hne.
Qed.

Lemma alookup_in k v (l : list (K * V)) : alookup eqb k l = Some v -> In (k, v) l.
Proof.
  induction l as [|[k' v'] l IH]; cbn [alookup]; [discriminate|].
  destruct (eqb k k') eqn:E.
  - intro H. injection H as ->. apply eqb_eq in E. subst k'. left. reflexivity.
  - intro H. right. apply IH. exact H.
Qed.

Lemma alookup_app k (l1 l2 : list (K * V)) :
  alookup eqb k (l1 ++ l2) =
  match alookup eqb k l1 with Some v => Some v | None => alookup eqb k l2 end.
Proof.
  induction l1 as [|[k' v'] l1 IH]; cbn [alookup app]; [reflexivity|].
  destruct (eqb k k'); [reflexivity | exact IH].
Qed.
Lemma alookup_None : forall m k, alookup eqb k m = None <-> ~ In k (map fst m).
Proof.
  induction m as [|[k' v'] m IH]; intros k; cbn [alookup map fst In].
  - split; [intros _ H; exact H | reflexivity].
  - destruct (eqb k k') eqn:E.
    + apply eqb_eq in E. subst. split; [discriminate | intros H; exfalso; apply H; left; reflexivity].
    + rewrite IH. split.
      * intros Hn [He | Hi]; [subst; rewrite alist_eqb_refl in E; discriminate | exact (Hn Hi)].
      * intros Hn Hi. apply Hn. right. exact Hi.
Qed.

Lemma In_alookup : forall m k v, NoDup (map fst m) -> In (k, v) m -> alookup eqb k m = Some v.
Proof.
  induction m as [|[k' v'] m IH]; intros k v Hnd Hin; [destruct Hin|].
  cbn [map fst] in Hnd. inversion Hnd as [|? ? Hnotin Hnd']; subst.
  cbn [alookup]. destruct Hin as [He | Hin].
  - inversion He; subst. rewrite alist_eqb_refl. reflexivity.
  - destruct (eqb k k') eqn:E.
    + apply eqb_eq in E. subst. exfalso. apply Hnotin.
      apply in_map_iff. exists (k', v). split; [reflexivity | exact Hin].
    + apply IH; assumption.
Qed.

Lemma alookup_in_iff : forall m k v, NoDup (map fst m) ->
  (In (k, v) m <-> alookup eqb k m = Some v).
Proof. intros m k v Hnd. split; [apply In_alookup; exact Hnd | apply alookup_in]. Qed.


Lemma same_lookup_iff_same_entries : forall m1 m2, NoDup (map fst m1) -> NoDup (map fst m2) ->
  ((forall k, alookup eqb k m1 = alookup eqb k m2) <->
   (forall k v, In (k, v) m1 <-> In (k, v) m2)).
Proof.
  intros m1 m2 H1 H2. split.
  - intros Hl k v. rewrite (alookup_in_iff m1 k v H1), (alookup_in_iff m2 k v H2), Hl. reflexivity.
  - intros Hin k. destruct (alookup eqb k m1) as [v|] eqn:E1.
    + symmetry. apply (alookup_in_iff m2 k v H2), Hin, alookup_in, E1.
    + destruct (alookup eqb k m2) as [v|] eqn:E2; [|reflexivity].
      apply alookup_in, Hin, (alookup_in_iff m1 k v H1) in E2. congruence.
Qed.

Lemma aremove_keys : forall m k k', In k' (map fst (aremove eqb k m)) <->
  In k' (map fst m) /\ k' <> k.
Proof.
  induction m as [|[k0 v0] m IH]; intros k k'; cbn [aremove map fst In].
  - split; [intros [] | intros [[] _]].
  - destruct (eqb k k0) eqn:E.
    + apply eqb_eq in E. subst k0. rewrite IH. split.
      * intros [Hi Hne]. split; [right; exact Hi | exact Hne].
      * intros [[He | Hi] Hne]; [subst; contradiction | split; assumption].
    + cbn [map fst In]. rewrite IH. split.
      * intros [He | [Hi Hne]]; [|split; [right; exact Hi | exact Hne]].
        subst k'. split; [left; reflexivity|]. intros He. subst. rewrite alist_eqb_refl in E. discriminate.
      * intros [[He | Hi] Hne]; [left; exact He | right; split; assumption].
Qed.

Lemma aremove_NoDup : forall m k, NoDup (map fst m) -> NoDup (map fst (aremove eqb k m)).
Proof.
  induction m as [|[k0 v0] m IH]; intros k Hnd; cbn [aremove map fst]; [constructor|].
  cbn [map fst] in Hnd. inversion Hnd as [|? ? Hnotin Hnd']; subst.
  destruct (eqb k k0); [apply IH; exact Hnd'|].
  cbn [map fst]. constructor; [|apply IH; exact Hnd'].
  intros Hi. apply aremove_keys in Hi. apply Hnotin. apply Hi.
Qed.

Lemma aremove_notin : forall m k, ~ In k (map fst m) -> aremove eqb k m = m.
Proof.
  induction m as [|[k0 v0] m IH]; intros k Hn; cbn [aremove]; [reflexivity|].
  cbn [map fst In] in Hn. destruct (eqb k k0) eqn:E.
  - apply eqb_eq in E. subst. exfalso. apply Hn. left. reflexivity.
  - f_equal. apply IH. intros Hi. apply Hn. right. exact Hi.
Qed.

Lemma ainsert_NoDup : forall m k v, NoDup (map fst m) -> NoDup (map fst (ainsert eqb k v m)).
Proof.
  intros m k v Hnd. unfold ainsert. cbn [map fst]. constructor.
  - intros Hi. apply aremove_keys in Hi. destruct Hi as [_ Hne]. apply Hne. reflexivity.
  - apply aremove_NoDup. exact Hnd.
Qed.


End AList.

(** * Lists *)

Lemma NoDup_app_iff {A} (a b : list A) :
  NoDup (a ++ b) <-> NoDup a /\ NoDup b /\ forall x, In x a -> In x b -> False.
Proof.
  induction a as [|y a IH]; cbn [app In].
  - split; [intro H; repeat split; [constructor | exact H | intros x []] | intros (_ & H & _); exact H].
  - rewrite !NoDup_cons_iff, IH, in_app_iff. split.
    + intros (N & Na & Nb & D). split; [split; [intro IN; apply N; left; exact IN | exact Na]|].
      split; [exact Nb|]. intros x [<- | INa] INb; [apply N; right; exact INb | exact (D x INa INb)].
    + intros ((N & Na) & Nb & D). split; [|split; [exact Na|split; [exact Nb|]]].
      * intros [IN | IN]; [exact (N IN) | exact (D y (or_introl eq_refl) IN)].
      * intros x INa. apply D. right. exact INa.
Qed.

Lemma Forall2_length_eq {A B} (R : A -> B -> Prop) l l' : Forall2 R l l' -> length l = length l'.
Proof. induction 1; cbn [length]; lia. Qed.

Lemma tl_len {A} (l : list A) : length (tl l) <= length l.
Proof. destruct l; cbn [tl length]; lia. Qed.

Lemma forallb_rev {A} (f : A -> bool) l : forallb f (rev l) = forallb f l.
Proof.
  apply eq_true_iff_eq. rewrite !forallb_forall.
  split; intros H x Hx; apply H, in_rev; [rewrite rev_involutive|]; exact Hx.
Qed.

Lemma repeat_n_length {A} (n : nat) (x : A) : length (repeat_n n x) = n.
Proof. induction n as [|n IH]; cbn [repeat_n length]; [reflexivity | rewrite IH; reflexivity]. Qed.

Lemma repeat_n_snoc {A} (n : nat) (x : A) : repeat_n n x ++ [x] = repeat_n (S n) x.
Proof.
  induction n as [|n IH]; [reflexivity|].
  change (x :: (repeat_n n x ++ [x]) = x :: repeat_n (S n) x). rewrite IH. reflexivity.
Qed.

Lemma forallb_const_true {A} (l : list A) : forallb (fun _ => true) l = true.
Proof. induction l; [reflexivity | assumption]. Qed.

Lemma app_nonempty {A} (l r : list A) : l <> [] -> l ++ r <> [].
Proof. destruct l; [intro H; contradiction | intros _; discriminate]. Qed.

(** the normal form for functions that thread a state through a tree: projections *)
Lemma let_pair {A B C} (p : A * B) (k : A -> B -> C) :
  (let (a, b) := p in k a b) = k (fst p) (snd p).
Proof. destruct p; reflexivity. Qed.

Lemma nth_error_rev {A} (l : list A) :
  forall k, k < length l -> nth_error (rev l) k = nth_error l (length l - S k).
Proof.
  induction l as [|y l IH]; intros k LT; cbn [length] in LT; [lia|]. cbn [rev length].
  destruct (Nat.eq_dec k (length l)) as [->|NE].
  - rewrite nth_error_app2 by (rewrite rev_length; lia).
    rewrite rev_length. replace (S (length l) - S (length l)) with 0 by lia.
    replace (length l - length l) with 0 by lia. reflexivity.
  - rewrite nth_error_app1 by (rewrite rev_length; lia).
    rewrite IH by lia.
    replace (S (length l) - S k) with (S (length l - S k)) by lia. reflexivity.
Qed.

Lemma short_list {A} (l : list A) : length l <= 1 -> l = [] \/ exists a, l = [a].
Proof.
  destruct l as [|a [|b l]]; cbn [length]; intro H; [left; reflexivity | right; exists a; reflexivity | lia].
Qed.

Lemma NoDup_pairwise_eq {A} (l : list A) :
  NoDup l -> (forall a b, In a l -> In b l -> a = b) -> length l <= 1.
Proof.
  destruct l as [|a [|b l]]; cbn [length]; intros ND P; [lia | lia | exfalso].
  inversion ND as [|? ? NIN _]; subst. apply NIN. left. apply P; [right; left|left]; reflexivity.
Qed.

Lemma nth_error_lt {A} (l : list A) (i : nat) (a : A) : nth_error l i = Some a -> i < length l.
Proof. intro H. apply nth_error_Some. congruence. Qed.

(** two ways of adding [a] to [l]: the results have the same elements, and none twice
    if the other has none twice *)
Lemma Add_Add {A} (a : A) (l l1 l2 : list A) :
  Add a l l1 -> Add a l l2 -> (NoDup l1 -> NoDup l2) /\ (forall x, In x l2 -> In x l1).
Proof.
  intros A1 A2. split.
  - intro ND. apply (NoDup_Add A2), (NoDup_Add A1), ND.
  - intros x IN. apply (Add_in A1), (Add_in A2), IN.
Qed.

Lemma rev_cons_app : forall (A : Type) (t : A) acc ts, rev (t :: acc) ++ ts = rev acc ++ t :: ts.
Proof. intros A t acc ts. cbn [rev]. rewrite <- app_assoc. reflexivity. Qed.

Lemma Forall2_left {A B} (Q : A -> B -> Prop) (P : A -> Prop) l rs :
  (forall x r, Q x r -> P x) -> Forall2 Q l rs -> List.Forall P l.
Proof. intros K H. induction H; constructor; eauto. Qed.

Lemma Forall2_right {A B} (Q : A -> B -> Prop) (P : B -> Prop) l rs :
  (forall x r, Q x r -> P r) -> Forall2 Q l rs -> List.Forall P rs.
Proof. intros K H. induction H; constructor; eauto. Qed.

Lemma Forall2_Forall_r {A B} (P : A -> Prop) (Q : A -> B -> Prop) (R : B -> Prop) l rs :
  List.Forall P l -> List.Forall2 Q l rs -> (forall x r, P x -> Q x r -> R r) -> List.Forall R rs.
Proof.
  intros F H K. induction H as [|x r l rs HQ _ IH]; [constructor|].
  inversion F; subst. constructor; [eapply K; eassumption | apply IH; assumption].
Qed.

(** * The result monad *)

Lemma bind_ok_inv {A B} (r : res A) (f : A -> res B) (b : B) :
  bind r f = Ok b -> exists a, r = Ok a /\ f a = Ok b.
Proof. destruct r as [a| | |]; cbn [bind]; try discriminate. intro H. exists a. auto. Qed.

(** * Decimal rendering ([dec_of_N]) *)

(** the number read from a digit string, most significant digit first *)
Definition digits_value (s : str) (n0 : N) : N :=
  fold_left (fun a d => (a * 10 + (d - 48))%N) s n0.

(** fuel [f] is enough for [n < 2 ^ f] (a step divides by ten, so it at least halves);
    [dec_of_N] starts with [S (log2 n)] *)
Lemma dec_digits_value : forall f n acc, (n < 2 ^ N.of_nat f)%N ->
  digits_value (dec_digits f n acc) 0 = digits_value acc n.
Proof.
  induction f as [|f IH]; intros n acc Hlt.
  - change (2 ^ N.of_nat 0)%N with 1%N in Hlt. assert (n = 0%N) by lia. subst n. reflexivity.
  - cbn [dec_digits].
    assert (Hdm : n = (10 * (n / 10) + n mod 10)%N) by (apply N.div_mod; discriminate).
    assert (Hm : (n mod 10 < 10)%N) by (apply N.mod_lt; discriminate).
    rewrite Nat2N.inj_succ, N.pow_succ_r' in Hlt.
    set (d := (n mod 10)%N) in *. set (q := (n / 10)%N) in *.
    destruct (N.eqb q 0) eqn:E.
    + apply N.eqb_eq in E. unfold digits_value. cbn [fold_left]. f_equal. lia.
    + rewrite IH by lia. unfold digits_value. cbn [fold_left]. f_equal. lia.
Qed.

Lemma dec_of_N_value : forall n, digits_value (dec_of_N n) 0 = n.
Proof.
  intros n. unfold dec_of_N. rewrite dec_digits_value; [reflexivity|].
  rewrite Nat2N.inj_succ, N2Nat.id. destruct (N.eq_dec n 0) as [He | Hne].
  - subst n. reflexivity.
  - apply N.log2_spec. lia.
Qed.

Lemma dec_of_N_inj : forall a b, dec_of_N a = dec_of_N b -> a = b.
Proof. intros a b H. rewrite <- (dec_of_N_value a), H. apply dec_of_N_value. Qed.

Lemma dec_digits_suffix : forall f n acc, exists pre, dec_digits f n acc = pre ++ acc.
Proof.
  induction f as [|f IH]; intros n acc; cbn [dec_digits]; [exists []; reflexivity|].
  destruct (N.eqb (n / 10) 0).
  - exists [(48 + n mod 10)%N]. reflexivity.
  - destruct (IH (n / 10)%N ((48 + n mod 10)%N :: acc)) as [pre H]. exists (pre ++ [(48 + n mod 10)%N]).
    rewrite H, <- app_assoc. reflexivity.
Qed.

Lemma dec_of_N_last : forall n, exists pre, dec_of_N n = pre ++ [(48 + n mod 10)%N].
Proof.
  intros n. unfold dec_of_N. cbn [dec_digits]. destruct (N.eqb (n / 10) 0).
  - exists []. reflexivity.
  - apply dec_digits_suffix.
Qed.

