(** Facts about truth-table trees: every operation is characterised through [mem];
    shaped trees with the same members are equal (so `while old != new` is exact). *)
From HCTL Require Import Base TT.

Lemma tag_eqb_refl g : tag_eqb g g = true.
Proof. destruct g; simpl; rewrite ?Nat.eqb_refl; reflexivity. Qed.

Lemma tag_eqb_eq a b : tag_eqb a b = true <-> a = b.
Proof.
  split.
  - destruct a, b; simpl; intro H; try discriminate.
    + apply Nat.eqb_eq in H; congruence.
    + apply Nat.eqb_eq in H; congruence.
    + apply andb_true_iff in H; destruct H as [H1 H2].
      apply Nat.eqb_eq in H1; apply Nat.eqb_eq in H2; congruence.
  - intros ->; apply tag_eqb_refl.
Qed.

Lemma tag_eqb_neq a b : tag_eqb a b = false <-> a <> b.
Proof.
  split.
  - intros H E; apply tag_eqb_eq in E; congruence.
  - intro H; destruct (tag_eqb a b) eqn:E; [apply tag_eqb_eq in E; contradiction | reflexivity].
Qed.

Lemma tag_eqb_sym a b : tag_eqb a b = tag_eqb b a.
Proof.
  destruct (tag_eqb a b) eqn:E.
  - apply tag_eqb_eq in E; subst; symmetry; apply tag_eqb_refl.
  - symmetry; apply tag_eqb_neq; apply tag_eqb_neq in E; congruence.
Qed.

Definition agree (L : layout) (v w : val) : Prop := forall g, In g L -> v g = w g.

Lemma agree_refl L v : agree L v v.
Proof. intros g _; reflexivity. Qed.

Lemma agree_sym L v w : agree L v w -> agree L w v.
Proof. intros H g Hg; symmetry; apply H; assumption. Qed.

Lemma agree_tail h L v w : agree (h :: L) v w -> agree L v w.
Proof. intros H g Hg; apply H; right; assumption. Qed.

Lemma mem_agree L : forall t v w, agree L v w -> mem L t v = mem L t w.
Proof.
  induction L as [|h L IH]; intros t v w H; destruct t as [b|lo hi]; simpl; try reflexivity.
  rewrite (H h (or_introl eq_refl)).
  apply IH; eapply agree_tail; eassumption.
Qed.

Lemma upd_same v g b : upd v g b g = b.
Proof. unfold upd; rewrite tag_eqb_refl; reflexivity. Qed.

Lemma upd_other v g b h : h <> g -> upd v g b h = v h.
Proof. intro H; unfold upd; apply tag_eqb_neq in H; rewrite H; reflexivity. Qed.

Lemma agree_upd_notin L v g b : ~ In g L -> agree L (upd v g b) v.
Proof.
  intros H h Hh; apply upd_other; intro E; subst; contradiction.
Qed.

Lemma mem_upd_notin L t v g b : ~ In g L -> mem L t (upd v g b) = mem L t v.
Proof. intro H; apply mem_agree, agree_upd_notin; assumption. Qed.

(** membership in [Node lo hi] over [h :: L], at a valuation with [h] set to [b]: the way
    from a statement about all valuations of the longer layout to one about a branch *)
Lemma mem_branch_upd h L (lo hi : tt) v b : ~ In h L ->
  mem L (if upd v h b h then hi else lo) (upd v h b) = mem L (if b then hi else lo) v.
Proof. intro H. rewrite upd_same. apply mem_upd_notin. exact H. Qed.

Lemma shapedb_iff L : forall t, shapedb L t = true <-> shaped L t.
Proof.
  induction L as [|h L IH]; intros [b|lo hi]; simpl; try tauto; try (split; [discriminate|tauto]).
  rewrite andb_true_iff, !IH; tauto.
Qed.

Lemma shaped_const L b : shaped L (const L b).
Proof. induction L; simpl; auto. Qed.

Lemma mem_leaf L b v : mem L (Leaf b) v = b.
Proof. destruct L; reflexivity. Qed.

Lemma mem_const L b v : mem L (const L b) v = b.
Proof. induction L as [|h L IH]; simpl; [reflexivity|]. destruct (v h); apply IH. Qed.

Lemma shaped_map2 f L : forall a b, shaped L a -> shaped L b -> shaped L (map2 f a b).
Proof.
  induction L as [|h L IH]; intros [x|a0 a1] [y|b0 b1]; simpl; try tauto.
  intros [H1 H2] [H3 H4]; split; apply IH; assumption.
Qed.

Lemma mem_map2 f L : forall a b v, shaped L a -> shaped L b ->
  mem L (map2 f a b) v = f (mem L a v) (mem L b v).
Proof.
  induction L as [|h L IH]; intros [x|a0 a1] [y|b0 b1] v; simpl; try tauto.
  intros [H1 H2] [H3 H4]. destruct (v h); apply IH; assumption.
Qed.

Lemma shaped_lit L g : shaped L (lit L g).
Proof.
  induction L as [|h L IH]; simpl; [exact I|].
  destruct (tag_eqb h g); simpl; auto using shaped_const.
Qed.

Lemma mem_lit L g v : NoDup L -> In g L -> mem L (lit L g) v = v g.
Proof.
  induction L as [|h L IH]; simpl; intros ND Hin; [contradiction|].
  inversion ND as [|? ? Hnotin ND']; subst.
  destruct (tag_eqb h g) eqn:E.
  - apply tag_eqb_eq in E; subst. simpl. destruct (v g); apply mem_const.
  - simpl. destruct Hin as [->|Hin]; [rewrite tag_eqb_refl in E; discriminate|].
    destruct (v h); apply IH; assumption.
Qed.

Lemma shaped_flip g L : forall t, shaped L t -> shaped L (flip g L t).
Proof.
  induction L as [|h L IH]; intros [b|lo hi]; simpl; try tauto.
  intros [H1 H2]. destruct (tag_eqb h g); simpl; auto.
Qed.

Lemma mem_flip g L : forall t v, NoDup L -> shaped L t ->
  mem L (flip g L t) v = mem L t (vflip g v).
Proof.
  induction L as [|h L IH]; intros [b|lo hi] v ND; simpl; try tauto.
  intros [H1 H2]. inversion ND as [|? ? Hnotin ND']; subst.
  destruct (tag_eqb h g) eqn:E.
  - apply tag_eqb_eq in E; subst. simpl. unfold vflip at 1. rewrite tag_eqb_refl.
    assert (A : agree L (vflip g v) v).
    { intros k Hk. unfold vflip. destruct (tag_eqb k g) eqn:E2; [|reflexivity].
      apply tag_eqb_eq in E2; subst; contradiction. }
    destruct (v g); simpl; symmetry; apply mem_agree; assumption.
  - simpl. unfold vflip at 1. rewrite E.
    destruct (v h); apply IH; assumption.
Qed.

Lemma vflip_invol g v h : vflip g (vflip g v) h = v h.
Proof. unfold vflip. destruct (tag_eqb h g); [apply negb_involutive|reflexivity]. Qed.

Lemma shaped_exq q L : forall t, shaped L t -> shaped L (exq q L t).
Proof.
  induction L as [|h L IH]; intros [b|lo hi]; simpl; try tauto.
  intros [H1 H2]. destruct (q h); simpl.
  - split; apply shaped_map2; auto.
  - auto.
Qed.

(** [w] differs from [v] at most on tags satisfying [q] *)
Definition same_outside (q : tag -> bool) (v w : val) : Prop :=
  forall g, q g = false -> w g = v g.

Lemma same_outside_upd q v w h b : q h = true -> same_outside q v w -> same_outside q v (upd w h b).
Proof.
  intros Q Hw g Hg. rewrite upd_other; [apply Hw; exact Hg | intro E; subst; congruence].
Qed.

Lemma mem_exq q L : forall t v, NoDup L -> shaped L t ->
  (mem L (exq q L t) v = true <-> exists w, same_outside q v w /\ mem L t w = true).
Proof.
  induction L as [|h L IH]; intros [b|lo hi] v ND; simpl; try tauto.
  - intros _. split.
    + intro H; exists v; split; [intros g _; reflexivity|assumption].
    + intros [w [_ H]]; assumption.
  - intros [H1 H2]. inversion ND as [|? ? Hnotin ND']; subst.
    destruct (q h) eqn:Q.
    + (* a quantified level: either branch will do, and [w] may choose it *)
      assert (E : mem (h :: L) (let r := tor (exq q L lo) (exq q L hi) in Node r r) v
                  = mem L (tor (exq q L lo) (exq q L hi)) v).
      { simpl. destruct (v h); reflexivity. }
      simpl in E. simpl. rewrite E. unfold tor.
      rewrite mem_map2 by (apply shaped_exq; assumption).
      rewrite orb_true_iff, (IH lo v ND' H1), (IH hi v ND' H2).
      split.
      * intros [[w [Hw Hm]]|[w [Hw Hm]]]; [exists (upd w h false) | exists (upd w h true)];
          (split; [apply same_outside_upd; assumption | rewrite mem_branch_upd by assumption; exact Hm]).
      * intros [w [Hw Hm]]. destruct (w h); [right|left]; exists w; split; assumption.
    + (* a level that stays: [w] agrees with [v] on it *)
      simpl. destruct (v h) eqn:Vh; [rewrite (IH hi v ND' H2) | rewrite (IH lo v ND' H1)];
        (split; intros [w [Hw Hm]]; exists w; (split; [assumption|]);
         [rewrite (Hw h Q), Vh | rewrite (Hw h Q), Vh in Hm]; exact Hm).
Qed.

Lemma tt_eqb_eq : forall a b, tt_eqb a b = true <-> a = b.
Proof.
  induction a as [x|a0 IH0 a1 IH1]; intros [y|b0 b1]; simpl; try (split; [discriminate|congruence]).
  - rewrite Bool.eqb_true_iff. split; congruence.
  - rewrite andb_true_iff, IH0, IH1. split; [intros [-> ->]; reflexivity|intro H; injection H; auto].
Qed.

Lemma tt_eqb_refl a : tt_eqb a a = true.
Proof. apply tt_eqb_eq; reflexivity. Qed.

Lemma tt_ext L : forall a b, NoDup L -> shaped L a -> shaped L b ->
  (forall v, mem L a v = mem L b v) -> a = b.
Proof.
  induction L as [|h L IH]; intros [x|a0 a1] [y|b0 b1] ND; simpl; try tauto.
  - intros _ _ H. specialize (H (fun _ => false)). congruence.
  - intros [H1 H2] [H3 H4] H. inversion ND as [|? ? Hnotin ND']; subst.
    f_equal; apply IH; try assumption; intro v;
      [specialize (H (upd v h false)) | specialize (H (upd v h true))];
      rewrite !mem_branch_upd in H by assumption; exact H.
Qed.

Lemma is_empty_iff L : forall t, NoDup L -> shaped L t ->
  (is_empty t = true <-> forall v, mem L t v = false).
Proof.
  induction L as [|h L IH]; intros [b|lo hi] ND; simpl; try tauto.
  - intros _. destruct b; simpl.
    + split; [discriminate | intro H; specialize (H (fun _ => false)); discriminate].
    + split; [intros _ v; reflexivity | intros _; reflexivity].
  - intros [H1 H2]. inversion ND as [|? ? Hnotin ND']; subst.
    rewrite andb_true_iff, (IH lo ND' H1), (IH hi ND' H2). split.
    + intros [A B] v. destruct (v h); auto.
    + intro H. split; intro v;
        [specialize (H (upd v h false)) | specialize (H (upd v h true))];
        rewrite mem_branch_upd in H by assumption; exact H.
Qed.

Lemma is_empty_false_iff L t : NoDup L -> shaped L t ->
  (is_empty t = false <-> exists v, mem L t v = true).
Proof.
  intros ND Sh. split.
  - revert t Sh. induction L as [|h L IH]; intros [b|lo hi]; simpl; try tauto.
    + intros _ H. destruct b; [exists (fun _ => false); reflexivity|discriminate].
    + intros [H1 H2] H. inversion ND as [|? ? Hnotin ND']; subst.
      apply andb_false_iff in H. destruct H as [H|H].
      * destruct (IH ND' lo H1 H) as [v Hv]. exists (upd v h false).
        rewrite mem_branch_upd by assumption. exact Hv.
      * destruct (IH ND' hi H2 H) as [v Hv]. exists (upd v h true).
        rewrite mem_branch_upd by assumption. exact Hv.
  - intros [v Hv]. destruct (is_empty t) eqn:E; [|reflexivity].
    rewrite (is_empty_iff L t ND Sh) in E. rewrite E in Hv. discriminate.
Qed.

Lemma mem_tand L a b v : shaped L a -> shaped L b ->
  mem L (tand a b) v = mem L a v && mem L b v.
Proof. apply mem_map2. Qed.
Lemma mem_tor L a b v : shaped L a -> shaped L b ->
  mem L (tor a b) v = mem L a v || mem L b v.
Proof. apply mem_map2. Qed.
Lemma mem_tminus L a b v : shaped L a -> shaped L b ->
  mem L (tminus a b) v = mem L a v && negb (mem L b v).
Proof. apply (mem_map2 (fun x y => x && negb y)). Qed.
(** without any assumption on the shapes *)
Lemma mem_tminus_sub L : forall a b v, mem L (tminus a b) v = true -> mem L a v = true.
Proof.
  induction L as [|h L IH]; intros [x|a0 a1] [y|b0 b1] v; simpl; try discriminate;
    try (intro H; apply andb_true_iff in H; tauto).
  destruct (v h); apply IH.
Qed.
Lemma mem_txor L a b v : shaped L a -> shaped L b ->
  mem L (txor a b) v = xorb (mem L a v) (mem L b v).
Proof. apply mem_map2. Qed.
Lemma mem_tiff L a b v : shaped L a -> shaped L b ->
  mem L (tiff a b) v = Bool.eqb (mem L a v) (mem L b v).
Proof. apply mem_map2. Qed.

Lemma shaped_tand L a b : shaped L a -> shaped L b -> shaped L (tand a b).
Proof. apply shaped_map2. Qed.
Lemma shaped_tor L a b : shaped L a -> shaped L b -> shaped L (tor a b).
Proof. apply shaped_map2. Qed.
Lemma shaped_tminus L a b : shaped L a -> shaped L b -> shaped L (tminus a b).
Proof. apply shaped_map2. Qed.
Lemma shaped_txor L a b : shaped L a -> shaped L b -> shaped L (txor a b).
Proof. apply shaped_map2. Qed.
Lemma shaped_tiff L a b : shaped L a -> shaped L b -> shaped L (tiff a b).
Proof. apply shaped_map2. Qed.

(** a fold that combines an accumulator pointwise with one set per list element *)
Lemma shaped_fold_map2 {X} f L (s : X -> tt) l : forall acc,
  shaped L acc -> (forall i, shaped L (s i)) ->
  shaped L (fold_left (fun a i => map2 f a (s i)) l acc).
Proof. induction l as [|x l IH]; intros acc Ha Hs; simpl; [exact Ha | apply IH; auto using shaped_map2]. Qed.

(** ... where the operation is a conjunction with a condition [c] on the element's set *)
Lemma mem_fold_map2_and {X} f (c : bool -> bool) L (s : X -> tt) l :
  (forall x y, f x y = x && c y) -> forall acc v, shaped L acc -> (forall i, shaped L (s i)) ->
  (mem L (fold_left (fun a i => map2 f a (s i)) l acc) v = true <->
   mem L acc v = true /\ forall i, In i l -> c (mem L (s i) v) = true).
Proof.
  intro Hf. induction l as [|x l IH]; intros acc v Ha Hs; simpl.
  - split; [intro H; split; [assumption | intros i []] | intros [H _]; assumption].
  - rewrite IH by auto using shaped_map2.
    rewrite mem_map2, Hf, andb_true_iff by auto. split.
    + intros [[H1 H2] H3]. split; [assumption|]. intros i [->|Hi]; auto.
    + intros [H1 H2]. split; [split|]; auto.
Qed.

(* Shapedness goals are closed by [auto with shaped]; the files that introduce an operator
   add its shapedness lemma to the database. *)
Create HintDb shaped.
#[export] Hint Resolve shaped_const shaped_map2 shaped_lit shaped_flip shaped_exq
  shaped_tand shaped_tor shaped_tminus shaped_txor shaped_tiff : shaped.

(** [expand]: a tree over the kept levels, lifted to the whole layout *)
Lemma shaped_expand keep L : forall t, shaped (filter keep L) t -> shaped L (expand keep L t).
Proof.
  induction L as [|h L IH]; intros t H; simpl in *; [exact H|].
  destruct (keep h) eqn:K.
  - simpl in H. destruct t as [b|lo hi]; [contradiction|]. destruct H as [H1 H2]. simpl. auto.
  - simpl. split; apply IH; assumption.
Qed.

Lemma mem_expand keep L : forall t v, shaped (filter keep L) t ->
  mem L (expand keep L t) v = mem (filter keep L) t v.
Proof.
  induction L as [|h L IH]; intros t v H; simpl in *; [reflexivity|].
  destruct (keep h) eqn:K.
  - simpl in H. destruct t as [b|lo hi]; [contradiction|]. destruct H as [H1 H2]. simpl.
    destruct (v h); apply IH; assumption.
  - simpl. destruct (v h); apply IH; assumption.
Qed.

Definition subset (L : layout) (a b : tt) : Prop := forall v, mem L a v = true -> mem L b v = true.

Lemma card_const_false L : card (const L false) = 0.
Proof. induction L as [|h L IH]; simpl; [reflexivity|]. rewrite IH; reflexivity. Qed.

Lemma card_const_true L : card (const L true) = 2 ^ length L.
Proof. induction L as [|h L IH]; simpl; [reflexivity|]. rewrite IH. lia. Qed.

Lemma card_le L : forall t, shaped L t -> card t <= 2 ^ length L.
Proof.
  induction L as [|h L IH]; intros [b|lo hi]; simpl; try tauto.
  - intros _; destruct b; lia.
  - intros [H1 H2]. specialize (IH lo H1) as A. specialize (IH hi H2) as B. lia.
Qed.

Lemma subset_card L : forall a b, NoDup L -> shaped L a -> shaped L b -> subset L a b ->
  card a <= card b /\ (card a = card b -> a = b).
Proof.
  induction L as [|h L IH]; intros [x|a0 a1] [y|b0 b1] ND; simpl; try tauto.
  - intros _ _ H. unfold subset in H. simpl in H.
    destruct x, y; simpl.
    + split; [lia | reflexivity].
    + specialize (H (fun _ => false) eq_refl). discriminate.
    + split; [lia | intro; lia].
    + split; [lia | reflexivity].
  - intros [H1 H2] [H3 H4] H. inversion ND as [|? ? Hnotin ND']; subst.
    assert (S0 : subset L a0 b0).
    { intros v Hv. specialize (H (upd v h false)). simpl in H.
      rewrite !mem_branch_upd in H by assumption. auto. }
    assert (S1 : subset L a1 b1).
    { intros v Hv. specialize (H (upd v h true)). simpl in H.
      rewrite !mem_branch_upd in H by assumption. auto. }
    destruct (IH a0 b0 ND' H1 H3 S0) as [A0 E0].
    destruct (IH a1 b1 ND' H2 H4 S1) as [A1 E1].
    split; [lia|]. intro E. f_equal; [apply E0|apply E1]; lia.
Qed.
