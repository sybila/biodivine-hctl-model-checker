(** Why  AWs G P Q v -> AW_p G P Q v  (every path satisfies "P until Q  or  always P", as a
    disjunction) is not proved in PathFacts: for all networks it implies the limited
    principle of omniscience ([AW_paths_lr_implies_LPO]), which plain Coq does not prove.

    The network below has two variables: x toggles for ever (its update function is "not x"),
    y can only be switched on (its update function is "true").  With P = "y is off" and
    Q = "y is on" every valuation satisfies A[P W Q]; a Boolean sequence a determines the
    path that switches y on at the first k with a k = true and toggles x otherwise; and the
    disjunction for this path decides whether a is ever true. *)
From HCTL Require Import Base TT Ops Kripke Paths TTFacts OpsFacts SemFacts Laws PathFacts.

Definition lpo_net : genv :=
  {| g_n := 2; g_p := 0; g_k := 0; g_L := [TS 0; TS 1];
     g_upd := [Node (Node (Leaf true) (Leaf true)) (Node (Leaf false) (Leaf false));
               Node (Node (Leaf true) (Leaf true)) (Node (Leaf true) (Leaf true))] |}.

Definition y_off (v : val) : Prop := v (TS 1) = false.
Definition y_on (v : val) : Prop := v (TS 1) = true.

Lemma lpo_enabled0 v : enabled lpo_net 0 v = true.
Proof. unfold enabled, upd_of. cbn. destruct (v (TS 0)); destruct (v (TS 1)); reflexivity. Qed.

Lemma lpo_enabled1 v : enabled lpo_net 1 v = negb (v (TS 1)).
Proof. unfold enabled, upd_of. cbn. destruct (v (TS 0)); destruct (v (TS 1)); reflexivity. Qed.

Lemma y_off_respects : respects y_off.
Proof. intros v w H Hv. unfold y_off. rewrite <- (H (TS 1)). exact Hv. Qed.
Lemma y_on_respects : respects y_on.
Proof. intros v w H Hv. unfold y_on. rewrite <- (H (TS 1)). exact Hv. Qed.
Lemma y_off_dec v : y_off v \/ ~ y_off v.
Proof. unfold y_off. destruct (v (TS 1)); [right; discriminate | left; reflexivity]. Qed.
Lemma y_on_dec v : y_on v \/ ~ y_on v.
Proof. unfold y_on. destruct (v (TS 1)); [left; reflexivity | right; discriminate]. Qed.

Lemma lpo_AWs v : AWs lpo_net y_off y_on v.
Proof.
  exists (fun _ => True). split; [exact I|]. intros u _.
  destruct (u (TS 1)) eqn:E; [left; exact E | right].
  split; [exact E|]. split; intros; exact I.
Qed.

Section Sequence.
Variable a : nat -> bool.

Fixpoint lpo_path (k : nat) : val :=
  match k with
  | O => fun _ => false
  | S k' => if a k' && negb (lpo_path k' (TS 1)) then vflip (TS 1) (lpo_path k')
            else vflip (TS 0) (lpo_path k')
  end.

Lemma lpo_path_path : path lpo_net lpo_path.
Proof.
  intro k. cbn [lpo_path]. destruct (a k && negb (lpo_path k (TS 1))) eqn:E.
  - apply andb_true_iff in E. destruct E as [_ E].
    apply step_move; [cbn; lia | rewrite lpo_enabled1; exact E].
  - apply step_move; [cbn; lia | apply lpo_enabled0].
Qed.

Lemma lpo_on_witness j : lpo_path j (TS 1) = true -> exists k, a k = true.
Proof.
  induction j as [|j IH]; cbn [lpo_path]; [discriminate|].
  destruct (a j && negb (lpo_path j (TS 1))) eqn:E.
  - intros _. apply andb_true_iff in E. exists j. tauto.
  - unfold vflip. cbn [tag_eqb Nat.eqb]. exact IH.
Qed.

Lemma lpo_off_none : (forall j, lpo_path j (TS 1) = false) -> forall k, a k = false.
Proof.
  intros H k. pose proof (H (S k)) as H1. cbn [lpo_path] in H1. rewrite (H k) in H1.
  destruct (a k); [|reflexivity]. cbn [andb negb] in H1. unfold vflip in H1.
  cbn [tag_eqb Nat.eqb] in H1. rewrite (H k) in H1. discriminate.
Qed.
End Sequence.

(** the left-to-right direction of the AW characterisation, for all networks and decidable
    arguments, implies the limited principle of omniscience *)
Theorem AW_paths_lr_implies_LPO :
  (forall G (P Q : val -> Prop) v, respects P -> respects Q ->
     (forall u, P u \/ ~ P u) -> (forall u, Q u \/ ~ Q u) -> AWs G P Q v -> AW_p G P Q v) ->
  forall a : nat -> bool, (exists k, a k = true) \/ (forall k, a k = false).
Proof.
  intros H a.
  destruct (H lpo_net y_off y_on (fun _ => false) y_off_respects y_on_respects y_off_dec y_on_dec
              (lpo_AWs _) (lpo_path a) (lpo_path_path a) (veq_refl _)) as [[j [Hq _]]|Ha].
  - left. apply (lpo_on_witness a j). exact Hq.
  - right. apply lpo_off_none. exact Ha.
Qed.

(** the same for the sets computed by the model: the network is well formed *)
Definition lpo_unit : tt := full lpo_net.
Definition lpo_on : tt := lit (g_L lpo_net) (TS 1).
Definition lpo_off : tt := eval_neg lpo_unit lpo_on.

Lemma lpo_wf : wf_graph lpo_net lpo_unit.
Proof.
  split.
  - cbn. repeat constructor; cbn; intuition discriminate.
  - intro i. unfold upd_of. destruct i as [|[|i]]; cbn; try tauto. destruct i; cbn; tauto.
  - intros i Hi. cbn in Hi. destruct i as [|[|i]]; cbn; [tauto | tauto | lia].
  - apply shaped_const.
  - intros v i. unfold lpo_unit. rewrite !mem_full. reflexivity.
Qed.

Lemma lpo_mem_on u : mem (g_L lpo_net) lpo_on u = u (TS 1).
Proof. cbn. destruct (u (TS 0)); destruct (u (TS 1)); reflexivity. Qed.

Lemma lpo_mem_off u : mem (g_L lpo_net) lpo_off u = negb (u (TS 1)).
Proof. cbn. destruct (u (TS 0)); destruct (u (TS 1)); reflexivity. Qed.

Lemma lpo_eval_aw : eval_aw lpo_net lpo_unit lpo_off lpo_on = Ok lpo_unit.
Proof. vm_compute. reflexivity. Qed.

Theorem aw_model_lr_implies_LPO :
  (forall G U S T R v, wf_graph G U ->
     shaped (g_L G) S -> (forall u, mem (g_L G) S u = true -> mem (g_L G) U u = true) ->
     shaped (g_L G) T -> (forall u, mem (g_L G) T u = true -> mem (g_L G) U u = true) ->
     eval_aw G U S T = Ok R -> mem (g_L G) R v = true ->
     AW_p G (fun u => mem (g_L G) S u = true) (fun u => mem (g_L G) T u = true) v) ->
  forall a : nat -> bool, (exists k, a k = true) \/ (forall k, a k = false).
Proof.
  intros H a.
  assert (HU : forall A u, mem (g_L lpo_net) A u = true -> mem (g_L lpo_net) lpo_unit u = true).
  { intros A u _. apply mem_full. }
  destruct (H lpo_net lpo_unit lpo_off lpo_on lpo_unit (fun _ => false) lpo_wf) with (pi := lpo_path a)
    as [[j [Hq _]]|Ha].
  - unfold lpo_off, eval_neg, lpo_unit, lpo_on, full, tminus. apply shaped_map2; [apply shaped_const | apply shaped_lit].
  - apply HU.
  - apply shaped_lit.
  - apply HU.
  - exact lpo_eval_aw.
  - apply mem_full.
  - apply lpo_path_path.
  - apply veq_refl.
  - left. apply (lpo_on_witness a j). rewrite <- lpo_mem_on. exact Hq.
  - right. apply lpo_off_none. intro j. specialize (Ha j). cbv beta in Ha. rewrite lpo_mem_off in Ha.
    apply negb_true_iff in Ha. exact Ha.
Qed.
