(** The meaning of a closed formula does not read the spare copies.

    [sat] of a formula whose free variables are named by at most [d] characters 'x'
    ([depth_named d], the form produced by preprocessing) depends only on the colour, the
    state and the spare copies [0 .. d-1].  For [d = 0]: the set computed for a closed formula
    does not depend on any spare copy, hence [restrict not_extra] (the model of
    SymbolicContext::transfer_from in sanitize_colored_vertices) is defined on it. *)
From HCTL Require Import Base Syntax Preprocess TT Ops Eval Pipeline Kripke HCTL.
From HCTL Require Import TTFacts OpsFacts EvalPure Main PrepFacts IndepFacts.

(** same colour, same state, same spare copies below [d] *)
Definition agree_upto (d : nat) (v w : val) : Prop :=
  (forall g, is_extra_tag g = false -> v g = w g) /\
  (forall i e, e < d -> v (TX i e) = w (TX i e)).

Lemma agree_upto_vagree d v w : agree_upto d v w -> vagree (fun e => e < d) v w.
Proof.
  intros [H1 H2]. apply same_non_extra in H1. split; [apply H1|]. split; [apply H1 | exact H2].
Qed.

Lemma depth_named_copies_ok G : forall t d, depth_named d t -> copies_ok G (fun e => e < d) t.
Proof.
  assert (V : forall j e, var_of G (xs (S j)) = Some e -> e = j).
  { intros j e H. rewrite (var_of_some G) in H by (rewrite H; discriminate).
    rewrite xs_length in H. injection H as <-. reflexivity. }
  induction t as [a | o a IH | o a IHa b IHb | o x dm a IH]; intros d H;
    cbn [depth_named copies_ok] in *.
  - destruct a; auto. destruct H as [j [Hj ->]]. intros e He. apply V in He. subst e. exact Hj.
  - apply IH, H.
  - destruct H as [Ha Hb]. split; [apply IHa, Ha | apply IHb, Hb].
  - destruct o; cbn [is_quantifier] in H;
      try (destruct H as [-> H]; intros e He; apply V in He; subst e;
           eapply copies_ok_mono; [|apply IH, H]; cbv beta; intros e He;
           destruct (Nat.eq_dec e d); [left; assumption | right; lia]).
    destruct H as [[j [Hj ->]] H]. split; [|apply IH, H].
    intros e He. apply V in He. subst e. exact Hj.
Qed.

Lemma depth_named_closed G t : depth_named 0 t -> closed_copies G t.
Proof.
  intro H. eapply copies_ok_mono; [|apply depth_named_copies_ok, H]. cbv beta. intros e He. lia.
Qed.

Section Indep.
Variable G : genv.
Variable names : list str.
Variable Gamma : str -> val -> Prop.
Local Notation L := (g_L G).

Hypothesis upd_extras : forall i v w, (forall g, is_extra_tag g = false -> v g = w g) ->
  mem L (upd_of G i) v = mem L (upd_of G i) w.

Definition resp (d : nat) (P : val -> Prop) : Prop :=
  forall v w, agree_upto d v w -> P v -> P w.

(** a plain formula has no label, so nothing is asked of the context *)
Theorem sat_resp : forall t d, plainf t -> depth_named d t -> resp d (sat G names Gamma t).
Proof.
  intros t d Hpl Hdn v w Hvw.
  apply (sat_agree_uses G G names Gamma eq_refl
           (fun i a b _ => enabled_ignores_copies G upd_extras i a b)
           plainf t (fun e => e < d) v w).
  - intros l a b [].
  - apply sub_closed_plainf.
  - apply vars_agree_refl.
  - apply depth_named_copies_ok, Hdn.
  - exact Hpl.
  - apply agree_upto_vagree, Hvw.
Qed.

End Indep.

Section Closed.
Variable G : genv.
Variable names : list str.
Variable U : tt.
Hypothesis WF : wf_env G names U.
Local Notation L := (g_L G).

Theorem closed_result_restrict sw t R : plainf t -> supported G t -> depth_named 0 t ->
  peval G names sw (steady_of G U) t U = Ok R ->
  exists s, restrict (fun g => negb (is_extra_tag g)) L R = Some s.
Proof.
  intros Hpl Hsup Hdn HR.
  destruct (sanitize_eq_raw G names U WF sw t R Hpl Hsup (depth_named_closed G t Hdn) HR)
    as [S [E _]].
  unfold sanitize in E. destruct (restrict not_extra L R) as [s|] eqn:Er; [|discriminate].
  exists s. exact Er.
Qed.

End Closed.
