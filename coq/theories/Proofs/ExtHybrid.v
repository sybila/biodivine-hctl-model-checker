(** Atoms, hybrid operators and the domain restriction under the weak invariant [spec_in]
    of ExtFacts.v.

    The top-level unit only depends on the colour.  A restricted unit also
    depends on the spare copies of the variables whose domains produced it; what the
    quantifier over copy [e] needs is only that the current unit does not depend on the state
    bits and on copy [e] itself (a variable is never re-quantified inside its own scope, so
    its copy is not restricted yet). *)
From HCTL Require Import Base Syntax TT Ops Kripke HCTL.
From HCTL Require Import TTFacts OpsFacts FixFacts SemFacts HybridFacts ExtFacts.

Section ExtHybrid.
Variable G : genv.
Local Notation L := (g_L G).
Local Notation n := (g_n G).
Local Notation k := (g_k G).

Hypothesis L_nodup : NoDup L.
Hypothesis TS_in : forall i, i < n -> In (TS i) L.
Hypothesis TX_in : forall i e, i < n -> e < k -> In (TX i e) L.
Hypothesis TS_bound : forall i, In (TS i) L -> i < n.
Hypothesis TX_bound : forall i e, In (TX i e) L -> i < n.

(** projecting out copy e: some value of the copy works *)
Lemma mem_exq_copy S e v : shaped L S ->
  (mem L (exq (is_copy e) L S) v = true <-> exists u, mem L S (set_copy e u v) = true).
Proof.
  intro SS. rewrite mem_exq by assumption. split.
  - intros [w [Hw Hm]].
    pose (u := fun g => match g with TS i => w (TX i e) | _ => v g end).
    exists u.
    assert (AG : agree L w (set_copy e u v)).
    { intros g Hg. destruct g as [j|i|i e']; simpl; try (apply Hw; reflexivity).
      destruct (Nat.eqb e e') eqn:E.
      - apply Nat.eqb_eq in E; subst e'. reflexivity.
      - apply Hw. simpl. exact E. }
    rewrite <- (mem_agree L S _ _ AG). exact Hm.
  - intros [u Hm]. exists (set_copy e u v). split; [|exact Hm].
    intros g Hg. destruct g as [j|i|i e']; simpl; try reflexivity.
    simpl in Hg. rewrite Hg. reflexivity.
Qed.

(** projecting out the state bits: some state works *)
Lemma mem_exq_state S v : shaped L S ->
  (mem L (exq is_state_tag L S) v = true <-> exists u, mem L S (with_state u v) = true).
Proof.
  intro SS. rewrite mem_exq by assumption. split.
  - intros [w [Hw Hm]]. exists w.
    assert (AG : agree L w (with_state w v)).
    { intros g Hg. destruct g as [j|i|i e']; simpl; try reflexivity; apply Hw; reflexivity. }
    rewrite <- (mem_agree L S _ _ AG). exact Hm.
  - intros [u Hm]. exists (with_state u v). split; [|exact Hm].
    intros g Hg. destruct g as [j|i|i e']; simpl; try reflexivity. simpl in Hg. discriminate.
Qed.

Section Unit.
Variable U : tt.
Hypothesis U_shaped : shaped L U.

(** bind: the copy is forced to be the current state *)
Lemma mem_eval_bind S e v : e < k -> shaped L S ->
  (mem L (eval_bind G U S e) v = true <->
   mem L U (set_copy e v v) = true /\ mem L S (set_copy e v v) = true).
Proof.
  intros He SS. unfold eval_bind, project_out_hctl_var.
  rewrite mem_exq_copy by auto with shaped. split.
  - intros [u Hm]. rewrite mem_tand in Hm by auto with shaped. apply andb_true_iff in Hm.
    destruct Hm as [Hc Hs]. apply mem_comparator in Hc; try assumption.
    destruct Hc as [Hu Hc].
    assert (AG : agree L (set_copy e u v) (set_copy e v v)).
    { intros g Hg. destruct g as [j|i|i e']; simpl; try reflexivity.
      destruct (Nat.eqb e e') eqn:E; [|reflexivity].
      apply Nat.eqb_eq in E; subst e'.
      specialize (Hc i (TX_bound _ _ Hg)). simpl in Hc. rewrite Nat.eqb_refl in Hc. exact Hc. }
    rewrite <- (mem_agree L U _ _ AG), <- (mem_agree L S _ _ AG). auto.
  - intros [Hu Hs]. exists v. rewrite mem_tand by auto with shaped. rewrite Hs, andb_true_r.
    apply mem_comparator; try assumption. split; [exact Hu|].
    intros i Hi. simpl. rewrite Nat.eqb_refl. reflexivity.
Qed.

(** the comparator under the projection of the state bits: the state is forced to be copy e *)
Lemma exists_state_cmp S e v : e < k -> shaped L S ->
  ((exists u, mem L (comparator_var_state G U e) (with_state u v) = true /\
              mem L S (with_state u v) = true) <->
   mem L U (set_state e v) = true /\ mem L S (set_state e v) = true).
Proof.
  intros He SS. split.
  - intros [u [Hc Hs]]. apply mem_comparator in Hc; try assumption.
    destruct Hc as [Hu Hc].
    assert (AG : agree L (with_state u v) (set_state e v)).
    { intros g Hg. destruct g as [j|i|i e']; simpl; try reflexivity.
      specialize (Hc i (TS_bound _ Hg)). simpl in Hc. symmetry. exact Hc. }
    rewrite <- (mem_agree L U _ _ AG), <- (mem_agree L S _ _ AG). auto.
  - intros [Hu Hs].
    exists (fun g => match g with TS i => v (TX i e) | _ => v g end).
    assert (AG : agree L (with_state (fun g => match g with TS i => v (TX i e) | _ => v g end) v)
                         (set_state e v)).
    { intros g Hg. destruct g as [j|i|i e']; reflexivity. }
    rewrite (mem_agree L S _ _ AG). split; [|exact Hs].
    apply mem_comparator; try assumption. split.
    + rewrite (mem_agree L U _ _ AG). exact Hu.
    + intros i Hi. reflexivity.
Qed.

(** both users of [project_out_bn_vars] project an intersection *)
Lemma mem_exq_state_tand X Y v : shaped L X -> shaped L Y ->
  (mem L (exq is_state_tag L (tand X Y)) v = true <->
   exists u, mem L X (with_state u v) = true /\ mem L Y (with_state u v) = true).
Proof.
  intros SX SY. rewrite mem_exq_state by auto with shaped.
  split; intros [u Hm]; exists u; rewrite mem_tand, andb_true_iff in *; assumption.
Qed.

Lemma mem_eval_jump S e v : e < k -> shaped L S ->
  (mem L (eval_jump G U S e) v = true <->
   mem L U (set_state e v) = true /\ mem L S (set_state e v) = true).
Proof.
  intros He SS. unfold eval_jump, project_out_bn_vars.
  rewrite mem_exq_state_tand by auto with shaped. apply exists_state_cmp; assumption.
Qed.

(** compute_valid_domain_for_var: the values of copy e that lie in the domain set
    (as a state of the same colour) *)
Lemma mem_valid_domain dset e v : e < k -> shaped L dset ->
  (mem L (compute_valid_domain_for_var G U dset e) v = true <->
   mem L U (set_state e v) = true /\ mem L dset (set_state e v) = true).
Proof.
  intros He SS. unfold compute_valid_domain_for_var, project_out_bn_vars.
  rewrite mem_exq_state_tand by auto with shaped. rewrite <- (exists_state_cmp dset e v He SS).
  split; intros [u Hm]; exists u; tauto.
Qed.

End Unit.

Variable Uc : tt.
Hypothesis Uc_shaped : shaped L Uc.
Hypothesis Uc_state : state_indep G Uc.

Local Notation inC v := (mem L Uc v = true).
Local Notation spec := (spec_in G Uc).

Lemma in_var e : e < k -> spec (eval_hctl_var G Uc e) (copy_is_state G e).
Proof. intro He. apply spec_of_in. apply spec_var; assumption. Qed.

Lemma in_prop i : i < n -> spec (eval_prop G Uc i) (fun v => v (TS i) = true).
Proof. intro Hi. apply spec_of_in. apply spec_prop; assumption. Qed.

Lemma in_jump A P e : e < k -> spec A P ->
  spec (eval_jump G Uc A e) (fun v => P (set_state e v)).
Proof.
  intros He HA. pose proof HA as [SA EA].
  split; [auto with shaped|]. intros v Hv.
  rewrite mem_eval_jump by assumption.
  assert (Hs : inC (set_state e v)) by (rewrite state_indep_set_state; assumption).
  rewrite (EA _ Hs). tauto.
Qed.

(** the quantifiers that close a (possibly restricted) scope.
    [Ur] is the unit of the scope: the current unit restricted by a condition [D] on the
    valuation (for a domain: "copy e is a state of the domain"); the body [A] is exact on
    [Ur] only. *)
Section Quantifiers.
Variable e : nat.
Hypothesis e_lt : e < k.
Hypothesis Uc_copy : copy_indep G Uc e.
Variable Ur : tt.
Variable D : val -> Prop.
Hypothesis Ur_shape : shaped L Ur.
Hypothesis Ur_spec : forall w, mem L Ur w = true <-> (inC w /\ D w).

Variable A : tt.
Variable P : val -> Prop.
Hypothesis HA : spec_in G Ur A P.

Lemma in_bind_cond :
  spec (eval_bind G Uc (tand A Ur) e) (fun v => D (set_copy e v v) /\ P (set_copy e v v)).
Proof.
  pose proof HA as [SA EA].
  split; [auto with shaped|]. intros v Hv.
  rewrite mem_eval_bind by auto with shaped.
  rewrite mem_tand by auto with shaped. rewrite andb_true_iff. rewrite Uc_copy.
  split.
  - intros [_ [Ha Hr]]. split; [apply Ur_spec in Hr; tauto | apply (EA _ Hr); exact Ha].
  - intros [Hd Hp].
    assert (Hr : mem L Ur (set_copy e v v) = true).
    { apply Ur_spec. rewrite Uc_copy. auto. }
    split; [exact Hv|]. split; [apply (EA _ Hr); exact Hp | exact Hr].
Qed.

Lemma in_exists_cond :
  spec (eval_exists G (tand A Ur) e)
       (fun v => exists u, D (set_copy e u v) /\ P (set_copy e u v)).
Proof.
  pose proof HA as [SA EA].
  split; [auto with shaped|]. intros v Hv.
  unfold eval_exists, project_out_hctl_var. rewrite mem_exq_copy by auto with shaped.
  split; intros [u H]; exists u.
  - rewrite mem_tand in H by auto with shaped. apply andb_true_iff in H. destruct H as [Ha Hr].
    split; [apply Ur_spec in Hr; tauto | apply (EA _ Hr); exact Ha].
  - destruct H as [Hd Hp].
    assert (Hr : mem L Ur (set_copy e u v) = true).
    { apply Ur_spec. rewrite Uc_copy. auto. }
    rewrite mem_tand by auto with shaped. rewrite Hr, andb_true_r. apply (EA _ Hr). exact Hp.
Qed.

Lemma in_forall_cond :
  spec (eval_neg Uc (eval_exists G (eval_neg Ur A) e))
       (fun v => forall u, D (set_copy e u v) -> P (set_copy e u v)).
Proof.
  pose proof HA as [SA EA].
  split; [auto with shaped|]. intros v Hv.
  rewrite mem_eval_neg by auto with shaped.
  rewrite Hv. simpl. rewrite negb_true_iff.
  unfold eval_exists, project_out_hctl_var.
  split.
  - intros Hn u Hd.
    assert (Hr : mem L Ur (set_copy e u v) = true).
    { apply Ur_spec. rewrite Uc_copy. auto. }
    destruct (mem L A (set_copy e u v)) eqn:Ea; [apply (EA _ Hr); exact Ea|].
    exfalso.
    assert (X : mem L (exq (is_copy e) L (eval_neg Ur A)) v = true).
    { apply mem_exq_copy; [auto with shaped|]. exists u. rewrite mem_eval_neg by auto with shaped. rewrite Hr, Ea. reflexivity. }
    congruence.
  - intro Hall. destruct (mem L (exq (is_copy e) L (eval_neg Ur A)) v) eqn:E; [|reflexivity].
    exfalso. apply mem_exq_copy in E; [|auto with shaped]. destruct E as [u Hm].
    rewrite mem_eval_neg in Hm by auto with shaped. apply andb_true_iff in Hm. destruct Hm as [Hr Hn].
    apply negb_true_iff in Hn.
    assert (Hd : D (set_copy e u v)) by (apply Ur_spec in Hr; tauto).
    apply Hall in Hd. apply (EA _ Hr) in Hd. congruence.
Qed.

End Quantifiers.

(** without a domain the scope keeps the current unit *)
Lemma Uc_trivial_restriction : forall w, mem L Uc w = true <-> (inC w /\ True).
Proof. intro w. tauto. Qed.

Lemma in_bind A P e : e < k -> copy_indep G Uc e -> spec A P ->
  spec (eval_bind G Uc (tand A Uc) e) (fun v => P (set_copy e v v)).
Proof.
  intros He Hc HA.
  eapply in_ext; [exact (in_bind_cond e He Hc Uc (fun _ => True) Uc_shaped Uc_trivial_restriction A P HA)|].
  intros w _. simpl. tauto.
Qed.

Lemma in_exists A P e : e < k -> copy_indep G Uc e -> spec A P ->
  spec (eval_exists G (tand A Uc) e) (fun v => exists u, P (set_copy e u v)).
Proof.
  intros He Hc HA.
  eapply in_ext; [exact (in_exists_cond e Hc Uc (fun _ => True) Uc_shaped Uc_trivial_restriction A P HA)|].
  intros w _. simpl. split; intros [u H]; exists u; tauto.
Qed.

Lemma in_forall A P e : e < k -> copy_indep G Uc e -> spec A P ->
  spec (eval_neg Uc (eval_exists G (eval_neg Uc A) e)) (fun v => forall u, P (set_copy e u v)).
Proof.
  intros He Hc HA.
  eapply in_ext; [exact (in_forall_cond e Hc Uc (fun _ => True) Uc_shaped Uc_trivial_restriction A P HA)|].
  intros w _. simpl. split; intros H u; [apply H; exact I | intros _; apply H].
Qed.

Section Domain.
Variable dset : tt.
Hypothesis dset_shaped : shaped L dset.
Hypothesis dset_extras : extras_indep G dset.
Variable e : nat.
Hypothesis e_lt : e < k.

Local Notation Ur := (tand Uc (compute_valid_domain_for_var G Uc dset e)).

Lemma Ur_shaped : shaped L Ur.
Proof. auto with shaped. Qed.

(** the restricted unit: the current unit, with copy e a state of the domain *)
Lemma mem_Ur w :
  mem L Ur w = true <-> (inC w /\ mem L dset (set_state e w) = true).
Proof.
  rewrite mem_tand by auto with shaped.
  rewrite andb_true_iff. rewrite mem_valid_domain by assumption.
  rewrite state_indep_set_state by assumption. tauto.
Qed.

(** with the variable bound to the state u: u (in the colour of v) lies in the domain *)
Lemma dset_set_copy u v :
  mem L dset (set_state e (set_copy e u v)) = mem L dset (with_state u v).
Proof.
  apply dset_extras. intros g Hg. destruct g as [j|i|i e']; simpl in *; try reflexivity.
  - rewrite Nat.eqb_refl. reflexivity.
  - discriminate.
Qed.

Lemma dset_set_copy_self v :
  mem L dset (set_state e (set_copy e v v)) = mem L dset v.
Proof. rewrite dset_set_copy. apply with_state_self_mem, dset_extras. Qed.

(** the restricted unit is again a legitimate current unit *)
Lemma Ur_sub v : mem L Ur v = true -> inC v.
Proof. intro H. apply mem_Ur in H. tauto. Qed.

Lemma Ur_eq v w : mem L Uc v = mem L Uc w ->
  mem L dset (set_state e v) = mem L dset (set_state e w) -> mem L Ur v = mem L Ur w.
Proof. intros E1 E2. apply Bool.eq_true_iff_eq. rewrite !mem_Ur, E1, E2. reflexivity. Qed.

Lemma Ur_state : state_indep G Ur.
Proof.
  intros v w H. apply Ur_eq; [apply Uc_state; exact H|].
  apply mem_agree. intros g Hg. destruct g as [j|i|i e']; simpl; apply H; reflexivity.
Qed.

(** copies other than e that the current unit ignores are still ignored *)
Lemma Ur_copy e' : e' <> e -> copy_indep G Uc e' -> copy_indep G Ur e'.
Proof.
  intros Hne Hc u v. apply Ur_eq; [apply Hc|].
  apply dset_extras. intros g Hg. destruct g as [j|i|i e'']; simpl in *; try reflexivity.
  - destruct (Nat.eqb e' e) eqn:E; [|reflexivity]. apply Nat.eqb_eq in E. contradiction.
  - discriminate.
Qed.

(** the three quantifiers over the domain; the body is exact on the restricted unit only *)
Variable A : tt.
Variable P : val -> Prop.
Hypothesis HA : spec_in G Ur A P.
Hypothesis Uc_copy : copy_indep G Uc e.

Lemma in_bind_domain :
  spec (eval_bind G Uc (tand A Ur) e)
       (fun v => mem L dset v = true /\ P (set_copy e v v)).
Proof.
  eapply in_ext;
    [exact (in_bind_cond e e_lt Uc_copy Ur (fun w => mem L dset (set_state e w) = true)
                        Ur_shaped mem_Ur A P HA)|].
  intros w _. simpl. rewrite dset_set_copy_self. tauto.
Qed.

Lemma in_exists_domain :
  spec (eval_exists G (tand A Ur) e)
       (fun v => exists u, mem L dset (with_state u v) = true /\ P (set_copy e u v)).
Proof.
  eapply in_ext;
    [exact (in_exists_cond e Uc_copy Ur (fun w => mem L dset (set_state e w) = true)
                          Ur_shaped mem_Ur A P HA)|].
  intros w _. simpl. split; intros [u H]; exists u; rewrite dset_set_copy in *; exact H.
Qed.

Lemma in_forall_domain :
  spec (eval_neg Uc (eval_exists G (eval_neg Ur A) e))
       (fun v => forall u, mem L dset (with_state u v) = true -> P (set_copy e u v)).
Proof.
  eapply in_ext;
    [exact (in_forall_cond e Uc_copy Ur (fun w => mem L dset (set_state e w) = true)
                          Ur_shaped mem_Ur A P HA)|].
  intros w _. simpl. split; intros H u Hd; apply H; rewrite dset_set_copy in *; exact Hd.
Qed.

End Domain.

(** an empty restricted unit: no state of any colour of the current unit is in the domain *)
Lemma Ur_empty dset e : e < k -> shaped L dset -> extras_indep G dset ->
  copy_indep G Uc e ->
  is_empty (tand Uc (compute_valid_domain_for_var G Uc dset e)) = true ->
  forall u v, inC v -> mem L dset (with_state u v) = false.
Proof.
  intros He SD ED Hc Hemp u v Hv.
  rewrite (is_empty_iff L) in Hemp by (try apply Ur_shaped; assumption).
  specialize (Hemp (set_copy e u v)).
  destruct (mem L dset (with_state u v)) eqn:E; [|reflexivity].
  assert (X : mem L (tand Uc (compute_valid_domain_for_var G Uc dset e)) (set_copy e u v) = true).
  { apply mem_Ur; try assumption. rewrite Hc. split; [exact Hv|].
    rewrite dset_set_copy; assumption. }
  congruence.
Qed.

End ExtHybrid.
