(** The fixed-point loops of Model/Ops.v compute the fixed points of Spec/Kripke.v (partial
    correctness: whenever the loop returns [Ok]; that the fuel always suffices is
    Proofs/Termination.v).  Here: [inU S] ("S lies inside the unit"), which EX preserves, the
    generic loop, and E[.U.] by saturation, whose loop does not look at the unit; the loops
    that do are in ExtFix.v. *)
From HCTL Require Import Base TT Ops Kripke TTFacts OpsFacts.

Section FixFacts.
Variable G : genv.
Local Notation L := (g_L G).
Local Notation n := (g_n G).

Hypothesis L_nodup : NoDup L.
Hypothesis upd_shaped : forall i, shaped L (upd_of G i).
Hypothesis TS_in : forall i, i < n -> In (TS i) L.

(** the unit set: independent of the state bits *)
Variable U : tt.
Hypothesis U_shaped : shaped L U.
Hypothesis U_moves : forall v i, mem L U (vflip (TS i) v) = mem L U v.

Local Notation st := (steady_of G U).
Let M (S : tt) : val -> Prop := fun v => mem L S v = true.

Lemma st_shaped : shaped L st.
Proof. apply shaped_steady_of; assumption. Qed.

Definition inU (S : tt) : Prop := forall v, mem L S v = true -> mem L U v = true.

Lemma ex_inU S : shaped L S -> inU S -> inU (eval_ex G S st).
Proof.
  intros HS HU v Hv. apply mem_eval_ex in Hv; [|assumption..|apply st_shaped].
  destruct Hv as [[i [Hi [He Hm]]]|[Hm _]]; apply HU in Hm.
  - rewrite U_moves in Hm. exact Hm.
  - exact Hm.
Qed.

Lemma while_neq_spec fuel F : forall old new r,
  while_neq fuel F old new = Ok r ->
  (old = new /\ r = old) \/ (exists j, r = Nat.iter j F old /\ F r = r).
Proof.
  induction fuel as [|f IH]; intros old new r; simpl.
  - destruct (tt_eqb old new) eqn:E; [|discriminate].
    intro H; injection H as <-. apply tt_eqb_eq in E. left; auto.
  - destruct (tt_eqb old new) eqn:E.
    + intro H; injection H as <-. apply tt_eqb_eq in E. left; auto.
    + intro H. apply IH in H. destruct H as [[E1 E2]|[j [E1 E2]]].
      * right. exists 0. simpl. split; congruence.
      * right. exists (S j). split; [|assumption].
        rewrite E1. clear. induction j; simpl; [reflexivity|]. rewrite IHj. reflexivity.
Qed.

Section EU.
Variable phi1 : tt.
Hypothesis phi1_shaped : shaped L phi1.

Lemma sat_step_some vars result r : shaped L result ->
  sat_step G vars phi1 result = Some r ->
  shaped L r /\
  (forall v, mem L result v = true -> mem L r v = true) /\
  (forall v, mem L r v = true -> mem L result v = true \/
     exists i, In i vars /\ mem L phi1 v = true /\ mem L (var_pre G i result) v = true).
Proof.
  intro HR. induction vars as [|i vars IH]; simpl; [discriminate|].
  assert (HV : shaped L (var_pre G i result)) by auto with shaped.
  destruct (is_empty (tminus (tand phi1 (var_pre G i result)) result)) eqn:E.
  - intro H. destruct (IH H) as [A [B C]]. split; [assumption|]. split; [assumption|].
    intros v Hv. destruct (C v Hv) as [X|[k [Hk X]]]; [left; assumption|right; exists k; split; [right|]; assumption].
  - intro H. injection H as <-.
    assert (HT : shaped L (tminus (tand phi1 (var_pre G i result)) result))
      by auto with shaped.
    split; [auto with shaped|]. split.
    + intros v Hv. rewrite mem_tor by assumption. rewrite Hv. reflexivity.
    + intros v Hv. rewrite mem_tor in Hv by assumption. apply orb_true_iff in Hv.
      destruct Hv as [Hv|Hv]; [left; assumption|]. right. exists i. split; [left; reflexivity|].
      rewrite mem_tminus in Hv by auto with shaped.
      apply andb_true_iff in Hv. destruct Hv as [Hv _].
      rewrite mem_tand in Hv by assumption. apply andb_true_iff in Hv. exact Hv.
Qed.

Lemma sat_step_none vars result : shaped L result ->
  sat_step G vars phi1 result = None ->
  forall i v, In i vars -> mem L phi1 v = true -> mem L (var_pre G i result) v = true ->
              mem L result v = true.
Proof.
  intro HR. induction vars as [|k vars IH]; simpl; [intros _ i v []|].
  assert (HV : shaped L (var_pre G k result)) by auto with shaped.
  destruct (is_empty (tminus (tand phi1 (var_pre G k result)) result)) eqn:E; [|discriminate].
  intros H i v [->|Hi] Hp Hv; [|eapply IH; eassumption].
  rewrite (is_empty_iff L) in E by auto with shaped.
  specialize (E v). rewrite mem_tminus in E by auto with shaped.
  rewrite mem_tand in E by assumption. rewrite Hp, Hv in E. simpl in E.
  apply negb_false_iff in E. exact E.
Qed.

Theorem eu_loop_correct fuel : forall result r phi2,
  shaped L phi2 -> shaped L result ->
  (forall v, mem L phi2 v = true -> mem L result v = true) ->
  (forall v, mem L result v = true -> EUs G (M phi1) (M phi2) v) ->
  eu_loop G fuel phi1 result = Ok r ->
  shaped L r /\ forall v, mem L r v = true <-> EUs G (M phi1) (M phi2) v.
Proof.
  induction fuel as [|f IH]; intros result r phi2 H2 HR Hsub Hsound; simpl; [discriminate|].
  destruct (sat_step G (rev (range n)) phi1 result) as [r'|] eqn:E.
  - intro H. destruct (sat_step_some _ _ _ HR E) as [A [B C]].
    eapply IH; try eassumption.
    + intros v Hv. apply B, Hsub, Hv.
    + intros v Hv. destruct (C v Hv) as [X|[i [Hi [Hp X]]]]; [apply Hsound; assumption|].
      apply in_rev, in_range in Hi.
      rewrite mem_var_pre in X by assumption. apply andb_true_iff in X. destruct X as [X1 X2].
      eapply EUs_step; [exact Hp | exact Hi | exact X2 | apply Hsound; exact X1].
  - intro H. injection H as <-. split; [assumption|]. intro v. split; [apply Hsound|].
    intro HE. induction HE as [v Hq | v i Hp Hi He _ IHE].
    + apply Hsub. exact Hq.
    + eapply (sat_step_none _ _ HR E i v); [apply -> in_rev; apply in_range; exact Hi | exact Hp |].
      rewrite mem_var_pre by assumption. rewrite IHE, He. reflexivity.
Qed.

Theorem eu_correct phi2 r : shaped L phi2 ->
  eval_eu_saturated G phi1 phi2 = Ok r ->
  shaped L r /\ forall v, mem L r v = true <-> EUs G (M phi1) (M phi2) v.
Proof.
  intros H2 H. unfold eval_eu_saturated in H. eapply eu_loop_correct; try eassumption.
  - auto.
  - intros v Hv. apply EUs_here. exact Hv.
Qed.
End EU.

End FixFacts.
