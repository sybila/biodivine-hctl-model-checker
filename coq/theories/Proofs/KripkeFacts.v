(** Facts about the CTL operators of Spec/Kripke.v alone.
    - Weak until over an arbitrary next-step operator ([gfpW]), of which the four greatest
      fixed points of the specification are instances.
    - Congruence under a simulation of valuations: a relation [R] that preserves [enabled] and
      is preserved by the moves, possibly across two graphs with the same number of
      variables.  Every "the operators do not look at X" fact of the development (spare
      copies, colours, renamed copies, equal states, an invariant set) is an instance.
    - The unfolding of each operator and the split of E[P W Q]. *)
From HCTL Require Import Base TT Ops Kripke.

(** Weak until over an arbitrary next-step operator [N].
    [EWs G] is [gfpW (EXs G)] and [AWs G] is [gfpW (AXs G)] by definition; [EGs] and [AGs] are
    defined on their own and equivalent to the case [Q := fun _ => False] ([gfpW_no_exit]). *)
Definition gfpW (N : (val -> Prop) -> val -> Prop) (P Q : val -> Prop) (v : val) : Prop :=
  exists X : val -> Prop, X v /\ forall u, X u -> Q u \/ (P u /\ N X u).

(** without exit it is the greatest fixed point of  [P and N .] *)
Lemma gfpW_no_exit N (P : val -> Prop) v :
  (exists X : val -> Prop, X v /\ forall u, X u -> P u /\ N X u) <-> gfpW N P (fun _ => False) v.
Proof.
  split; intros [X [Xv HX]]; exists X; (split; [exact Xv|]); intros u Xu.
  - right. apply HX, Xu.
  - destruct (HX u Xu) as [[]|H]. exact H.
Qed.

Section Gfp.
Variable N : (val -> Prop) -> val -> Prop.
Hypothesis N_mono : forall (X Y : val -> Prop) v, (forall u, X u -> Y u) -> N X v -> N Y v.
Variables P Q : val -> Prop.

Lemma gfpW_includes v : Q v -> gfpW N P Q v.
Proof. intro H. exists Q. split; [exact H|]. intros u Hu. left. exact Hu. Qed.

Lemma gfpW_out v : gfpW N P Q v -> Q v \/ (P v /\ N (gfpW N P Q) v).
Proof.
  intros [X [Xv HX]]. destruct (HX v Xv) as [Hq|[Hp He]]; [left; exact Hq | right].
  split; [exact Hp|]. revert He. apply N_mono. intros u Xu. exists X. split; assumption.
Qed.

Lemma gfpW_in v : Q v \/ (P v /\ N (gfpW N P Q) v) -> gfpW N P Q v.
Proof.
  intro H. exists (fun u => Q u \/ (P u /\ N (gfpW N P Q) u)). split; [exact H|].
  intros u [Hq|[Hp He]]; [left; exact Hq | right]. split; [exact Hp|].
  revert He. apply N_mono. exact gfpW_out.
Qed.

Lemma gfpW_unfold v : gfpW N P Q v <-> Q v \/ (P v /\ N (gfpW N P Q) v).
Proof. split; [apply gfpW_out | apply gfpW_in]. Qed.
End Gfp.

(** the unfolding of a predicate [E] that is [gfpW N P] without exit *)
Section GfpG.
Variable N : (val -> Prop) -> val -> Prop.
Hypothesis N_mono : forall (X Y : val -> Prop) v, (forall u, X u -> Y u) -> N X v -> N Y v.
Variables P E : val -> Prop.
Hypothesis HE : forall v, E v <-> gfpW N P (fun _ => False) v.

Lemma gfpG_unfold v : E v <-> P v /\ N E v.
Proof.
  split.
  - intro H. apply HE, (gfpW_out N N_mono) in H. destruct H as [[]|[Hp He]].
    split; [exact Hp|]. revert He. apply N_mono. intro u. apply HE.
  - intros [Hp He]. apply HE, (gfpW_in N N_mono). right.
    split; [exact Hp|]. revert He. apply N_mono. intro u. apply HE.
Qed.
End GfpG.

Section Sim.
Variables G G' : genv.
Variable R : val -> val -> Prop.
Hypothesis Hn : g_n G = g_n G'.
Hypothesis R_en : forall i v w, i < g_n G -> R v w -> enabled G i v = enabled G' i w.
Hypothesis R_flip : forall i v w, R v w -> R (vflip (TS i) v) (vflip (TS i) w).

Lemma sim_steady v w : R v w -> vsteady G v -> vsteady G' w.
Proof.
  intros Hr Hs i Hi. rewrite <- Hn in Hi. rewrite <- (R_en i v w Hi Hr). apply Hs. exact Hi.
Qed.

Lemma sim_steady_back v w : R v w -> vsteady G' w -> vsteady G v.
Proof.
  intros Hr Hs i Hi. rewrite (R_en i v w Hi Hr). apply Hs. rewrite <- Hn. exact Hi.
Qed.

Lemma EXs_sim (P P' : val -> Prop) : (forall v w, R v w -> P v -> P' w) ->
  forall v w, R v w -> EXs G P v -> EXs G' P' w.
Proof.
  intros HP v w Hr [[i [Hi [He Hp]]]|[Hs Hp]].
  - left. exists i. split; [rewrite <- Hn; exact Hi|].
    split; [rewrite <- (R_en i v w Hi Hr); exact He|].
    eapply HP; [apply R_flip; exact Hr | exact Hp].
  - right. split; [eapply sim_steady; eassumption | eapply HP; eassumption].
Qed.

Lemma AXs_sim (P P' : val -> Prop) : (forall v w, R v w -> P v -> P' w) ->
  forall v w, R v w -> AXs G P v -> AXs G' P' w.
Proof.
  intros HP v w Hr [H1 H2]. split.
  - intros i Hi He. rewrite <- Hn in Hi.
    eapply HP; [apply R_flip; exact Hr|]. apply H1; [exact Hi|].
    rewrite (R_en i v w Hi Hr). exact He.
  - intro Hs. eapply HP; [exact Hr|]. apply H2. eapply sim_steady_back; eassumption.
Qed.

Section Pred.
Variables P P' Q Q' : val -> Prop.
Hypothesis HP : forall v w, R v w -> P v -> P' w.
Hypothesis HQ : forall v w, R v w -> Q v -> Q' w.

(** the witness of the weak until is carried along [R]; [N], [N'] any next-step operators
    that [R] relates *)
Lemma gfpW_sim (N N' : (val -> Prop) -> val -> Prop) :
  (forall X X' : val -> Prop, (forall v w, R v w -> X v -> X' w) -> forall v w, R v w -> N X v -> N' X' w) ->
  forall E E' : val -> Prop, (forall v w, R v w -> E v -> E' w) ->
  forall v w, R v w -> gfpW N P E v -> gfpW N' P' E' w.
Proof.
  intros HN E E' HE v w Hr [X [Xv HX]]. exists (fun b => exists a, R a b /\ X a).
  split; [exists v; split; assumption|].
  intros b [a [Hab Xa]]. destruct (HX a Xa) as [Ea|[Pa Na]].
  - left. eapply HE; eassumption.
  - right. split; [eapply HP; eassumption|].
    refine (HN X _ _ a b Hab Na). intros a' b' Hab' Xa'. exists a'. split; assumption.
Qed.

Lemma EUs_sim v : EUs G P Q v -> forall w, R v w -> EUs G' P' Q' w.
Proof.
  intro H. induction H as [v Hq | v i Hp Hi He _ IH]; intros w Hr.
  - apply EUs_here. eapply HQ; eassumption.
  - apply (EUs_step G' P' Q' w i).
    + eapply HP; eassumption.
    + rewrite <- Hn. exact Hi.
    + rewrite <- (R_en i v w Hi Hr). exact He.
    + apply IH. apply R_flip. exact Hr.
Qed.

Lemma AUs_sim v : AUs G P Q v -> forall w, R v w -> AUs G' P' Q' w.
Proof.
  intro H. induction H as [v Hq | v Hp Hm IHm Hs IHs]; intros w Hr.
  - apply AUs_here. eapply HQ; eassumption.
  - apply AUs_step.
    + eapply HP; eassumption.
    + intros i Hi He. rewrite <- Hn in Hi. apply (IHm i Hi).
      * rewrite (R_en i v w Hi Hr). exact He.
      * apply R_flip. exact Hr.
    + intro Hst. apply IHs; [eapply sim_steady_back; eassumption | exact Hr].
Qed.

Lemma EWs_sim v w : R v w -> EWs G P Q v -> EWs G' P' Q' w.
Proof. exact (gfpW_sim (EXs G) (EXs G') EXs_sim Q Q' HQ v w). Qed.

Lemma AWs_sim v w : R v w -> AWs G P Q v -> AWs G' P' Q' w.
Proof. exact (gfpW_sim (AXs G) (AXs G') AXs_sim Q Q' HQ v w). Qed.

Lemma EGs_sim v w : R v w -> EGs G P v -> EGs G' P' w.
Proof.
  intros Hr H. apply gfpW_no_exit. apply gfpW_no_exit in H.
  exact (gfpW_sim (EXs G) (EXs G') EXs_sim (fun _ => False) (fun _ => False) (fun _ _ _ F => F) v w Hr H).
Qed.

Lemma AGs_sim v w : R v w -> AGs G P v -> AGs G' P' w.
Proof.
  intros Hr H. apply gfpW_no_exit. apply gfpW_no_exit in H.
  exact (gfpW_sim (AXs G) (AXs G') AXs_sim (fun _ => False) (fun _ => False) (fun _ _ _ F => F) v w Hr H).
Qed.
End Pred.
End Sim.

(** the two-sided ("bisimulation") form: related valuations satisfy the same operators *)
Section Bisim.
Variables G G' : genv.
Variable R : val -> val -> Prop.
Hypothesis Hn : g_n G = g_n G'.
Hypothesis R_en : forall i v w, i < g_n G -> R v w -> enabled G i v = enabled G' i w.
Hypothesis R_flip : forall i v w, R v w -> R (vflip (TS i) v) (vflip (TS i) w).

Let R' : val -> val -> Prop := fun w v => R v w.

Local Lemma Hn' : g_n G' = g_n G.
Proof. symmetry. exact Hn. Qed.
Local Lemma R_en' : forall i v w, i < g_n G' -> R' v w -> enabled G' i v = enabled G i w.
Proof. intros i v w Hi Hr. symmetry. apply R_en; [rewrite Hn; exact Hi | exact Hr]. Qed.
Local Lemma R_flip' : forall i v w, R' v w -> R' (vflip (TS i) v) (vflip (TS i) w).
Proof. intros i v w Hr. apply R_flip. exact Hr. Qed.

Section Pred.
Variables P P' Q Q' : val -> Prop.
Hypothesis HP : forall v w, R v w -> (P v <-> P' w).
Hypothesis HQ : forall v w, R v w -> (Q v <-> Q' w).

Local Lemma HPf : forall v w, R v w -> P v -> P' w.
Proof. intros v w Hr. exact (proj1 (HP v w Hr)). Qed.
Local Lemma HPb : forall w v, R' w v -> P' w -> P v.
Proof. intros w v Hr. exact (proj2 (HP v w Hr)). Qed.
Local Lemma HQf : forall v w, R v w -> Q v -> Q' w.
Proof. intros v w Hr. exact (proj1 (HQ v w Hr)). Qed.
Local Lemma HQb : forall w v, R' w v -> Q' w -> Q v.
Proof. intros w v Hr. exact (proj2 (HQ v w Hr)). Qed.

Lemma EXs_bisim v w : R v w -> (EXs G P v <-> EXs G' P' w).
Proof.
  intro Hr. split.
  - exact (EXs_sim G G' R Hn R_en R_flip P P' HPf v w Hr).
  - exact (EXs_sim G' G R' Hn' R_en' R_flip' P' P HPb w v Hr).
Qed.

Lemma AXs_bisim v w : R v w -> (AXs G P v <-> AXs G' P' w).
Proof.
  intro Hr. split.
  - exact (AXs_sim G G' R Hn R_en R_flip P P' HPf v w Hr).
  - exact (AXs_sim G' G R' Hn' R_en' R_flip' P' P HPb w v Hr).
Qed.

Lemma EUs_bisim v w : R v w -> (EUs G P Q v <-> EUs G' P' Q' w).
Proof.
  intro Hr. split; intro H.
  - exact (EUs_sim G G' R Hn R_en R_flip P P' Q Q' HPf HQf v H w Hr).
  - exact (EUs_sim G' G R' Hn' R_en' R_flip' P' P Q' Q HPb HQb w H v Hr).
Qed.

Lemma AUs_bisim v w : R v w -> (AUs G P Q v <-> AUs G' P' Q' w).
Proof.
  intro Hr. split; intro H.
  - exact (AUs_sim G G' R Hn R_en R_flip P P' Q Q' HPf HQf v H w Hr).
  - exact (AUs_sim G' G R' Hn' R_en' R_flip' P' P Q' Q HPb HQb w H v Hr).
Qed.

Lemma EGs_bisim v w : R v w -> (EGs G P v <-> EGs G' P' w).
Proof.
  intro Hr. split.
  - exact (EGs_sim G G' R Hn R_en R_flip P P' HPf v w Hr).
  - exact (EGs_sim G' G R' Hn' R_en' R_flip' P' P HPb w v Hr).
Qed.

Lemma AGs_bisim v w : R v w -> (AGs G P v <-> AGs G' P' w).
Proof.
  intro Hr. split.
  - exact (AGs_sim G G' R Hn R_en R_flip P P' HPf v w Hr).
  - exact (AGs_sim G' G R' Hn' R_en' R_flip' P' P HPb w v Hr).
Qed.

Lemma EWs_bisim v w : R v w -> (EWs G P Q v <-> EWs G' P' Q' w).
Proof.
  intro Hr. split.
  - exact (EWs_sim G G' R Hn R_en R_flip P P' Q Q' HPf HQf v w Hr).
  - exact (EWs_sim G' G R' Hn' R_en' R_flip' P' P Q' Q HPb HQb w v Hr).
Qed.

Lemma AWs_bisim v w : R v w -> (AWs G P Q v <-> AWs G' P' Q' w).
Proof.
  intro Hr. split.
  - exact (AWs_sim G G' R Hn R_en R_flip P P' Q Q' HPf HQf v w Hr).
  - exact (AWs_sim G' G R' Hn' R_en' R_flip' P' P Q' Q HPb HQb w v Hr).
Qed.
End Pred.

Lemma EFs_bisim (P P' : val -> Prop) : (forall v w, R v w -> (P v <-> P' w)) ->
  forall v w, R v w -> (EFs G P v <-> EFs G' P' w).
Proof.
  intros HP v w Hr. unfold EFs. apply EUs_bisim; [intros; tauto | exact HP | exact Hr].
Qed.

Lemma AFs_bisim (P P' : val -> Prop) : (forall v w, R v w -> (P v <-> P' w)) ->
  forall v w, R v w -> (AFs G P v <-> AFs G' P' w).
Proof.
  intros HP v w Hr. unfold AFs. apply AUs_bisim; [intros; tauto | exact HP | exact Hr].
Qed.
End Bisim.

(** equal valuations inside a set [Inv]: a simulation between two graphs that have the same
    transitions on [Inv], if the moves stay in [Inv] *)
Definition rel_inv (Inv : val -> Prop) (v w : val) : Prop := v = w /\ Inv v.

Lemma rel_inv_en G G' (Inv : val -> Prop) : (forall i v, Inv v -> enabled G i v = enabled G' i v) ->
  forall i v w, i < g_n G -> rel_inv Inv v w -> enabled G i v = enabled G' i w.
Proof. intros Hen i v w _ [<- H]. apply Hen, H. Qed.

Lemma rel_inv_flip (Inv : val -> Prop) : (forall i v, Inv v -> Inv (vflip (TS i) v)) ->
  forall i v w, rel_inv Inv v w -> rel_inv Inv (vflip (TS i) v) (vflip (TS i) w).
Proof. intros HI i v w [-> H]. split; [reflexivity | apply HI; exact H]. Qed.

Section SemLaws.
Variable G : genv.
Local Notation n := (g_n G).

(** monotonicity of the operators below an invariant [D] of the moves: the simulation
    lemmas at the relation "equal, and inside [D]" *)
Section Inv.
Variable D : val -> Prop.
Hypothesis D_flip : forall v i, D v -> D (vflip (TS i) v).
Let D_en := rel_inv_en G G D (fun _ _ _ => eq_refl).
Let D_fl := rel_inv_flip D (fun i v => D_flip v i).

Lemma rel_inv_lift (X Y : val -> Prop) :
  (forall u, D u -> X u -> Y u) -> forall a b, rel_inv D a b -> X a -> Y b.
Proof. intros H a b [<- Da]. apply H, Da. Qed.

Lemma EXs_mono_on (X Y : val -> Prop) v : (forall u, D u -> X u -> Y u) -> D v -> EXs G X v -> EXs G Y v.
Proof.
  intros H Dv. exact (EXs_sim G G (rel_inv D) eq_refl D_en D_fl X Y (rel_inv_lift X Y H) v v (conj eq_refl Dv)).
Qed.

Lemma AXs_mono_on (X Y : val -> Prop) v : (forall u, D u -> X u -> Y u) -> D v -> AXs G X v -> AXs G Y v.
Proof.
  intros H Dv. exact (AXs_sim G G (rel_inv D) eq_refl D_en D_fl X Y (rel_inv_lift X Y H) v v (conj eq_refl Dv)).
Qed.

Section Pred.
Variables P P' Q Q' : val -> Prop.
Hypothesis HP : forall u, D u -> P u -> P' u.
Hypothesis HQ : forall u, D u -> Q u -> Q' u.
Let HPr := rel_inv_lift P P' HP.
Let HQr := rel_inv_lift Q Q' HQ.

Lemma EUs_mono_on v : D v -> EUs G P Q v -> EUs G P' Q' v.
Proof.
  intros Dv H. exact (EUs_sim G G (rel_inv D) eq_refl D_en D_fl P P' Q Q' HPr HQr v H v (conj eq_refl Dv)).
Qed.

Lemma AUs_mono_on v : D v -> AUs G P Q v -> AUs G P' Q' v.
Proof.
  intros Dv H. exact (AUs_sim G G (rel_inv D) eq_refl D_en D_fl P P' Q Q' HPr HQr v H v (conj eq_refl Dv)).
Qed.

Lemma EWs_mono_on v : D v -> EWs G P Q v -> EWs G P' Q' v.
Proof.
  intro Dv. exact (EWs_sim G G (rel_inv D) eq_refl D_en D_fl P P' Q Q' HPr HQr v v (conj eq_refl Dv)).
Qed.

Lemma AWs_mono_on v : D v -> AWs G P Q v -> AWs G P' Q' v.
Proof.
  intro Dv. exact (AWs_sim G G (rel_inv D) eq_refl D_en D_fl P P' Q Q' HPr HQr v v (conj eq_refl Dv)).
Qed.

Lemma EGs_mono_on v : D v -> EGs G P v -> EGs G P' v.
Proof.
  intro Dv. exact (EGs_sim G G (rel_inv D) eq_refl D_en D_fl P P' HPr v v (conj eq_refl Dv)).
Qed.

Lemma AGs_mono_on v : D v -> AGs G P v -> AGs G P' v.
Proof.
  intro Dv. exact (AGs_sim G G (rel_inv D) eq_refl D_en D_fl P P' HPr v v (conj eq_refl Dv)).
Qed.
End Pred.
End Inv.

Lemma EXs_mono (X Y : val -> Prop) v : (forall u, X u -> Y u) -> EXs G X v -> EXs G Y v.
Proof. intro H. apply (EXs_mono_on (fun _ => True)); [intros; exact I | intros u _; apply H | exact I]. Qed.

Lemma AXs_mono (X Y : val -> Prop) v : (forall u, X u -> Y u) -> AXs G X v -> AXs G Y v.
Proof. intro H. apply (AXs_mono_on (fun _ => True)); [intros; exact I | intros u _; apply H | exact I]. Qed.

Lemma EGs_EWs P v : EGs G P v <-> EWs G P (fun _ => False) v.
Proof. exact (gfpW_no_exit (EXs G) P v). Qed.

Lemma AGs_AWs P v : AGs G P v <-> AWs G P (fun _ => False) v.
Proof. exact (gfpW_no_exit (AXs G) P v). Qed.

Variables P Q : val -> Prop.

Lemma EUs_unfold v : EUs G P Q v <-> Q v \/ (P v /\ EXs G (EUs G P Q) v).
Proof.
  split.
  - intro H. destruct H as [v Hq | v i Hp Hi He H]; [left; assumption|].
    right. split; [assumption|]. left. exists i. auto.
  - intros [Hq|[Hp [[i [Hi [He H]]]|[_ H]]]].
    + apply EUs_here; assumption.
    + eapply EUs_step; eassumption.
    + assumption.
Qed.

Lemma AUs_unfold v : AUs G P Q v <-> Q v \/ (P v /\ AXs G (AUs G P Q) v).
Proof.
  split.
  - intro H. destruct H as [v Hq | v Hp Hm Hs]; [left; assumption|].
    right. split; [assumption|]. split; assumption.
  - intros [Hq|[Hp [Hm Hs]]]; [apply AUs_here; assumption | apply AUs_step; assumption].
Qed.

Lemma EWs_unfold v : EWs G P Q v <-> Q v \/ (P v /\ EXs G (EWs G P Q) v).
Proof. exact (gfpW_unfold (EXs G) EXs_mono P Q v). Qed.

Lemma AWs_unfold v : AWs G P Q v <-> Q v \/ (P v /\ AXs G (AWs G P Q) v).
Proof. exact (gfpW_unfold (AXs G) AXs_mono P Q v). Qed.

Lemma EGs_unfold v : EGs G P v <-> P v /\ EXs G (EGs G P) v.
Proof. exact (gfpG_unfold (EXs G) EXs_mono P (EGs G P) (EGs_EWs P) v). Qed.

Lemma AGs_unfold v : AGs G P v <-> P v /\ AXs G (AGs G P) v.
Proof. exact (gfpG_unfold (AXs G) AXs_mono P (AGs G P) (AGs_AWs P) v). Qed.

(** E[P W Q] = E[P U Q] or EG P, given that E[P U Q] is decidable at the state *)
Lemma EW_split v : (forall u, EUs G P Q u \/ ~ EUs G P Q u) ->
  (EWs G P Q v <-> EUs G P Q v \/ EGs G P v).
Proof.
  intro Dec. split.
  - intros [X [Xv HX]]. destruct (Dec v) as [He|Hn]; [left; assumption|right].
    exists (fun u => X u /\ ~ EUs G P Q u). split; [split; assumption|].
    intros u [Xu Hnu]. destruct (HX u Xu) as [Hq|[Hp He]].
    + exfalso. apply Hnu. apply EUs_here. assumption.
    + split; [assumption|]. destruct He as [[i [Hi [He Xi]]]|[Hs _]].
      * left. exists i. split; [assumption|]. split; [assumption|]. split; [assumption|].
        intro HE. apply Hnu. eapply EUs_step; eassumption.
      * right. split; [assumption|]. split; assumption.
  - intros [He|[X [Xv HX]]].
    + exists (EUs G P Q). split; [assumption|]. intros u Hu. apply EUs_unfold in Hu. exact Hu.
    + exists X. split; [assumption|]. intros u Xu. right. apply HX. assumption.
Qed.
End SemLaws.

