(** C20 -- the answer for a colour is the answer on the network instantiated by that colour.

    1. [sat] reads a graph only through [g_n], [g_k] and [enabled] at valuations of the colour
       of the valuation it is asked about (a path never leaves its colour).
    2. [instantiate c G] fixes every parameter level of every update function to the value
       given by the colour [c]; on valuations of colour [c] it has the transitions of [G], and
       its transitions do not read the colour bits at all.
    3. Consequently the evaluator returns, for a valuation of colour [c], the same answer on
       [G] and on [instantiate c G]. *)
From HCTL Require Import Base Syntax Canon MarkDup TT Ops Eval Kripke HCTL.
From HCTL Require Import TTFacts OpsFacts FixFacts SemFacts HybridFacts EvalPure Main IndepFacts.

(** [v] has the colour (parameter bits) of [c] *)
Definition has_colour (c v : val) : Prop := forall j, v (TP j) = c (TP j).

Lemma has_colour_refl c : has_colour c c.
Proof. intro j; reflexivity. Qed.

(** moves, binding and jumping do not touch the parameter bits *)
Lemma has_colour_same c v v' : (forall j, v' (TP j) = v (TP j)) -> has_colour c v -> has_colour c v'.
Proof. intros E Hc j. rewrite E. apply Hc. Qed.

Lemma has_colour_with_state c u v : has_colour c v -> has_colour c (with_state u v).
Proof. intros Hc j. unfold with_state. apply Hc. Qed.

(** C20, first statement: the valuations of colour [c] are closed under everything [sat]
    moves along, so two graphs with the same transitions there give the same meaning *)
Theorem sat_depends_on_colour_only G G' names Gamma c :
  g_n G = g_n G' -> g_k G = g_k G' ->
  (forall i v, has_colour c v -> enabled G i v = enabled G' i v) ->
  forall t v, has_colour c v -> (sat G names Gamma t v <-> sat G' names Gamma t v).
Proof.
  intros Hn Hk Hen t v Hc.
  apply (sat_inv G G' names Gamma Gamma (has_colour c) (fun _ => True) Hn Hk
           (fun i v0 => has_colour_same c v0 _ (fun j => eq_refl))
           (fun e u v0 => has_colour_same c v0 _ (fun j => eq_refl))
           (fun e v0 => has_colour_same c v0 _ (fun j => eq_refl))
           (has_colour_with_state c) Hen); auto using sub_closed_all. tauto.
Qed.

(** fix every parameter level of a tree to the value the colour gives it *)
Fixpoint fix_colour (c : val) (L : layout) (t : tt) : tt :=
  match L, t with
  | g :: L', Node lo hi =>
      match g with
      | TP _ => let s := fix_colour c L' (if c g then hi else lo) in Node s s
      | _ => Node (fix_colour c L' lo) (fix_colour c L' hi)
      end
  | _, _ => t
  end.

Definition instantiate (c : val) (G : genv) : genv :=
  {| g_n := g_n G; g_p := g_p G; g_k := g_k G; g_L := g_L G;
     g_upd := map (fix_colour c (g_L G)) (g_upd G) |}.

(** [v] with its colour bits replaced by those of [c] *)
Definition recolour (c v : val) : val :=
  fun g => match g with TP _ => c g | _ => v g end.

Lemma recolour_has_colour c v : has_colour c (recolour c v).
Proof. intro j. reflexivity. Qed.

Lemma recolour_id c v g : has_colour c v -> recolour c v g = v g.
Proof. intro Hc. destruct g as [j|i|i e]; cbn [recolour]; [symmetry; apply Hc | reflexivity | reflexivity]. Qed.

Lemma shaped_fix_colour c L : forall t, shaped L t -> shaped L (fix_colour c L t).
Proof.
  induction L as [|g L IH]; intros [b|lo hi]; cbn [shaped fix_colour]; try tauto.
  intros [H1 H2]. destruct g as [j|i|i e]; cbn [shaped].
  - destruct (c (TP j)); split; apply IH; assumption.
  - split; apply IH; assumption.
  - split; apply IH; assumption.
Qed.

Lemma mem_fix_colour c L : forall t v,
  mem L (fix_colour c L t) v = mem L t (recolour c v).
Proof.
  induction L as [|g L IH]; intros [b|lo hi] v; cbn [fix_colour mem]; try reflexivity.
  destruct g as [j|i|i e]; cbn [mem recolour].
  - destruct (v (TP j)); destruct (c (TP j)); apply IH.
  - destruct (v (TS i)); apply IH.
  - destruct (v (TX i e)); apply IH.
Qed.

Lemma fix_colour_const c L b : fix_colour c L (const L b) = const L b.
Proof.
  induction L as [|g L IH]; cbn [const fix_colour]; [reflexivity|].
  destruct g as [j|i|i e].
  - destruct (c (TP j)); rewrite IH; reflexivity.
  - rewrite IH; reflexivity.
  - rewrite IH; reflexivity.
Qed.

Lemma instantiate_L c G : g_L (instantiate c G) = g_L G.
Proof. reflexivity. Qed.
Lemma instantiate_n c G : g_n (instantiate c G) = g_n G.
Proof. reflexivity. Qed.
Lemma instantiate_k c G : g_k (instantiate c G) = g_k G.
Proof. reflexivity. Qed.

Lemma upd_of_instantiate c G i :
  upd_of (instantiate c G) i = fix_colour c (g_L G) (upd_of G i).
Proof.
  unfold upd_of, empty. cbn [instantiate g_upd g_L].
  rewrite <- (fix_colour_const c (g_L G) false) at 1.
  apply map_nth.
Qed.

(** the transitions of the instantiated graph: those of G in colour c, whatever the colour
    bits of the valuation *)
Lemma enabled_instantiate c G i v :
  enabled (instantiate c G) i v = enabled G i (recolour c v).
Proof.
  unfold enabled. rewrite upd_of_instantiate. cbn [instantiate g_L].
  rewrite mem_fix_colour. reflexivity.
Qed.

Lemma enabled_instantiate_colour c G i v : has_colour c v ->
  enabled (instantiate c G) i v = enabled G i v.
Proof.
  intro Hc. rewrite enabled_instantiate. unfold enabled.
  rewrite (recolour_id c v (TS i) Hc). f_equal.
  apply mem_agree. intros g _. apply recolour_id. exact Hc.
Qed.

Theorem instantiate_ignores_colour c G i v w :
  (forall j, v (TS j) = w (TS j)) -> (forall j e, v (TX j e) = w (TX j e)) ->
  enabled (instantiate c G) i v = enabled (instantiate c G) i w.
Proof.
  intros Hs Hx. rewrite !enabled_instantiate. unfold enabled. cbn [recolour].
  rewrite (Hs i). f_equal.
  apply mem_agree. intros g _. destruct g as [j|j|j e]; cbn [recolour]; auto.
Qed.

(** C20, second statement *)
Theorem colour_slice c G names Gamma t v : has_colour c v ->
  (sat (instantiate c G) names Gamma t v <-> sat G names Gamma t v).
Proof.
  intro Hc. apply sat_depends_on_colour_only with (c := c); try reflexivity; [|exact Hc].
  intros i u Hu. apply enabled_instantiate_colour. exact Hu.
Qed.

Lemma wf_env_instantiate c G names U : wf_env G names U -> wf_env (instantiate c G) names U.
Proof.
  intros [A1 A2 A3 A4 A5 A6 A7 A8 A9 A10].
  constructor; cbn [instantiate g_L g_n g_k]; try assumption.
  - intro i. rewrite upd_of_instantiate. apply shaped_fix_colour. apply A2.
  - intros i v w Hvw. rewrite upd_of_instantiate, !mem_fix_colour.
    apply A8. intros g Hg. destruct g as [j|j|j e]; cbn [recolour]; auto.
Qed.

Lemma supported_instantiate c G t : supported G t -> supported (instantiate c G) t.
Proof.
  induction t as [a | o a IH | o a IHa b IHb | o x d a IH]; cbn [supported].
  - destruct a; auto.
  - exact IH.
  - intros [H1 H2]. split; auto.
  - intros [H1 H2]. split; auto.
Qed.

Section Evaluator.
Variable G : genv.
Variable names : list str.
Variable c : val.
Variables U U' : tt.
Hypothesis WF : wf_env G names U.
Hypothesis WF' : wf_env (instantiate c G) names U'.
Local Notation G' := (instantiate c G).
Local Notation L := (g_L G).

(** two sets that denote the meaning of [t] on G and on the instantiated graph agree on every
    valuation of colour c that lies in both units *)
Lemma colour_slice_mem Gamma t R R' :
  (forall v, mem L R v = true <-> mem L U v = true /\ sat G names Gamma t v) ->
  (forall v, mem L R' v = true <-> mem L U' v = true /\ sat G' names Gamma t v) ->
  forall v, has_colour c v -> mem L U v = true -> mem L U' v = true -> mem L R v = mem L R' v.
Proof.
  intros E E' v Hc Hu Hu'. apply eq_true_iff_eq.
  rewrite (E v), (E' v), (colour_slice c G names Gamma t v Hc). tauto.
Qed.

Theorem peval_colour_slice sw sw' t R R' : plainf t -> supported G t ->
  peval G names sw (steady_of G U) t U = Ok R ->
  peval G' names sw' (steady_of G' U') t U' = Ok R' ->
  forall v, has_colour c v -> mem L U v = true -> mem L U' v = true ->
  mem L R v = mem L R' v.
Proof.
  intros Hpl Hsup H H'. apply (colour_slice_mem (fun _ _ => True) t).
  - apply (peval_correct G names U WF _ sw t R Hpl Hsup H).
  - apply (peval_correct G' names U' WF' _ sw' t R' Hpl (supported_instantiate c G t Hsup) H').
Qed.

Theorem eval_node_colour_slice sw sw' t ctx ctx' R R' ctx1 ctx1' :
  plainf t -> supported G t -> duplicates ctx = [] -> duplicates ctx' = [] ->
  eval_node G names sw (steady_of G U) t U ctx = Ok (R, ctx1) ->
  eval_node G' names sw' (steady_of G' U') t U' ctx' = Ok (R', ctx1') ->
  forall v, has_colour c v -> mem L U v = true -> mem L U' v = true ->
  mem L R v = mem L R' v.
Proof.
  intros Hpl Hsup Hd Hd' H H'. apply (colour_slice_mem (fun _ _ => True) t).
  - apply (eval_node_correct G names U WF _ sw t ctx R ctx1 Hpl Hsup Hd H).
  - apply (eval_node_correct G' names U' WF' _ sw' t ctx' R' ctx1' Hpl
             (supported_instantiate c G t Hsup) Hd' H').
Qed.

End Evaluator.
