(** The fixed-point loops of Model/Ops.v inside a restricted unit.

    Inside the scope of a quantifier with a domain, eval_node works with a restricted unit
    [Uc] (a subset of the top-level unit [Utop]) but still hands down the steady-state set of
    the TOP-LEVEL unit, and argument sets (wild-card sets, the steady-state shortcut) need not
    be subsets of [Uc].  So the loops are characterised "at the valuations of Uc" only: [Uc]
    is closed under transitions, and the proofs only ever look at valuations of [Uc].  At the
    top level [Uc] is [Utop] itself. *)
From HCTL Require Import Base TT Ops Kripke TTFacts OpsFacts FixFacts.

Section ExtFix.
Variable G : genv.
Local Notation L := (g_L G).
Local Notation n := (g_n G).

Hypothesis L_nodup : NoDup L.
Hypothesis upd_shaped : forall i, shaped L (upd_of G i).
Hypothesis TS_in : forall i, i < n -> In (TS i) L.

(** the top-level unit (only its steady states are used) and the current unit *)
Variable Utop Uc : tt.
Hypothesis Utop_shaped : shaped L Utop.
Hypothesis Uc_shaped : shaped L Uc.
Hypothesis Uc_moves : forall v i, mem L Uc (vflip (TS i) v) = mem L Uc v.
Hypothesis Uc_sub : forall v, mem L Uc v = true -> mem L Utop v = true.

Local Notation st := (steady_of G Utop).
Local Notation inC v := (mem L Uc v = true).
Let M (S : tt) : val -> Prop := fun v => mem L S v = true.

(** inside the current unit the top-level steady set is "no update enabled" *)
Lemma st_in v : inC v -> (mem L st v = true <-> vsteady G v).
Proof.
  intro Hv. rewrite mem_steady_of by assumption. split; [tauto|].
  intro Hs. split; [apply Uc_sub; exact Hv | exact Hs].
Qed.

Lemma ex_in S v : shaped L S -> inC v ->
  (mem L (eval_ex G S st) v = true <-> EXs G (M S) v).
Proof.
  intros HS Hv. rewrite mem_eval_ex by auto with shaped.
  unfold EXs, M. rewrite (st_in v Hv). tauto.
Qed.

Lemma ax_in_unit S v : shaped L S -> mem L (eval_ax G Uc S st) v = true -> inC v.
Proof.
  intros HS H. unfold eval_ax in H. rewrite mem_eval_neg in H by auto with shaped.
  apply andb_true_iff in H. tauto.
Qed.

(** AX = not EX not, pointwise: membership is decidable *)
Lemma ax_in S v : shaped L S -> inC v ->
  (mem L (eval_ax G Uc S st) v = true <-> AXs G (M S) v).
Proof.
  intros HS Hv. unfold eval_ax.
  rewrite mem_eval_neg, Hv by auto with shaped. simpl. rewrite negb_true_iff.
  assert (HN : forall w, inC w -> (M (eval_neg Uc S) w <-> mem L S w = false)).
  { intros w Hw. unfold M. rewrite mem_eval_neg, Hw by assumption. simpl. apply negb_true_iff. }
  assert (Hf : forall i, inC (vflip (TS i) v)) by (intro i; rewrite Uc_moves; exact Hv).
  split.
  - intro H. split.
    + intros i Hi He. unfold M. destruct (mem L S (vflip (TS i) v)) eqn:E; [reflexivity|].
      rewrite <- H. apply ex_in; [auto with shaped | exact Hv |].
      left. exists i. split; [exact Hi|]. split; [exact He|]. apply HN; auto.
    + intro Hs. unfold M. destruct (mem L S v) eqn:E; [reflexivity|].
      rewrite <- H. apply ex_in; [auto with shaped | exact Hv |].
      right. split; [exact Hs|]. apply HN; auto.
  - intros [H1 H2]. destruct (mem L (eval_ex G (eval_neg Uc S) st) v) eqn:E; [|reflexivity].
    apply ex_in in E; [|auto with shaped | exact Hv].
    destruct E as [[i [Hi [He Hm]]]|[Hs Hm]]; apply HN in Hm; auto.
    + rewrite <- Hm. symmetry. apply H1; assumption.
    + rewrite <- Hm. symmetry. apply H2; assumption.
Qed.

Let Feg (old : tt) : tt := tand old (eval_ex G old st).

Lemma Feg_shaped S : shaped L S -> shaped L (Feg S).
Proof. intro H. unfold Feg. auto with shaped. Qed.

Lemma iter_Feg_shaped j S : shaped L S -> shaped L (Nat.iter j Feg S).
Proof. intro H. induction j; simpl; [assumption | apply Feg_shaped; assumption]. Qed.

#[local] Hint Resolve Feg_shaped iter_Feg_shaped : shaped.

Lemma iter_Feg_sub j S v : shaped L S -> mem L (Nat.iter j Feg S) v = true -> mem L S v = true.
Proof.
  intro HS. induction j; simpl; [auto|]. intro H. unfold Feg in H at 1.
  rewrite mem_tand in H by auto with shaped.
  apply andb_true_iff in H. tauto.
Qed.

(** the result is the greatest fixed point at the valuations of [Uc], and a subset of [phi]
    everywhere *)
Theorem eg_in phi r : shaped L phi ->
  eval_eg G phi st = Ok r ->
  shaped L r /\ (forall v, mem L r v = true -> mem L phi v = true) /\
  forall v, inC v -> (mem L r v = true <-> EGs G (M phi) v).
Proof.
  intros Hphi H. unfold eval_eg in H. apply while_neq_spec in H.
  destruct H as [[E1 E2]|[j [E1 E2]]].
  - (* phi is empty *)
    subst r. split; [assumption|]. split; [auto|]. intros v Hc. split.
    + intro Hv. rewrite E1, mem_empty in Hv. discriminate.
    + intros [X [Hv HX]]. destruct (HX v Hv) as [Hp _]. unfold M in Hp.
      rewrite E1, mem_empty in Hp. discriminate.
  - fold Feg in E1, E2.
    assert (Hr : shaped L r) by (rewrite E1; auto with shaped).
    assert (Sub : forall u, mem L r u = true -> mem L phi u = true).
    { intros u Hu. rewrite E1 in Hu. eapply iter_Feg_sub; eassumption. }
    split; [assumption|]. split; [exact Sub|]. intros v Hc. split.
    + (* r, cut down to Uc, is a post-fixed point *)
      intro Hv. exists (fun u => inC u /\ M r u). split; [split; assumption|].
      intros u [Hcu Hu]. split; [apply Sub; exact Hu|].
      unfold M in Hu. rewrite <- E2 in Hu. unfold Feg in Hu.
      rewrite mem_tand in Hu by auto with shaped.
      apply andb_true_iff in Hu. destruct Hu as [_ Hu].
      apply ex_in in Hu; try assumption.
      destruct Hu as [[i [Hi [He Hm]]]|[Hs Hm]].
      * left. exists i. split; [assumption|]. split; [assumption|].
        split; [rewrite Uc_moves; exact Hcu | exact Hm].
      * right. split; [assumption|]. split; assumption.
    + (* every post-fixed point stays below every iterate *)
      intros [X [Hv HX]]. rewrite E1. clear E1 E2 Sub. revert v Hc Hv.
      induction j as [|j IHj]; intros v Hc Hv; simpl.
      * apply HX; assumption.
      * unfold Feg at 1. rewrite mem_tand by auto with shaped.
        rewrite (IHj v Hc Hv). simpl.
        apply ex_in; [auto with shaped | exact Hc | ].
        destruct (HX v Hv) as [_ [[i [Hi [He Hm]]]|[Hs Hm]]].
        -- left. exists i. split; [assumption|]. split; [assumption|]. unfold M.
           apply IHj; [rewrite Uc_moves; exact Hc | exact Hm].
        -- right. split; [assumption|]. unfold M. apply IHj; assumption.
Qed.

(** valuations of the current unit outside the computed EG set reach the complement of phi
    on every path *)
Theorem eg_compl_in phi r : shaped L phi ->
  eval_eg G phi st = Ok r ->
  forall v, inC v -> mem L r v = false ->
            AUs G (fun _ => True) (fun w => inC w /\ mem L phi w = false) v.
Proof.
  intros Hphi H. unfold eval_eg in H. apply while_neq_spec in H.
  assert (Iter : forall j v, inC v -> mem L (Nat.iter j Feg phi) v = false ->
            AUs G (fun _ => True) (fun w => inC w /\ mem L phi w = false) v).
  { induction j as [|j IHj]; intros v Hu Hv; simpl in Hv.
    - apply AUs_here. auto.
    - unfold Feg in Hv at 1. rewrite mem_tand in Hv by auto with shaped.
      apply andb_false_iff in Hv. destruct Hv as [Hv|Hv]; [apply IHj; assumption|].
      destruct (mem L (Nat.iter j Feg phi) v) eqn:Ev; [|apply IHj; assumption].
      assert (NE : ~ EXs G (M (Nat.iter j Feg phi)) v).
      { intro X. apply ex_in in X; [congruence | auto with shaped | exact Hu]. }
      apply AUs_step; [exact I | |].
      + intros i Hi He. apply IHj; [rewrite Uc_moves; exact Hu|].
        destruct (mem L (Nat.iter j Feg phi) (vflip (TS i) v)) eqn:E2; [|reflexivity].
        exfalso. apply NE. left. exists i. auto.
      + intro Hs. exfalso. apply NE. right. split; [exact Hs | exact Ev]. }
  destruct H as [[E1 E2]|[j [E1 E2]]].
  - intros v Hu _. apply AUs_here. split; [assumption|]. rewrite E1. apply mem_empty.
  - intros v Hu Hv. apply (Iter j); [assumption|]. rewrite E1 in Hv. exact Hv.
Qed.

Section AU.
Variable phi1 : tt.
Hypothesis phi1_shaped : shaped L phi1.
Let Fau (old : tt) : tt := tor old (tand phi1 (eval_ax G Uc old st)).

Lemma Fau_shaped S : shaped L S -> shaped L (Fau S).
Proof. intro H. unfold Fau. auto 6 with shaped. Qed.

Lemma iter_Fau_shaped j S : shaped L S -> shaped L (Nat.iter j Fau S).
Proof. intro H. induction j; simpl; [assumption | apply Fau_shaped; assumption]. Qed.

#[local] Hint Resolve Fau_shaped iter_Fau_shaped : shaped.

Lemma iter_Fau_mono j S v : shaped L S -> mem L S v = true -> mem L (Nat.iter j Fau S) v = true.
Proof.
  intros HS Hv. induction j; simpl; [exact Hv|]. unfold Fau at 1.
  rewrite mem_tor by auto 6 with shaped. rewrite IHj. reflexivity.
Qed.

(** every valuation has an enabled move or is steady *)
Lemma move_or_steady v : (exists i, i < n /\ enabled G i v = true) \/ vsteady G v.
Proof.
  destruct (existsb (fun i => enabled G i v) (range n)) eqn:Ex.
  - apply existsb_exists in Ex. destruct Ex as [i [Hi He]]. apply in_range in Hi. eauto.
  - right. intros i Hi. destruct (enabled G i v) eqn:He; [|reflexivity].
    rewrite <- Ex. symmetry. apply existsb_exists. exists i. split; [apply in_range; exact Hi | exact He].
Qed.

(** the result is the least fixed point at the valuations of [Uc]; outside [Uc] it adds
    nothing to [phi2] *)
Theorem au_in phi2 r : shaped L phi2 ->
  eval_au G Uc phi1 phi2 st = Ok r ->
  shaped L r /\ (forall v, mem L r v = true -> mem L phi2 v = true \/ inC v) /\
  forall v, inC v -> (mem L r v = true <-> AUs G (M phi1) (M phi2) v).
Proof.
  intros Hphi2 H. unfold eval_au in H. fold Fau in H. apply while_neq_spec in H.
  (* every iterate is sound *)
  assert (Sound : forall j v, mem L (Nat.iter j Fau phi2) v = true ->
            (mem L phi2 v = true \/ inC v) /\ (inC v -> AUs G (M phi1) (M phi2) v)).
  { induction j as [|j IHj]; simpl; intros v Hv.
    - split; [auto|]. intros _. apply AUs_here; exact Hv.
    - unfold Fau in Hv at 1. rewrite mem_tor in Hv by auto 6 with shaped.
      apply orb_true_iff in Hv. destruct Hv as [Hv|Hv]; [apply IHj; assumption|].
      rewrite mem_tand in Hv by auto with shaped.
      apply andb_true_iff in Hv. destruct Hv as [Hp Hax].
      pose proof (ax_in_unit _ _ (iter_Fau_shaped j _ Hphi2) Hax) as Hc.
      split; [auto|]. intros _.
      apply ax_in in Hax; [|auto with shaped | exact Hc]. destruct Hax as [A1 A2].
      apply AUs_step; [exact Hp | | ].
      + intros i Hi He. apply IHj; [apply A1; assumption | rewrite Uc_moves; exact Hc].
      + intro Hs. apply IHj; [apply A2; assumption | exact Hc]. }
  destruct H as [[E1 E2]|[j [E1 E2]]].
  - (* phi2 empty: the result is empty; nothing satisfies A[.U.] *)
    subst r. split; [assumption|]. split; [auto|].
    intros v Hc. rewrite E1, mem_empty. split; [discriminate|].
    intro HA. exfalso.
    induction HA as [v Hq | v Hp Hm IHm Hs IHs].
    + unfold M in Hq. rewrite mem_empty in Hq. discriminate.
    + destruct (move_or_steady v) as [[i [Hi He]]|Hst].
      * apply (IHm i Hi He). rewrite Uc_moves. exact Hc.
      * apply IHs; assumption.
  - split; [rewrite E1; auto with shaped|]. split; [intros v Hv; rewrite E1 in Hv; apply (Sound j v Hv)|].
    intros v Hc. split; [intro Hv; rewrite E1 in Hv; apply (Sound j v Hv); exact Hc|].
    intro HA. induction HA as [v Hq | v Hp Hm IHm Hs IHs].
    + (* phi2 is below every iterate *)
      rewrite E1. apply iter_Fau_mono; assumption.
    + rewrite <- E2. unfold Fau.
      assert (Hr : shaped L r) by (rewrite E1; auto with shaped).
      rewrite mem_tor by auto 6 with shaped.
      apply orb_true_iff. right.
      rewrite mem_tand by auto with shaped.
      unfold M in Hp. rewrite Hp. simpl.
      apply ax_in; try assumption. split.
      * intros i Hi He. apply IHm; try assumption. rewrite Uc_moves. exact Hc.
      * intro Hst. apply IHs; assumption.
Qed.
End AU.

End ExtFix.
