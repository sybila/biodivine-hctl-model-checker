(** The specification-level oracle [sem] / [sem_eval] of Spec/Sem.v computes [sat]
    (the same specification as the one met by the symbolic model, Main.v):

    1. per-colour transition structure: [enabled] of the lifted graph [mk_genv p n k upd] is
       [xorb (upd_at ..) (s (TS i))], so [succs] enumerates exactly the [vflip (TS i)]
       successors (or the self-loop of a steady state);
    2. the explicit-state operators [s_ex], [s_ax], [s_eu], [s_au], [s_eg], [s_ag], [s_ew],
       [s_aw] denote EXs, AXs, EUs, AUs, EGs, AGs, EWs, AWs ([fix_iter] partial correctness);
    3. [sem] denotes [sat] for formulae named as after preprocessing ([depth_named]) whose
       variables are supported, including the hybrid operators; [assemble] / [sem_eval]
       put the colours together. *)
From HCTL Require Import Base Syntax Preprocess TT Ops Eval Pipeline Kripke HCTL Sem.
From HCTL Require Import KripkeFacts TTFacts OpsFacts FixFacts EvalPure LayoutFacts PrepFacts IndepFacts ExtEval.
From HCTL Require Import BaseFacts.

Lemma shaped_tabulate L : forall f, shaped L (tabulate L f).
Proof. induction L as [|h L IH]; intro f; cbn [tabulate shaped]; auto. Qed.

(** [tabulate] is exact for functions that only read the tags of the layout *)
Lemma mem_tabulate L : forall f v,
  (forall u w, agree L u w -> f u = f w) -> mem L (tabulate L f) v = f v.
Proof.
  induction L as [|h L IH]; intros f v Hf; cbn [tabulate mem].
  - apply Hf. intros g [].
  - assert (Hb : forall b, (forall u w, agree L u w ->
               f (fun g => if tag_eqb g h then b else u g) = f (fun g => if tag_eqb g h then b else w g))).
    { intros b u w A. apply Hf. intros g Hg. destruct (tag_eqb g h) eqn:E; [reflexivity|].
      destruct Hg as [->|Hg]; [rewrite tag_eqb_refl in E; discriminate | apply A, Hg]. }
    destruct (v h) eqn:Vh; rewrite (IH _ v (Hb _)); apply Hf; intros g _;
      destruct (tag_eqb g h) eqn:E; try reflexivity; apply tag_eqb_eq in E; subst g; symmetry; exact Vh.
Qed.

(** [existsb] and [forallb] through [map], so that one fact about the mapped list serves both *)
Lemma existsb_map {A} (f : A -> bool) l : existsb f l = existsb (fun b => b) (map f l).
Proof. induction l as [|a l IH]; cbn [map existsb]; [reflexivity | rewrite IH; reflexivity]. Qed.

Lemma forallb_map {A} (f : A -> bool) l : forallb f l = forallb (fun b => b) (map f l).
Proof. induction l as [|a l IH]; cbn [map forallb]; [reflexivity | rewrite IH; reflexivity]. Qed.

Lemma iter_succ_r {A} (f : A -> A) j x : Nat.iter (S j) f x = Nat.iter j f (f x).
Proof. induction j as [|j IH]; [reflexivity|]. cbn [Nat.iter nat_rect] in *. rewrite IH. reflexivity. Qed.

(** the oracle's loop is the model's loop [while_neq] after its first round *)
Lemma fix_iter_while fuel F : forall x, fix_iter (S fuel) F x = while_neq fuel F (F x) x.
Proof.
  induction fuel as [|f IH]; intro x.
  - cbn. destruct (tt_eqb (F x) x) eqn:E; [apply tt_eqb_eq in E; rewrite E|]; reflexivity.
  - change (fix_iter (S (S f)) F x) with (if tt_eqb (F x) x then Ok x else fix_iter (S f) F (F x)).
    change (while_neq (S f) F (F x) x)
      with (if tt_eqb (F x) x then Ok (F x) else while_neq f F (F (F x)) (F x)).
    destruct (tt_eqb (F x) x) eqn:E; [apply tt_eqb_eq in E; rewrite E; reflexivity | apply IH].
Qed.

Lemma fix_iter_spec fuel F : forall x r,
  fix_iter fuel F x = Ok r -> F r = r /\ exists j, r = Nat.iter j F x.
Proof.
  intros x r. destruct fuel as [|f]; [discriminate|]. rewrite fix_iter_while. intro H.
  destruct (while_neq_spec _ _ _ _ _ H) as [[E ->]|[j [-> E]]].
  - split; [congruence | exists 0; exact E].
  - split; [exact E | exists (S j); symmetry; apply iter_succ_r].
Qed.

Lemma fix_iter_ext fuel F F' : (forall x, F x = F' x) -> forall x, fix_iter fuel F x = fix_iter fuel F' x.
Proof.
  intro H. induction fuel as [|fuel IH]; intro x; cbn [fix_iter]; [reflexivity|].
  rewrite <- (H x). destruct (tt_eqb (F x) x); [reflexivity | apply IH].
Qed.

Lemma tor_const_false L : forall x, shaped L x -> tor (const L false) x = x.
Proof.
  induction L as [|h L IH]; intros [b|lo hi] S; cbn [shaped] in S; try contradiction; [reflexivity|].
  destruct S as [S0 S1]. unfold tor in *. cbn [const map2]. rewrite (IH lo S0), (IH hi S1). reflexivity.
Qed.

Lemma for_states_spec {A} (f : val -> res A) : forall l rs,
  for_states l f = Ok rs ->
  (forall u a, In (u, a) rs -> In u l /\ f u = Ok a) /\
  (forall u, In u l -> exists a, In (u, a) rs /\ f u = Ok a).
Proof.
  induction l as [|u0 l IH]; intros rs H; cbn [for_states] in H.
  - injection H as <-. split; [intros u a [] | intros u []].
  - destruct (f u0) as [a0| | |] eqn:E0; cbn [bind] in H; try discriminate.
    destruct (for_states l f) as [rest| | |] eqn:ER; cbn [bind] in H; try discriminate.
    injection H as <-. destruct (IH rest eq_refl) as [I1 I2]. split.
    + intros u a [Hin|Hin].
      * injection Hin as <- <-. split; [left; reflexivity | exact E0].
      * destruct (I1 u a Hin) as [X Y]. split; [right; exact X | exact Y].
    + intros u [<-|Hin].
      * exists a0. split; [left; reflexivity | exact E0].
      * destruct (I2 u Hin) as [a [X Y]]. exists a. split; [right; exact X | exact Y].
Qed.

(** [all_vals L] contains a representative of every valuation of the tags of [L] *)
Lemma all_vals_complete L : forall v, exists u, In u (all_vals L) /\ agree L u v.
Proof.
  induction L as [|h L IH]; intro v; cbn [all_vals].
  - exists (fun _ => false). split; [left; reflexivity | intros g []].
  - destruct (IH v) as [u [Hu A]].
    exists (fun g => if tag_eqb g h then v h else u g). split.
    + apply in_app_iff. destruct (v h); [right|left]; apply in_map_iff; exists u; split; auto.
    + intros g Hg. destruct (tag_eqb g h) eqn:E.
      * apply tag_eqb_eq in E. subst g. reflexivity.
      * destruct Hg as [->|Hg]; [rewrite tag_eqb_refl in E; discriminate | apply A, Hg].
Qed.

Lemma index_of_name_prop_index x l : forall i, index_of_name x l i = prop_index x l i.
Proof. induction l as [|y l IH]; intro i; cbn [index_of_name prop_index]; [reflexivity|]. rewrite IH. reflexivity. Qed.

Lemma prop_index_bound x l i j : prop_index x l i = Some j -> j < i + length l.
Proof. rewrite <- index_of_prop_index. apply index_of_bound. Qed.

Section Oracle.
Variables n p k : nat.
Variable upd : list tt.
Variable names : list str.
Variable ctxs : list (str * tt).

Local Notation G := (mk_genv p n k upd).
Local Notation Ln := (Sem.Ln n).
Local Notation Lpn := (Sem.Lpn n p).
Local Notation smem := (Sem.smem n).

Hypothesis upd_shaped : List.Forall (shaped Lpn) upd.

(** the context sets of the oracle, as the [Gamma] of [sat] *)
Definition ctx_Gamma (l : str) (v : val) : Prop :=
  exists X, alookup str_eqb l ctxs = Some X /\ mem Lpn X v = true.
Local Notation Gamma := ctx_Gamma.

(** [v] has the colour [c] (on the parameter bits of the network) *)
Definition col_is (c v : val) : Prop := forall j, j < p -> v (TP j) = c (TP j).
(** [v] holds the state [s] (on the state bits of the network) *)
Definition state_is (s v : val) : Prop := forall i, i < n -> v (TS i) = s (TS i).

(** the valuation with colour [c], state [s] and copies [rho] *)
Definition lift (c : val) (rho : nat -> val) (s : val) : val :=
  fun g => match g with TP _ => c g | TS _ => s g | TX i e => rho e (TS i) end.

Lemma in_Ln g : In g Ln <-> exists i, i < n /\ g = TS i.
Proof.
  unfold Sem.Ln. rewrite in_map_iff. split.
  - intros [i [E Hi]]. exists i. apply in_range in Hi. auto.
  - intros [i [Hi E]]. exists i. split; [auto | apply in_range; exact Hi].
Qed.

Lemma in_Lpn g : In g Lpn <-> (exists j, j < p /\ g = TP j) \/ (exists i, i < n /\ g = TS i).
Proof.
  unfold Sem.Lpn, Sem.Lp. rewrite in_app_iff, <- in_Ln, in_map_iff. split.
  - intros [[j [E Hj]]|H]; [left; exists j; apply in_range in Hj; auto | right; exact H].
  - intros [[j [Hj E]]|H]; [left; exists j; split; [auto | apply in_range; exact Hj] | right; exact H].
Qed.

Lemma agree_Ln u v : agree Ln u v <-> state_is v u.
Proof.
  split.
  - intros A i Hi. apply A. apply in_Ln. exists i. auto.
  - intros S g Hg. apply in_Ln in Hg. destruct Hg as [i [Hi ->]]. apply S, Hi.
Qed.

Lemma smem_agree X u v : state_is v u -> smem X u = smem X v.
Proof. intro S. apply mem_agree, agree_Ln, S. Qed.

Lemma state_is_refl v : state_is v v.
Proof. intros i _. reflexivity. Qed.

Lemma state_is_sym u v : state_is u v -> state_is v u.
Proof. intros S i Hi. symmetry. apply S, Hi. Qed.

Lemma agree_Lpn u v : agree Lpn u v <-> (forall j, j < p -> u (TP j) = v (TP j)) /\ state_is v u.
Proof.
  split.
  - intro A. split; [intros j Hj | intros i Hi]; apply A, in_Lpn; [left | right]; eauto.
  - intros [C S] g Hg. apply in_Lpn in Hg. destruct Hg as [[j [Hj ->]]|[i [Hi ->]]]; [apply C, Hj | apply S, Hi].
Qed.

Lemma agree_Lpn_join c s v : col_is c v -> state_is s v -> agree Lpn (join c s) v.
Proof. intros C S. apply agree_Lpn. split; [intros j Hj | intros i Hi]; symmetry; [apply C, Hj | apply S, Hi]. Qed.

Lemma mem_Lpn_join c s v t : col_is c v -> state_is s v -> mem Lpn t (join c s) = mem Lpn t v.
Proof. intros C S. apply mem_agree, agree_Lpn_join; assumption. Qed.

Lemma mem_Lpn_agree t u v : (forall j, j < p -> u (TP j) = v (TP j)) -> state_is v u ->
  mem Lpn t u = mem Lpn t v.
Proof. intros C S. apply mem_agree, agree_Lpn. split; assumption. Qed.

Lemma join_agree c a b : state_is a b -> agree Lpn (join c a) (join c b).
Proof. intro S. apply agree_Lpn. split; [reflexivity | intros i Hi; symmetry; apply S, Hi]. Qed.

Lemma state_eqb_iff s u : state_eqb n s u = true <-> state_is u s.
Proof.
  unfold state_eqb. rewrite forallb_forall. split.
  - intros H i Hi. apply Bool.eqb_prop. apply H. apply in_Ln. exists i. auto.
  - intros S g Hg. apply in_Ln in Hg. destruct Hg as [i [Hi ->]]. rewrite (S i Hi). apply Bool.eqb_reflx.
Qed.

Lemma mem_upd_of i v : mem (g_L G) (upd_of G i) v = mem Lpn (nth i upd (Leaf false)) v.
Proof.
  cbn [g_L mk_genv]. rewrite (mem_upd_of_mk_genv p n upd upd_shaped k i v). change (LayoutFacts.Lpn p n) with Lpn.
  destruct (Nat.lt_ge_cases i (length upd)) as [Hi|Hi].
  - rewrite (nth_indep _ _ (Leaf false) Hi). reflexivity.
  - rewrite !nth_overflow by exact Hi. rewrite mem_const. destruct Lpn; reflexivity.
Qed.

Theorem enabled_upd_at c s v i : col_is c v -> state_is s v ->
  enabled G i v = xorb (upd_at n p upd c s i) (v (TS i)).
Proof.
  intros C S. unfold enabled, upd_at. rewrite mem_upd_of, (mem_Lpn_join c s v) by assumption. reflexivity.
Qed.

Lemma upd_at_agree c s s' i : state_is s s' -> upd_at n p upd c s i = upd_at n p upd c s' i.
Proof. intro S. apply mem_agree, join_agree, S. Qed.

Lemma moves_agree c s s' : state_is s s' -> Sem.moves n p upd c s = Sem.moves n p upd c s'.
Proof.
  intro S. unfold Sem.moves. apply filter_ext_in. intros i Hi. apply in_range in Hi.
  rewrite (upd_at_agree c s s' i S), (S i Hi). reflexivity.
Qed.

Lemma in_moves c v i : col_is c v ->
  (In i (Sem.moves n p upd c v) <-> i < n /\ enabled G i v = true).
Proof.
  intro C. unfold Sem.moves. rewrite filter_In, in_range.
  rewrite (enabled_upd_at c v v i C (state_is_refl v)). reflexivity.
Qed.

Lemma moves_nil c v : col_is c v -> (Sem.moves n p upd c v = [] <-> vsteady G v).
Proof.
  intro C. split.
  - intros E i Hi. destruct (enabled G i v) eqn:En; [|reflexivity].
    assert (X : In i (Sem.moves n p upd c v)) by (apply in_moves; auto). rewrite E in X. destruct X.
  - intro St. destruct (Sem.moves n p upd c v) as [|i l] eqn:E; [reflexivity|].
    assert (X : In i (Sem.moves n p upd c v)) by (rewrite E; left; reflexivity).
    apply in_moves in X; [|exact C]. destruct X as [Hi En]. rewrite (St i Hi) in En. discriminate.
Qed.

(** [succs] enumerates the [vflip (TS i)] successors of the enabled [i], or the self-loop *)
Theorem in_succs c v u : col_is c v ->
  (In u (succs n p upd c v) <->
   (exists i, i < n /\ enabled G i v = true /\ u = vflip (TS i) v) \/ (vsteady G v /\ u = v)).
Proof.
  intro C. unfold succs. destruct (Sem.moves n p upd c v) as [|i0 l] eqn:E.
  - assert (St : vsteady G v) by (apply (moves_nil c v C); exact E). split.
    + intros [<-|[]]. right. split; [exact St | reflexivity].
    + intros [[i [Hi [En _]]]|[_ ->]]; [rewrite (St i Hi) in En; discriminate | left; reflexivity].
  - rewrite <- E. rewrite in_map_iff. split.
    + intros [i [<- Hi]]. apply in_moves in Hi; [|exact C]. destruct Hi as [Hi En].
      left. exists i. split; [exact Hi|]. split; [exact En | reflexivity].
    + intros [[i [Hi [En ->]]]|[St _]].
      * exists i. split; [reflexivity | apply in_moves; auto].
      * assert (X : Sem.moves n p upd c v = []) by (apply (moves_nil c v C); exact St).
        rewrite X in E. discriminate.
Qed.

Lemma existsb_succs c X v : col_is c v ->
  (existsb (smem X) (succs n p upd c v) = true <-> EXs G (fun u => smem X u = true) v).
Proof.
  intro C. rewrite existsb_exists. split.
  - intros [u [Hu Hm]]. apply (in_succs c v u C) in Hu.
    destruct Hu as [[i [Hi [En ->]]]|[St ->]].
    + left. exists i. auto.
    + right. auto.
  - intros [[i [Hi [En Hm]]]|[St Hm]].
    + exists (vflip (TS i) v). split; [|exact Hm]. apply (in_succs c v _ C). left. exists i. auto.
    + exists v. split; [|exact Hm]. apply (in_succs c v _ C). right. auto.
Qed.

Lemma forallb_succs c X v : col_is c v ->
  (forallb (smem X) (succs n p upd c v) = true <-> AXs G (fun u => smem X u = true) v).
Proof.
  intro C. rewrite forallb_forall. split.
  - intro H. split.
    + intros i Hi En. apply H. apply (in_succs c v _ C). left. exists i. auto.
    + intro St. apply H. apply (in_succs c v _ C). right. auto.
  - intros [H1 H2] u Hu. apply (in_succs c v u C) in Hu.
    destruct Hu as [[i [Hi [En ->]]]|[St ->]]; auto.
Qed.

(** the successors of two valuations that hold the same state lie in the same sets *)
Lemma succs_agree c X s s' : state_is s s' ->
  map (smem X) (succs n p upd c s) = map (smem X) (succs n p upd c s').
Proof.
  intro S. unfold succs. rewrite (moves_agree c s s' S).
  destruct (Sem.moves n p upd c s') as [|i l].
  - cbn [map]. rewrite (smem_agree X s s'); [reflexivity | apply state_is_sym, S].
  - rewrite !map_map. apply map_ext. intro a. apply mem_agree. intros g Hg. apply in_Ln in Hg.
    destruct Hg as [i' [Hi' ->]]. unfold flip_state. rewrite (S i' Hi'). reflexivity.
Qed.

Lemma smem_stab f v : (forall u w, state_is u w -> f u = f w) -> smem (stab n f) v = f v.
Proof.
  intro Hf. unfold Sem.smem, stab. apply mem_tabulate. intros u w A. apply Hf.
  apply state_is_sym. apply agree_Ln. exact A.
Qed.

Lemma shaped_stab f : shaped Ln (stab n f).
Proof. apply shaped_tabulate. Qed.

Lemma smem_s_ex_raw c X v : smem (s_ex n p upd c X) v = existsb (smem X) (succs n p upd c v).
Proof. unfold s_ex. apply smem_stab. intros u w S. rewrite !(existsb_map (smem X)), (succs_agree c X u w S). reflexivity. Qed.

Lemma smem_s_ax_raw c X v : smem (s_ax n p upd c X) v = forallb (smem X) (succs n p upd c v).
Proof. unfold s_ax. apply smem_stab. intros u w S. rewrite !(forallb_map (smem X)), (succs_agree c X u w S). reflexivity. Qed.

Lemma smem_s_ex c X v : col_is c v ->
  (smem (s_ex n p upd c X) v = true <-> EXs G (fun u => smem X u = true) v).
Proof. rewrite smem_s_ex_raw. apply existsb_succs. Qed.

Lemma smem_s_ax c X v : col_is c v ->
  (smem (s_ax n p upd c X) v = true <-> AXs G (fun u => smem X u = true) v).
Proof. rewrite smem_s_ax_raw. apply forallb_succs. Qed.

(** the set of states [X] denotes the predicate [P] on the valuations of the domain [D]
    (a colour and an environment of copies; the state is free) *)
Definition sspec (D : val -> Prop) (X : sset) (P : val -> Prop) : Prop :=
  shaped Ln X /\ forall v, D v -> (smem X v = true <-> P v).

Lemma smem_tor a b v : shaped Ln a -> shaped Ln b -> smem (tor a b) v = smem a v || smem b v.
Proof. apply mem_tor. Qed.
Lemma smem_tand a b v : shaped Ln a -> shaped Ln b -> smem (tand a b) v = smem a v && smem b v.
Proof. apply mem_tand. Qed.
Lemma smem_txor a b v : shaped Ln a -> shaped Ln b -> smem (txor a b) v = xorb (smem a v) (smem b v).
Proof. apply mem_txor. Qed.
Lemma smem_tiff a b v : shaped Ln a -> shaped Ln b -> smem (tiff a b) v = Bool.eqb (smem a v) (smem b v).
Proof. apply mem_tiff. Qed.
Lemma smem_s_not a v : shaped Ln a -> smem (s_not a) v = negb (smem a v).
Proof. intro S. unfold s_not, Sem.smem. rewrite mem_map2 by assumption. reflexivity. Qed.
Lemma shaped_s_not a : shaped Ln a -> shaped Ln (s_not a).
Proof. intro S. unfold s_not. apply shaped_map2; assumption. Qed.
Lemma smem_s_full v : smem (s_full n) v = true.
Proof. apply mem_const. Qed.
Lemma smem_s_empty v : smem (s_empty n) v = false.
Proof. apply mem_const. Qed.

Section StateOps.
Variable c : val.
Variable D : val -> Prop.
Hypothesis D_col : forall v, D v -> col_is c v.
Hypothesis D_flip : forall v i, D v -> D (vflip (TS i) v).

Lemma sspec_ext A P P' : sspec D A P -> (forall v, D v -> (P v <-> P' v)) -> sspec D A P'.
Proof. intros [SA EA] H. split; [exact SA|]. intros v Dv. rewrite (EA v Dv). apply H, Dv. Qed.

Lemma sspec_full : sspec D (s_full n) (fun _ => True).
Proof. split; [apply shaped_const|]. intros v _. rewrite smem_s_full. tauto. Qed.

Lemma sspec_empty : sspec D (s_empty n) (fun _ => False).
Proof. split; [apply shaped_const|]. intros v _. rewrite smem_s_empty. split; [discriminate | tauto]. Qed.

Lemma sspec_const b (P : val -> Prop) : (forall v, D v -> (b = true <-> P v)) -> sspec D (const Ln b) P.
Proof. intro H. split; [apply shaped_const|]. intros v Dv. unfold Sem.smem. rewrite mem_const. apply H, Dv. Qed.

Lemma sspec_stab f (P : val -> Prop) :
  (forall u w, state_is u w -> f u = f w) -> (forall v, D v -> (f v = true <-> P v)) ->
  sspec D (stab n f) P.
Proof. intros Hf H. split; [apply shaped_stab|]. intros v Dv. rewrite smem_stab by exact Hf. apply H, Dv. Qed.

Lemma sspec_not A P : sspec D A P -> sspec D (s_not A) (fun v => ~ P v).
Proof.
  intros [SA EA]. split; [apply shaped_s_not, SA|]. intros v Dv.
  rewrite smem_s_not by exact SA. specialize (EA v Dv).
  destruct (smem A v); cbn [negb]; split; intro H.
  - discriminate.
  - exfalso. apply H. apply EA. reflexivity.
  - intro HP. apply EA in HP. discriminate.
  - reflexivity.
Qed.

Lemma sspec_and A B P Q : sspec D A P -> sspec D B Q -> sspec D (tand A B) (fun v => P v /\ Q v).
Proof.
  intros [SA EA] [SB EB]. split; [apply shaped_tand; assumption|]. intros v Dv.
  rewrite smem_tand by assumption. rewrite andb_true_iff, (EA v Dv), (EB v Dv). tauto.
Qed.

Lemma sspec_or A B P Q : sspec D A P -> sspec D B Q -> sspec D (tor A B) (fun v => P v \/ Q v).
Proof.
  intros [SA EA] [SB EB]. split; [apply shaped_tor; assumption|]. intros v Dv.
  rewrite smem_tor by assumption. rewrite orb_true_iff, (EA v Dv), (EB v Dv). tauto.
Qed.

Lemma sspec_dec A P v : sspec D A P -> D v -> P v \/ ~ P v.
Proof.
  intros [SA EA] Dv. specialize (EA v Dv). destruct (smem A v).
  - left. apply EA. reflexivity.
  - right. intro HP. apply EA in HP. discriminate.
Qed.

Lemma sspec_imp A B P Q : sspec D A P -> sspec D B Q -> sspec D (tor (s_not A) B) (fun v => P v -> Q v).
Proof.
  intros HA HB. eapply sspec_ext; [apply sspec_or; [apply sspec_not; exact HA | exact HB]|].
  intros v Dv. cbn beta. destruct (sspec_dec A P v HA Dv); tauto.
Qed.

Lemma sspec_iff A B P Q : sspec D A P -> sspec D B Q -> sspec D (tiff A B) (fun v => P v <-> Q v).
Proof.
  intros [SA EA] [SB EB]. split; [apply shaped_tiff; assumption|]. intros v Dv.
  rewrite smem_tiff by assumption.
  rewrite eqb_true_iff, eq_iff_eq_true, (EA v Dv), (EB v Dv). reflexivity.
Qed.

Lemma sspec_xor A B P Q : sspec D A P -> sspec D B Q -> sspec D (txor A B) (fun v => ~ (P v <-> Q v)).
Proof.
  intros [SA EA] [SB EB]. split; [apply shaped_txor; assumption|]. intros v Dv.
  rewrite smem_txor by assumption. rewrite <- (EA v Dv), <- (EB v Dv), <- eq_iff_eq_true.
  destruct (smem A v), (smem B v); cbn [xorb]; split; congruence.
Qed.

Lemma sspec_ex A P : sspec D A P -> sspec D (s_ex n p upd c A) (EXs G P).
Proof.
  intros [SA EA]. split; [apply shaped_stab|]. intros v Dv.
  rewrite (smem_s_ex c A v (D_col v Dv)).
  split; apply (EXs_mono_on G D D_flip); try exact Dv; intros u Du; apply (EA u Du).
Qed.

Lemma sspec_ax A P : sspec D A P -> sspec D (s_ax n p upd c A) (AXs G P).
Proof.
  intros [SA EA]. split; [apply shaped_stab|]. intros v Dv.
  rewrite (smem_s_ax c A v (D_col v Dv)).
  split; apply (AXs_mono_on G D D_flip); try exact Dv; intros u Du; apply (EA u Du).
Qed.

(** fixed points of a step function [F] that denotes a monotone predicate transformer [Phi] *)
Section Fix.
Variable F : sset -> sset.
Variable Phi : (val -> Prop) -> val -> Prop.
Hypothesis F_shaped : forall X, shaped Ln X -> shaped Ln (F X).
Hypothesis F_mem : forall X v, shaped Ln X -> D v ->
  (smem (F X) v = true <-> Phi (fun u => smem X u = true) v).
Hypothesis Phi_mono : forall (Y Y' : val -> Prop) v,
  (forall u, D u -> Y u -> Y' u) -> D v -> Phi Y v -> Phi Y' v.

Lemma iter_shaped j X : shaped Ln X -> shaped Ln (Nat.iter j F X).
Proof. intro S. induction j as [|j IH]; [exact S|]. cbn [Nat.iter nat_rect]. apply F_shaped, IH. Qed.

Lemma fix_unfold R v : shaped Ln R -> F R = R -> D v ->
  (smem R v = true <-> Phi (fun u => smem R u = true) v).
Proof. intros S E Dv. rewrite <- (F_mem R v S Dv). rewrite E. reflexivity. Qed.

(** from the empty set: the result is a fixed point below every pre-fixed point *)
Lemma lfp_char fuel R : fix_iter fuel F (s_empty n) = Ok R ->
  shaped Ln R /\
  (forall v, D v -> (smem R v = true <-> Phi (fun u => smem R u = true) v)) /\
  (forall Y : val -> Prop, (forall v, D v -> Phi Y v -> Y v) ->
     forall v, D v -> smem R v = true -> Y v).
Proof.
  intro H. destruct (fix_iter_spec _ _ _ _ H) as [E [j Hj]].
  assert (S : shaped Ln R) by (rewrite Hj; apply iter_shaped, shaped_const).
  split; [exact S|]. split; [intros v Dv; apply fix_unfold; assumption|].
  intros Y HY. rewrite Hj. clear Hj. induction j as [|j IH]; intros v Dv Hm.
  - cbn [Nat.iter nat_rect] in Hm. rewrite smem_s_empty in Hm. discriminate.
  - cbn [Nat.iter nat_rect] in Hm. apply F_mem in Hm; [|apply iter_shaped, shaped_const | exact Dv].
    apply HY; [exact Dv|]. eapply Phi_mono; [|exact Dv|exact Hm]. intros u Du Hu. apply IH; assumption.
Qed.

(** from the full set: the result is a fixed point above every post-fixed point *)
Lemma gfp_char fuel R : fix_iter fuel F (s_full n) = Ok R ->
  shaped Ln R /\
  (forall v, D v -> (smem R v = true <-> Phi (fun u => smem R u = true) v)) /\
  (forall Y : val -> Prop, (forall v, D v -> Y v -> Phi Y v) ->
     forall v, D v -> Y v -> smem R v = true).
Proof.
  intro H. destruct (fix_iter_spec _ _ _ _ H) as [E [j Hj]].
  assert (S : shaped Ln R) by (rewrite Hj; apply iter_shaped, shaped_const).
  split; [exact S|]. split; [intros v Dv; apply fix_unfold; assumption|].
  intros Y HY. rewrite Hj. clear Hj. induction j as [|j IH]; intros v Dv Yv.
  - cbn [Nat.iter nat_rect]. apply smem_s_full.
  - cbn [Nat.iter nat_rect]. apply F_mem; [apply iter_shaped, shaped_const | exact Dv|].
    eapply Phi_mono; [|exact Dv|apply HY; assumption]. intros u Du Hu. apply IH; assumption.
Qed.
End Fix.

(** the until step  [X |-> B or (A and next X)]  over a next-step operator [nx] that denotes [N] *)
Section Steps.
Variable nx : sset -> sset.
Variable N : (val -> Prop) -> val -> Prop.
Hypothesis nx_shaped : forall X, shaped Ln (nx X).
Hypothesis nx_mem : forall X v, D v -> (smem (nx X) v = true <-> N (fun u => smem X u = true) v).
Hypothesis N_mono : forall (Y Y' : val -> Prop) v,
  (forall u, D u -> Y u -> Y' u) -> D v -> N Y v -> N Y' v.
Variables A B : sset.
Variables P Q : val -> Prop.
Hypothesis HA : sspec D A P.
Hypothesis HB : sspec D B Q.

Let F := fun X => tor B (tand A (nx X)).
Let Phi := fun (Y : val -> Prop) v => Q v \/ (P v /\ N Y v).

Lemma F_shaped X : shaped Ln X -> shaped Ln (F X).
Proof. intros _. destruct HA, HB. apply shaped_tor; [assumption|]. apply shaped_tand; [assumption | apply nx_shaped]. Qed.

Lemma F_mem X v : shaped Ln X -> D v -> (smem (F X) v = true <-> Phi (fun u => smem X u = true) v).
Proof.
  intros _ Dv. destruct HA as [SA EA], HB as [SB EB]. unfold F, Phi.
  rewrite smem_tor, smem_tand; try assumption; try apply nx_shaped;
    [|apply shaped_tand; [assumption | apply nx_shaped]].
  rewrite orb_true_iff, andb_true_iff, (EA v Dv), (EB v Dv), (nx_mem X v Dv). reflexivity.
Qed.

Lemma Phi_mono (Y Y' : val -> Prop) v : (forall u, D u -> Y u -> Y' u) -> D v -> Phi Y v -> Phi Y' v.
Proof. intros H Dv [Hq|[Hp He]]; [left; exact Hq | right; split; [exact Hp | eapply N_mono; eassumption]]. Qed.

(** from the empty set: a predicate [I] closed under the unfolding and below every
    pre-fixed point inside [D] *)
Lemma sspec_lfp (I : val -> Prop) fuel R : (forall v, Phi I v -> I v) ->
  (forall Y : val -> Prop, (forall v, D v -> Phi Y v -> Y v) -> forall v, I v -> D v -> Y v) ->
  fix_iter fuel F (s_empty n) = Ok R -> sspec D R I.
Proof.
  intros Closed Least H. destruct (lfp_char F Phi F_shaped F_mem Phi_mono _ _ H) as [SR [FX LE]].
  split; [exact SR|]. intros v Dv. split.
  - apply (LE I); [intros u _; apply Closed | exact Dv].
  - intro HI. apply (Least (fun u => smem R u = true)); [|exact HI | exact Dv].
    intros u Du. apply (FX u Du).
Qed.

(** from the full set: the weak until; the post-fixed points are cut down to [D] *)
Lemma sspec_gfp fuel R : fix_iter fuel F (s_full n) = Ok R -> sspec D R (gfpW N P Q).
Proof.
  intro H. destruct (gfp_char F Phi F_shaped F_mem Phi_mono _ _ H) as [SR [FX GE]].
  split; [exact SR|]. intros v Dv. split.
  - intro Hm. exists (fun u => D u /\ smem R u = true). split; [split; assumption|].
    intros u [Du Hu]. apply (FX u Du) in Hu. revert Hu. apply Phi_mono; [|exact Du].
    intros w Dw Hw. split; assumption.
  - intros [X [Xv HX]]. apply (GE (fun u => D u /\ X u)); [|exact Dv | split; assumption].
    intros u _ [Du Xu]. generalize (HX u Xu). apply Phi_mono; [|exact Du].
    intros w Dw Xw. split; assumption.
Qed.
End Steps.

Local Notation ex := (s_ex n p upd c).
Local Notation ax := (s_ax n p upd c).

Lemma ex_shaped X : shaped Ln (ex X).
Proof. apply shaped_stab. Qed.
Lemma ax_shaped X : shaped Ln (ax X).
Proof. apply shaped_stab. Qed.
Lemma ex_mem X v : D v -> (smem (ex X) v = true <-> EXs G (fun u => smem X u = true) v).
Proof. intro Dv. apply smem_s_ex, D_col, Dv. Qed.
Lemma ax_mem X v : D v -> (smem (ax X) v = true <-> AXs G (fun u => smem X u = true) v).
Proof. intro Dv. apply smem_s_ax, D_col, Dv. Qed.

(** EG and AG iterate the weak-until step without exit *)
Lemma s_eg_ew A : shaped Ln A -> s_eg n p upd c A = s_ew n p upd c A (s_empty n).
Proof.
  intro SA. apply fix_iter_ext. intro x. symmetry. apply tor_const_false.
  apply shaped_tand; [exact SA | apply ex_shaped].
Qed.

Lemma s_ag_aw A : shaped Ln A -> s_ag n p upd c A = s_aw n p upd c A (s_empty n).
Proof.
  intro SA. apply fix_iter_ext. intro x. symmetry. apply tor_const_false.
  apply shaped_tand; [exact SA | apply ax_shaped].
Qed.

Section Operators.
Variables A B : sset.
Variables P Q : val -> Prop.
Hypothesis HA : sspec D A P.
Hypothesis HB : sspec D B Q.

Theorem sspec_eu R : s_eu n p upd c A B = Ok R -> sspec D R (EUs G P Q).
Proof.
  apply (sspec_lfp ex (EXs G) ex_shaped ex_mem (EXs_mono_on G D D_flip) A B P Q HA HB).
  - intro v. apply EUs_unfold.
  - intros Y HY v H. induction H as [v Hq | v i Hp Hi En _ IH]; intro Dv; apply (HY v Dv).
    + left. exact Hq.
    + right. split; [exact Hp|]. left. exists i.
      split; [exact Hi|]. split; [exact En|]. apply IH, D_flip, Dv.
Qed.

Theorem sspec_au R : s_au n p upd c A B = Ok R -> sspec D R (AUs G P Q).
Proof.
  apply (sspec_lfp ax (AXs G) ax_shaped ax_mem (AXs_mono_on G D D_flip) A B P Q HA HB).
  - intro v. apply AUs_unfold.
  - intros Y HY v H. induction H as [v Hq | v Hp Hm IHm Hs IHs]; intro Dv; apply (HY v Dv).
    + left. exact Hq.
    + right. split; [exact Hp|]. split.
      * intros i Hi En. apply IHm; [exact Hi | exact En | apply D_flip, Dv].
      * intro St. apply IHs; [exact St | exact Dv].
Qed.

Theorem sspec_ew R : s_ew n p upd c A B = Ok R -> sspec D R (EWs G P Q).
Proof. exact (sspec_gfp ex (EXs G) ex_shaped ex_mem (EXs_mono_on G D D_flip) A B P Q HA HB _ R). Qed.

Theorem sspec_aw R : s_aw n p upd c A B = Ok R -> sspec D R (AWs G P Q).
Proof. exact (sspec_gfp ax (AXs G) ax_shaped ax_mem (AXs_mono_on G D D_flip) A B P Q HA HB _ R). Qed.
End Operators.

Theorem sspec_eg A P R : sspec D A P -> s_eg n p upd c A = Ok R -> sspec D R (EGs G P).
Proof.
  intros HA H. rewrite (s_eg_ew A (proj1 HA)) in H.
  apply (sspec_ext _ _ _ (sspec_ew A _ P _ HA sspec_empty R H)). intros v _. symmetry. apply EGs_EWs.
Qed.

Theorem sspec_ag A P R : sspec D A P -> s_ag n p upd c A = Ok R -> sspec D R (AGs G P).
Proof.
  intros HA H. rewrite (s_ag_aw A (proj1 HA)) in H.
  apply (sspec_ext _ _ _ (sspec_aw A _ P _ HA sspec_empty R H)). intros v _. symmetry. apply AGs_AWs.
Qed.

End StateOps.

Lemma state_eqb_agree a a' b b' : state_is a a' -> state_is b b' -> state_eqb n a b = state_eqb n a' b'.
Proof.
  intros Sa Sb. apply eq_true_iff_eq. rewrite !state_eqb_iff. split; intros H i Hi.
  - rewrite (Sa i Hi), (Sb i Hi). apply H, Hi.
  - rewrite <- (Sa i Hi), <- (Sb i Hi). apply H, Hi.
Qed.

Hypothesis names_bound : length names <= n.

(** the environment of the oracle against the copies of the valuation: the variable bound at
    quantifier depth [e] is named [xs (S e)] and its state is held in copy [e] *)
Definition env_ok (d : nat) (env : list (str * val)) (v : val) : Prop :=
  forall e, e < d -> exists u, alookup str_eqb (xs (S e)) env = Some u /\
                              forall i, i < n -> v (TX i e) = u (TS i).

Definition Dom (c : val) (d : nat) (env : list (str * val)) (v : val) : Prop :=
  col_is c v /\ env_ok d env v.

Lemma Dom_col c d env v : Dom c d env v -> col_is c v.
Proof. intros [C _]. exact C. Qed.

Lemma Dom_flip c d env v i : Dom c d env v -> Dom c d env (vflip (TS i) v).
Proof. intros [C E]. split; [intros j Hj; apply C, Hj | intros e He; apply E, He]. Qed.

Lemma Dom_set_state c d env e v : Dom c d env v -> Dom c d env (set_state e v).
Proof. intros [C E]. split; [intros j Hj; apply C, Hj | intros e' He; apply E, He]. Qed.

Lemma Dom_set_copy c d env u u0 v : Dom c d env v -> state_is u u0 ->
  Dom c (S d) ((xs (S d), u) :: env) (set_copy d u0 v).
Proof.
  intros [C E] S. split; [intros j Hj; apply C, Hj|].
  intros e He. destruct (Nat.eq_dec e d) as [->|Ne].
  - exists u. cbn [alookup]. rewrite str_eqb_refl. split; [reflexivity|].
    intros i Hi. cbn [set_copy]. rewrite Nat.eqb_refl. apply S, Hi.
  - destruct (E e) as [u' [E' Hc]]; [lia|]. exists u'. cbn [alookup].
    rewrite xs_eqb_neq by lia. split; [exact E'|].
    intros i Hi. cbn [set_copy]. rewrite (proj2 (Nat.eqb_neq d e)) by lia. apply Hc, Hi.
Qed.

Lemma dom_set_spec c dopt Dm : dom_set n p ctxs c dopt = Ok Dm ->
  shaped Ln Dm /\
  forall u w, col_is c w -> state_is u w -> (smem Dm u = true <-> dom Gamma dopt w).
Proof.
  destruct dopt as [l|]; cbn [dom_set dom]; intro H.
  - destruct (alookup str_eqb l ctxs) as [X|] eqn:E; [|discriminate]. injection H as <-.
    split; [apply shaped_stab|]. intros u w C S.
    rewrite smem_stab by (intros a b Sab; apply mem_agree, join_agree, Sab).
    rewrite (mem_Lpn_join c u w X C S). unfold ctx_Gamma. split.
    + intro Hm. exists X. split; [exact E | exact Hm].
    + intros [X' [E' Hm]]. rewrite E in E'. injection E' as <-. exact Hm.
  - injection H as <-. split; [apply shaped_const|]. intros u w _ _. rewrite smem_s_full. tauto.
Qed.

Lemma ex_var_of_xs e (Pe : nat -> Prop) : e < k ->
  ((exists e', var_of G (xs (S e)) = Some e' /\ Pe e') <-> Pe e).
Proof. intro He. apply var_of_ex, (ExtEval.var_of_xs G), He. Qed.

(** the table a quantifier over the variable of depth [d] builds: one entry for every state
    [u0] of the domain (read at a valuation [w] that holds [u0]), and the entry says whether
    the body holds once copy [d] is set to [u0] *)
Lemma quant_table a c d env dopt Dm rs :
  (forall u A, sem n p upd names ctxs c ((xs (S d), u) :: env) a = Ok A ->
     sspec (Dom c (S d) ((xs (S d), u) :: env)) A (sat G names Gamma a)) ->
  dom_set n p ctxs c dopt = Ok Dm ->
  for_states (filter (smem Dm) (all_states n))
    (fun u => sem n p upd names ctxs c ((xs (S d), u) :: env) a) = Ok rs ->
  forall v u0 w, Dom c d env v -> col_is c w -> state_is u0 w ->
    (forall ua, In ua rs -> state_is u0 (fst ua) ->
       dom Gamma dopt w /\ (smem (snd ua) v = true <-> sat G names Gamma a (set_copy d u0 v))) /\
    (dom Gamma dopt w -> exists ua, In ua rs /\ state_is u0 (fst ua)).
Proof.
  intros IH ED ER v u0 w Dv Cw Sw. destruct (for_states_spec _ _ _ ER) as [R1 R2].
  assert (W : forall u, state_is u0 u -> (smem Dm u = true <-> dom Gamma dopt w)).
  { intros u Su. apply (proj2 (dom_set_spec c dopt Dm ED) u w Cw). intros i Hi. rewrite (Sw i Hi). symmetry. apply Su, Hi. }
  split.
  - intros [u A] Hin Su. cbn [fst snd] in *. destruct (R1 u A Hin) as [Hf Hsem]. apply filter_In in Hf.
    split; [apply (W u Su), Hf|]. destruct (IH u A Hsem) as [_ EA].
    rewrite <- (EA _ (Dom_set_copy c d env u u0 v Dv (state_is_sym _ _ Su))).
    rewrite (smem_agree A (set_copy d u0 v) v (fun i _ => eq_refl)). reflexivity.
  - intro Hd. destruct (all_vals_complete Ln u0) as [u [Hu Ag]]. apply agree_Ln in Ag.
    destruct (R2 u) as [A [Hin _]]; [apply filter_In; split; [exact Hu | apply (W u Ag), Hd]|].
    exists (u, A). split; [exact Hin | exact Ag].
Qed.

(** the main induction: under an environment that matches the copies, the oracle's set is
    the set of states whose valuations satisfy the formula *)
Theorem sem_sound : forall t c d env X,
  depth_named d t -> d + qdepth t <= k ->
  sem n p upd names ctxs c env t = Ok X ->
  sspec (Dom c d env) X (sat G names Gamma t).
Proof.
  induction t as [a | o a IH | o a IHa b IHb | o x dopt a IH]; intros c d env X DN LE H.
  - destruct a as [nm | x | | | l]; cbn [sem] in H; cbn [sat].
    + rewrite index_of_name_prop_index in H.
      destruct (prop_index nm names 0) as [i|] eqn:E; [|discriminate]. injection H as <-.
      assert (Hi : i < n) by (apply prop_index_bound in E; lia).
      apply sspec_stab.
      * intros u w S. symmetry. apply S, Hi.
      * intros v _. split.
        -- intro Hv. exists i. split; [reflexivity | exact Hv].
        -- intros [i' [E' Hv]]. injection E' as <-. exact Hv.
    + cbn [depth_named] in DN. destruct DN as [e [He ->]].
      destruct (alookup str_eqb (xs (S e)) env) as [u|] eqn:E; [|discriminate]. injection H as <-.
      apply sspec_stab.
      * intros a b S. apply state_eqb_agree; [exact S | apply state_is_refl].
      * intros v [C EO]. destruct (EO e He) as [u' [E' Hc]]. rewrite E in E'. injection E' as <-.
        rewrite state_eqb_iff, ex_var_of_xs by lia. unfold copy_is_state. cbn [g_n mk_genv].
        split; intros S i Hi; [rewrite (Hc i Hi) | rewrite <- (Hc i Hi)]; symmetry; apply S, Hi.
    + injection H as <-. apply sspec_full.
    + injection H as <-. apply sspec_empty.
    + destruct (dom_set_spec c (Some l) X H) as [SX EX]. split; [exact SX|].
      intros v [C _]. apply (EX v v C (state_is_refl v)).
  - cbn [sem] in H.
    destruct (sem n p upd names ctxs c env a) as [A| | |] eqn:EA; cbn [bind] in H; try discriminate.
    cbn [depth_named] in DN. cbn [qdepth] in LE.
    pose proof (IH c d env A DN LE EA) as HA.
    pose proof (Dom_col c d env) as DC. pose proof (Dom_flip c d env) as DF.
    destruct o; cbn [sat].
    + injection H as <-. apply sspec_not, HA.
    + injection H as <-. eapply sspec_ex; eassumption.
    + injection H as <-. eapply sspec_ax; eassumption.
    + unfold EFs. eapply sspec_eu; [exact DC | exact DF | apply sspec_full | exact HA | exact H].
    + unfold AFs. eapply sspec_au; [exact DC | exact DF | apply sspec_full | exact HA | exact H].
    + eapply sspec_eg; eassumption.
    + eapply sspec_ag; eassumption.
  - cbn [sem] in H.
    destruct (sem n p upd names ctxs c env a) as [A| | |] eqn:EA; cbn [bind] in H; try discriminate.
    destruct (sem n p upd names ctxs c env b) as [B| | |] eqn:EB; cbn [bind] in H; try discriminate.
    cbn [depth_named] in DN. destruct DN as [DNa DNb]. cbn [qdepth] in LE.
    pose proof (IHa c d env A DNa ltac:(lia) EA) as HA.
    pose proof (IHb c d env B DNb ltac:(lia) EB) as HB.
    pose proof (Dom_col c d env) as DC. pose proof (Dom_flip c d env) as DF.
    destruct o; cbn [sat].
    + injection H as <-. apply sspec_and; assumption.
    + injection H as <-. apply sspec_or; assumption.
    + injection H as <-. apply sspec_xor; assumption.
    + injection H as <-. apply sspec_imp; assumption.
    + injection H as <-. apply sspec_iff; assumption.
    + eapply sspec_eu; eassumption.
    + eapply sspec_au; eassumption.
    + eapply sspec_ew; eassumption.
    + eapply sspec_aw; eassumption.
  - destruct o; cbn [depth_named is_quantifier] in DN; cbn [qdepth is_quantifier] in LE; cbn [sem] in H.
    2: { destruct DN as [[e [He ->]] DN].
      destruct (alookup str_eqb (xs (S e)) env) as [u|] eqn:E; [|discriminate].
      destruct (sem n p upd names ctxs c env a) as [A| | |] eqn:EA; cbn [bind] in H; try discriminate.
      injection H as <-. destruct (IH c d env A DN LE EA) as [_ EAq].
      apply sspec_const. intros v Dv. destruct (proj2 Dv e He) as [u' [E' Hc]]. rewrite E in E'. injection E' as <-.
      cbn [sat]. rewrite ex_var_of_xs by lia. rewrite <- (EAq _ (Dom_set_state c d env e v Dv)).
      rewrite (smem_agree A (set_state e v) u); [reflexivity|]. intros i Hi. cbn [set_state]. apply Hc, Hi. }
    (* the quantifiers: the table, then its three readings *)
    all: destruct DN as [-> DN];
      destruct (dom_set n p ctxs c dopt) as [Dm| | |] eqn:ED; cbn [bind] in H; try discriminate;
      destruct (for_states (filter (smem Dm) (all_states n))
                  (fun u => sem n p upd names ctxs c ((xs (S d), u) :: env) a)) as [rs| | |] eqn:ER;
        cbn [bind] in H; try discriminate;
      injection H as <-;
      pose proof (quant_table a c d env dopt Dm rs (fun u A => IH c (S d) _ A DN ltac:(lia)) ED ER) as T;
      apply sspec_stab.
    + intros u w S. rewrite !(existsb_map _ rs). f_equal. apply map_ext. intros [u0 A0]. cbn [fst snd].
      rewrite (state_eqb_agree u0 u0 u w (state_is_refl u0) S), (smem_agree A0 w u S). reflexivity.
    + intros v Dv. cbn [sat]. rewrite ex_var_of_xs by lia. rewrite existsb_exists.
      destruct (T v v v Dv (proj1 Dv) (state_is_refl v)) as [T1 T2]. split.
      * intros [ua [Hin Hb]]. apply andb_true_iff in Hb. destruct Hb as [Hs Hm]. apply state_eqb_iff in Hs.
        destruct (T1 ua Hin Hs) as [Hd E]. split; [exact Hd | apply E, Hm].
      * intros [Hd Hs]. destruct (T2 Hd) as [ua [Hin Su]]. exists ua. split; [exact Hin|].
        apply andb_true_iff. split; [apply state_eqb_iff, Su | apply (T1 ua Hin Su), Hs].
    + intros u w S. rewrite !(existsb_map _ rs). f_equal. apply map_ext. intros [u0 A0]. symmetry. apply (smem_agree A0 w u S).
    + intros v Dv. cbn [sat]. rewrite ex_var_of_xs by lia. rewrite existsb_exists.
      pose proof (fun u0 => T v u0 (with_state u0 v) Dv (fun j Hj => proj1 Dv j Hj) (fun i _ => eq_refl)) as Tv.
      split.
      * intros [ua [Hin Hm]]. exists (fst ua).
        destruct (proj1 (Tv (fst ua)) ua Hin (state_is_refl _)) as [Hd E]. split; [exact Hd | apply E, Hm].
      * intros [u0 [Hd Hs]]. destruct (Tv u0) as [T1 T2]. destruct (T2 Hd) as [ua [Hin Su]].
        exists ua. split; [exact Hin | apply (T1 ua Hin Su), Hs].
    + intros u w S. rewrite !(forallb_map _ rs). f_equal. apply map_ext. intros [u0 A0]. symmetry. apply (smem_agree A0 w u S).
    + intros v Dv. cbn [sat]. rewrite ex_var_of_xs by lia. rewrite forallb_forall.
      pose proof (fun u0 => T v u0 (with_state u0 v) Dv (fun j Hj => proj1 Dv j Hj) (fun i _ => eq_refl)) as Tv.
      split.
      * intros Hall u0 Hd. destruct (Tv u0) as [T1 T2]. destruct (T2 Hd) as [ua [Hin Su]].
        apply (T1 ua Hin Su), Hall, Hin.
      * intros Hall ua Hin. destruct (proj1 (Tv (fst ua)) ua Hin (state_is_refl _)) as [Hd E].
        apply E, Hall, Hd.
Qed.

Lemma smem_lift X c rho s : smem X (lift c rho s) = smem X s.
Proof. apply smem_agree. intros i Hi. reflexivity. Qed.

Lemma agree_join_lift c rho s : agree Lpn (join c s) (lift c rho s).
Proof. apply agree_Lpn. split; intros ? ?; reflexivity. Qed.

(** [env] gives the variable of depth [e] the state [rho e], which [lift] stores in copy [e] *)
Theorem sem_lift t c d env rho X :
  depth_named d t -> d + qdepth t <= k ->
  (forall e, e < d -> alookup str_eqb (xs (S e)) env = Some (rho e)) ->
  sem n p upd names ctxs c env t = Ok X ->
  shaped Ln X /\ forall s, smem X s = true <-> sat G names Gamma t (lift c rho s).
Proof.
  intros DN LE Henv H. destruct (sem_sound t c d env X DN LE H) as [SX EX]. split; [exact SX|].
  intro s. rewrite <- (smem_lift X c rho s). apply EX. split.
  - intros j Hj. reflexivity.
  - intros e He. exists (rho e). split; [apply Henv, He | intros i Hi; reflexivity].
Qed.

(** closed formulae: any valuation of colour [c] *)
Theorem sem_closed t c X :
  depth_named 0 t -> qdepth t <= k ->
  sem n p upd names ctxs c [] t = Ok X ->
  shaped Ln X /\ forall v, col_is c v -> (smem X v = true <-> sat G names Gamma t v).
Proof.
  intros DN LE H. destruct (sem_sound t c 0 [] X DN LE H) as [SX EX]. split; [exact SX|].
  intros v C. apply EX. split; [exact C | intros e He; lia].
Qed.

Lemma existsb_tag_in g L : In g L -> existsb (tag_eqb g) L = true.
Proof. intro H. apply existsb_exists. exists g. split; [exact H | apply tag_eqb_refl]. Qed.

(** fixing one more parameter bit [h] of the colour to the value the valuation gives it *)
Lemma colour_step ps h (c c' v : val) :
  (forall g, c' g = if existsb (tag_eqb g) ps then v g else if tag_eqb g h then v h else c g) ->
  forall g, c' g = if existsb (tag_eqb g) (h :: ps) then v g else c g.
Proof.
  intros Hc g. rewrite Hc. cbn [existsb]. destruct (existsb (tag_eqb g) ps); [rewrite orb_true_r; reflexivity|].
  rewrite orb_false_r. destruct (tag_eqb g h) eqn:E; [|reflexivity]. apply tag_eqb_eq in E. subst g. reflexivity.
Qed.

Lemma assemble_spec t : depth_named 0 t -> qdepth t <= k ->
  forall ps c r, assemble n p upd names ctxs ps c t = Ok r ->
  shaped (ps ++ Ln) r /\
  forall v, exists c' X,
    (forall g, c' g = if existsb (tag_eqb g) ps then v g else c g) /\
    sem n p upd names ctxs c' [] t = Ok X /\ mem (ps ++ Ln) r v = smem X v.
Proof.
  intros DN LE. induction ps as [|h ps IH]; intros c r H; cbn [assemble] in H.
  - split; [apply (sem_closed t c r DN LE H)|].
    intro v. exists c, r. split; [intro g; reflexivity|]. split; [exact H | reflexivity].
  - destruct (assemble n p upd names ctxs ps (fun g => if tag_eqb g h then false else c g) t)
      as [lo| | |] eqn:Elo; cbn [bind] in H; try discriminate.
    destruct (assemble n p upd names ctxs ps (fun g => if tag_eqb g h then true else c g) t)
      as [hi| | |] eqn:Ehi; cbn [bind] in H; try discriminate.
    injection H as <-. destruct (IH _ _ Elo) as [Slo Mlo]. destruct (IH _ _ Ehi) as [Shi Mhi].
    split; [cbn [app shaped]; split; assumption|].
    intro v. cbn [app mem]. destruct (v h) eqn:Vh;
      [destruct (Mhi v) as [c' [X [Hc [Hs Hm]]]] | destruct (Mlo v) as [c' [X [Hc [Hs Hm]]]]];
      exists c', X; (split; [|split; assumption]); apply colour_step; rewrite Vh; exact Hc.
Qed.

(** the specified answer is the set of (colour, state) pairs of the unit that satisfy the formula *)
Theorem sem_eval_sound unit_pn t R :
  shaped Lpn unit_pn -> depth_named 0 t -> qdepth t <= k ->
  sem_eval n p upd names ctxs unit_pn t = Ok R ->
  shaped Lpn R /\
  forall v, mem Lpn R v = true <-> (mem Lpn unit_pn v = true /\ sat G names Gamma t v).
Proof.
  intros SU DN LE H. unfold sem_eval in H.
  destruct (assemble n p upd names ctxs (Lp p) (fun _ => false) t) as [r| | |] eqn:E;
    cbn [bind] in H; try discriminate.
  injection H as <-. destruct (assemble_spec t DN LE _ _ _ E) as [Sr Mr].
  change (Lp p ++ Ln) with Lpn in Sr, Mr.
  split; [apply shaped_tand; assumption|].
  intro v. rewrite mem_tand by assumption. rewrite andb_true_iff.
  destruct (Mr v) as [c' [X [Hc [Hs Hm]]]]. rewrite Hm.
  assert (C : col_is c' v).
  { intros j Hj. rewrite Hc. rewrite existsb_tag_in; [reflexivity|].
    unfold Lp. apply in_map, in_range, Hj. }
  destruct (sem_closed t c' X DN LE Hs) as [_ EX]. rewrite (EX v C). tauto.
Qed.

Theorem sem_eval_lift unit_pn t R :
  shaped Lpn unit_pn -> depth_named 0 t -> qdepth t <= k ->
  sem_eval n p upd names ctxs unit_pn t = Ok R ->
  forall c rho s, mem Lpn R (join c s) = true <->
    (mem Lpn unit_pn (join c s) = true /\ sat G names Gamma t (lift c rho s)).
Proof.
  intros SU DN LE H c rho s. destruct (sem_eval_sound unit_pn t R SU DN LE H) as [_ E].
  rewrite !(mem_agree Lpn _ _ _ (agree_join_lift c rho s)). apply E.
Qed.

(** the domain of the valuations [lift c rho s]: colour [c], copies [rho], any state
    (closed under moves; predicates need not respect pointwise equality of valuations) *)
Definition lift_dom (c : val) (rho : nat -> val) (v : val) : Prop :=
  (forall j, v (TP j) = c (TP j)) /\ (forall i e, v (TX i e) = rho e (TS i)).

Lemma lift_dom_col c rho v : lift_dom c rho v -> col_is c v.
Proof. intros [C _] j _. apply C. Qed.

Lemma lift_dom_flip c rho v i : lift_dom c rho v -> lift_dom c rho (vflip (TS i) v).
Proof. intros [C E]. split; [intro j; apply C | intros i' e; apply E]. Qed.

Lemma lift_dom_lift c rho s : lift_dom c rho (lift c rho s).
Proof. split; intros; reflexivity. Qed.

Lemma sspec_lift c rho X P : sspec (lift_dom c rho) X P ->
  forall s, smem X s = true <-> P (lift c rho s).
Proof. intros [_ E] s. rewrite <- (smem_lift X c rho s). apply E, lift_dom_lift. Qed.

End Oracle.

(** The oracle [sem_eval] on what the pipeline feeds it:
    - the output of [preprocess] is named by depth, so [sem_eval_sound] applies to it;
    - for a plain closed formula the oracle's answer and the sanitised answer of the symbolic
      model are the same tree over [Lpn] (both denote [sat] inside the unit). *)
Lemma qdepth_rename t : forall scope, qdepth (rename scope t) = qdepth t.
Proof.
  induction t as [a | o c IH | o l IHl r IHr | o x d c IH]; intro scope; cbn [rename].
  - destruct a; reflexivity.
  - cbn [qdepth]. apply IH.
  - cbn [qdepth]. rewrite IHl, IHr. reflexivity.
  - destruct (is_quantifier o) eqn:Q; cbn [qdepth]; rewrite Q, IH; reflexivity.
Qed.

Section OracleModel.
Variables n p k : nat.
Variable upd : list tt.
Variable names : list str.
Variable ctxs : list (str * tt).
Variable unit_pn : tt.
Hypothesis upd_shaped : List.Forall (shaped (Sem.Lpn n p)) upd.
Hypothesis names_bound : length names <= n.
Hypothesis unit_shaped : shaped (Sem.Lpn n p) unit_pn.

Local Notation G := (mk_genv p n k upd).

(** the oracle on a preprocessed formula with at most [k] nested quantifiers *)
Theorem sem_eval_preprocessed props t t' R :
  preprocess props t = Ok t' -> qdepth t <= k ->
  sem_eval n p upd names ctxs unit_pn t' = Ok R ->
  shaped (Sem.Lpn n p) R /\
  forall v, mem (Sem.Lpn n p) R v = true <->
    (mem (Sem.Lpn n p) unit_pn v = true /\ sat G names (ctx_Gamma n p ctxs) t' v).
Proof.
  intros HP LE H. destruct (preprocess_names_by_depth props t t' HP) as [E [DN _]].
  eapply sem_eval_sound; try eassumption. rewrite E, qdepth_rename. exact LE.
Qed.

(** oracle = sanitised model result (plain closed formulae) *)
Theorem oracle_agrees_with_model sw t Rm S Ro :
  (forall v w, (forall j, v (TP j) = w (TP j)) ->
     mem (Sem.Lpn n p) unit_pn v = mem (Sem.Lpn n p) unit_pn w) ->
  let U := expand not_extra (mk_layout p n k) unit_pn in
  plainf t -> supported G t -> closed_copies G t ->
  depth_named 0 t -> qdepth t <= k ->
  peval G names sw (steady_of G U) t U = Ok Rm ->
  sanitize G Rm = Ok S ->
  sem_eval n p upd names ctxs unit_pn t = Ok Ro ->
  S = Ro.
Proof.
  intros UC U Hpl Hsup Hcl DN LE HM HS HO.
  destruct (sanitized_spec p n upd unit_pn names upd_shaped unit_shaped UC names_bound
              k sw t Rm Hpl Hsup Hcl HM) as [S' [E1 [SS ES]]].
  rewrite HS in E1. injection E1 as <-.
  destruct (sem_eval_sound n p k upd names ctxs upd_shaped names_bound unit_pn t Ro
              unit_shaped DN LE HO) as [SO EO].
  apply (tt_ext (Sem.Lpn n p)); [exact (NoDup_Lpn p n) | exact SS | exact SO |].
  intro v. apply eq_true_iff_eq.
  rewrite (ES (ctx_Gamma n p ctxs) v). change (LayoutFacts.Lpn p n) with (Sem.Lpn n p).
  rewrite (EO v). reflexivity.
Qed.

End OracleModel.
