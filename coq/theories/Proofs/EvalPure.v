(** The evaluator without cache ([peval], pattern shortcuts on or off) computes exactly the
    satisfying valuations of a plain formula; [eval_node] with a context that marks no
    duplicates is [peval].  [eval_node] itself is unfolded once here (key, hit branch, miss
    branch) for every file that reasons about it. *)
From HCTL Require Import Base Syntax Preprocess Canon MarkDup TT Ops Eval Kripke HCTL.
From HCTL Require Import TTFacts OpsFacts FixFacts SemFacts HybridFacts ExtFacts ExtHybrid.
From HCTL Require Import BaseFacts.

(** Jump keeps the scope; Bind, Exists and Forall share the other branch of the evaluators *)
Lemma jump_or_quantifier o : o = Jump \/ (o <> Jump /\ is_quantifier o = true).
Proof. destruct o; (left; reflexivity) || (right; split; [discriminate | reflexivity]). Qed.

Section Unfold.
Variable G : genv.
Variable names : list str.
Variable sw : switches.

(** the context after a cache hit *)
Definition hit_ctx (t : tree) (k : key) (c : ectx) : ectx :=
  if is_wild_terminal t then c
  else match alookup key_eqb k (duplicates c) with
       | Some (S O) | Some O =>
           set_cache (set_dups c (aremove key_eqb k (duplicates c)))
                     (aremove key_eqb k (cache c))
       | Some (S m) => set_dups c (ainsert key_eqb k m (duplicates c))
       | None => c
       end.

(** the end of a cache miss *)
Definition finish_at (k : key) (ren : list (str * str)) (save : bool) (rc : tt * ectx)
  : res (tt * ectx) :=
  if save then Ok (fst rc, set_cache (snd rc) (ainsert key_eqb k (fst rc, ren) (cache (snd rc))))
  else Ok rc.

Definition key_of (c : ectx) (t : tree) : key :=
  (fst (canonize (render t)), canon_domains (free_doms c) (snd (canonize (render t))) []).

Definition eval_miss (steady : tt) (finish : tt * ectx -> res (tt * ectx))
           (t : tree) (U : tt) (c : ectx) : res (tt * ectx) :=
  if use_patterns sw && is_attractor_pattern t then
    let* e := hctl_var_id G (pattern_var t) in
    let* r := attractors G U e in
    finish (r, c)
  else if use_patterns sw && is_fixed_point_pattern t then Ok (steady, c)
  else
  match t with
  | Terminal a =>
      match a with
      | ATrue => finish (U, c)
      | AFalse => finish (empty G, c)
      | AVar name => let* e := hctl_var_id G name in finish (eval_hctl_var G U e, c)
      | AProp name =>
          match index_of name names 0 with
          | Some i => finish (eval_prop G U i, c)
          | None => Panic PPropLookup
          end
      | AWild _ => Panic PWildCardUnreachable
      end
  | Unary o ch =>
      let* (x, c1) := eval_node G names sw steady ch U c in
      let* r :=
        match o with
        | Not => Ok (eval_neg U x)
        | EX => Ok (eval_ex G x steady)
        | AX => Ok (eval_ax G U x steady)
        | EF => eval_ef_saturated G U x
        | AF => eval_af G U x steady
        | EG => eval_eg G x steady
        | AG => eval_ag G U x
        end in
      finish (r, c1)
  | Binary o l r =>
      let* (a, c1) := eval_node G names sw steady l U c in
      let* (b, c2) := eval_node G names sw steady r U c1 in
      let* res :=
        match o with
        | And => Ok (tand a b)
        | Or => Ok (tor a b)
        | Xor => Ok (eval_xor U a b)
        | Imp => Ok (eval_imp U a b)
        | Iff => Ok (eval_equiv U a b)
        | EU => eval_eu_saturated G a b
        | AU => eval_au G U a b steady
        | EW => eval_ew G U a b steady
        | AW => eval_aw G U a b
        end in
      finish (res, c2)
  | Hybrid Jump x _ ch =>
      let* (a, c1) := eval_node G names sw steady ch U c in
      let* e := hctl_var_id G x in
      finish (eval_jump G U a e, c1)
  | Hybrid o x d ch =>
      let c0 := set_free c (sinsert x d (free_doms c)) in
      let close (c1 : ectx) := set_free c1 (aremove str_eqb x (free_doms c1)) in
      match d with
      | None =>
          let* (a, c1) := eval_node G names sw steady ch U c0 in
          let* e := hctl_var_id G x in
          let* r := eval_hybrid_quantifier G U U o e a in
          finish (r, close c1)
      | Some dl =>
          match alookup str_eqb dl (domain_sets c0) with
          | None => Panic PDomainLookup
          | Some dset =>
              let* e := hctl_var_id G x in
              let var_domain := compute_valid_domain_for_var G U dset e in
              let Ur := tand U var_domain in
              if is_empty Ur then
                Ok (match o with Forall => U | _ => empty G end, close c0)
              else
                let* (a, c1) := eval_node G names sw steady ch Ur c0 in
                let* r := eval_hybrid_quantifier G U Ur o e a in
                finish (r, close c1)
          end
      end
  end.

Lemma eval_node_unfold steady t U' c :
  eval_node G names sw steady t U' c =
  match (if amem key_eqb (key_of c t) (duplicates c)
         then alookup key_eqb (key_of c t) (cache c) else None) with
  | Some (cached, cren) =>
      let* r := rename_back G cren (snd (canonize (render t))) cached in
      Ok (r, hit_ctx t (key_of c t) c)
  | None =>
      eval_miss steady
        (finish_at (key_of c t) (snd (canonize (render t)))
           (amem key_eqb (key_of c t) (duplicates c)
            && negb (foreign_restriction (free_doms c) (snd (canonize (render t))))))
        t U' c
  end.
Proof.
  destruct t as [a | o ch | o l r | o x d ch]; cbn [eval_node]; unfold key_of;
    match goal with |- context [canonize (render ?t)] => destruct (canonize (render t)) as [canon ren] end;
    cbn [fst snd]; reflexivity.
Qed.

(** Bind, Exists and Forall share one branch of the evaluator *)
Lemma eval_miss_quant steady F o x d a U c : o <> Jump ->
  use_patterns sw && is_attractor_pattern (Hybrid o x d a) = false ->
  use_patterns sw && is_fixed_point_pattern (Hybrid o x d a) = false ->
  eval_miss steady F (Hybrid o x d a) U c =
  (let c0 := set_free c (sinsert x d (free_doms c)) in
   let close := fun c1 : ectx => set_free c1 (aremove str_eqb x (free_doms c1)) in
   match d with
   | Some dl =>
       match alookup str_eqb dl (domain_sets c0) with
       | Some dset =>
           let* e := hctl_var_id G x in
           let Ur := tand U (compute_valid_domain_for_var G U dset e) in
           if is_empty Ur then Ok (match o with Forall => U | _ => empty G end, close c0)
           else let* (a0, c1) := eval_node G names sw steady a Ur c0 in
                let* r := eval_hybrid_quantifier G U Ur o e a0 in F (r, close c1)
       | None => Panic PDomainLookup
       end
   | None =>
       let* (a0, c1) := eval_node G names sw steady a U c0 in
       let* e := hctl_var_id G x in
       let* r := eval_hybrid_quantifier G U U o e a0 in F (r, close c1)
   end).
Proof. intros Ho PA PF. unfold eval_miss. rewrite PA, PF. destruct o; try congruence; reflexivity. Qed.

End Unfold.

Section PEval.
Variable G : genv.
Variable names : list str.
Variable sw : switches.
Variable steady : tt.

Fixpoint peval (t : tree) (U : tt) : res tt :=
  if use_patterns sw && is_attractor_pattern t then
    let* e := hctl_var_id G (pattern_var t) in attractors G U e
  else if use_patterns sw && is_fixed_point_pattern t then Ok steady
  else
  match t with
  | Terminal ATrue => Ok U
  | Terminal AFalse => Ok (empty G)
  | Terminal (AVar x) => let* e := hctl_var_id G x in Ok (eval_hctl_var G U e)
  | Terminal (AProp nm) =>
      match index_of nm names 0 with
      | Some i => Ok (eval_prop G U i)
      | None => Panic PPropLookup
      end
  | Terminal (AWild _) => Panic PWildCardUnreachable
  | Unary o a =>
      let* x := peval a U in
      match o with
      | Not => Ok (eval_neg U x)
      | EX => Ok (eval_ex G x steady)
      | AX => Ok (eval_ax G U x steady)
      | EF => eval_ef_saturated G U x
      | AF => eval_af G U x steady
      | EG => eval_eg G x steady
      | AG => eval_ag G U x
      end
  | Binary o l r =>
      let* a := peval l U in
      let* b := peval r U in
      match o with
      | And => Ok (tand a b)
      | Or => Ok (tor a b)
      | Xor => Ok (eval_xor U a b)
      | Imp => Ok (eval_imp U a b)
      | Iff => Ok (eval_equiv U a b)
      | EU => eval_eu_saturated G a b
      | AU => eval_au G U a b steady
      | EW => eval_ew G U a b steady
      | AW => eval_aw G U a b
      end
  | Hybrid Jump x _ a =>
      let* r := peval a U in
      let* e := hctl_var_id G x in
      Ok (eval_jump G U r e)
  | Hybrid o x None a =>
      let* r := peval a U in
      let* e := hctl_var_id G x in
      eval_hybrid_quantifier G U U o e r
  | Hybrid _ _ (Some _) _ => Panic PDomainLookup
  end.

Definition eval_hybrid (U : tt) (o : hybop) (e : nat) (a : tt) : res tt :=
  match o with
  | Jump => Ok (eval_jump G U a e)
  | _ => eval_hybrid_quantifier G U U o e a
  end.

(** [peval] on each constructor, with the operator left to the dispatch
    ([eval_unary], [eval_binary] of SemFacts.v, [eval_hybrid] above) *)

Lemma peval_unary o a U :
  peval (Unary o a) U = bind (peval a U) (eval_unary G U steady o).
Proof.
  cbn [peval is_attractor_pattern is_fixed_point_pattern]. rewrite !andb_false_r.
  destruct o; reflexivity.
Qed.

Lemma peval_binary o a b U :
  peval (Binary o a b) U =
  let* x := peval a U in let* y := peval b U in eval_binary G U steady o x y.
Proof.
  cbn [peval is_attractor_pattern is_fixed_point_pattern]. rewrite !andb_false_r.
  destruct o; reflexivity.
Qed.

Lemma peval_hybrid o x a U :
  peval (Hybrid o x None a) U =
  if use_patterns sw && is_attractor_pattern (Hybrid o x None a) then
    let* e := hctl_var_id G x in attractors G U e
  else if use_patterns sw && is_fixed_point_pattern (Hybrid o x None a) then Ok steady
  else let* r := peval a U in let* e := hctl_var_id G x in eval_hybrid U o e r.
Proof. destruct o; reflexivity. Qed.

Lemma peval_unfold_hybrid o x a U :
  peval (Hybrid o x None a) U =
  if use_patterns sw && is_attractor_pattern (Hybrid o x None a) then
    let* e := hctl_var_id G (pattern_var (Hybrid o x None a)) in attractors G U e
  else if use_patterns sw && is_fixed_point_pattern (Hybrid o x None a) then Ok steady
  else match o with
       | Jump => let* r := peval a U in let* e := hctl_var_id G x in Ok (eval_jump G U r e)
       | _ => let* r := peval a U in let* e := hctl_var_id G x in eval_hybrid_quantifier G U U o e r
       end.
Proof. rewrite peval_hybrid. destruct o; reflexivity. Qed.

End PEval.

(** plain formulae: no wild-cards, no domains *)
Fixpoint plainf (t : tree) : Prop :=
  match t with
  | Terminal (AWild _) => False
  | Terminal _ => True
  | Unary _ a => plainf a
  | Binary _ a b => plainf a /\ plainf b
  | Hybrid _ _ d a => d = None /\ plainf a
  end.

(** a variable name for every spare copy *)
Lemma var_of_repeat G c e : e < g_k G -> var_of G (repeat_n (S e) c) = Some e.
Proof.
  intro He. unfold var_of. cbn [repeat_n]. rewrite repeat_n_length.
  apply Nat.ltb_lt in He. rewrite He. reflexivity.
Qed.

Lemma attractors_inv G U e R : attractors G U e = Ok R ->
  exists ef ag, eval_ef_saturated G U (eval_hctl_var G U e) = Ok ef /\ eval_ag G U ef = Ok ag /\
    R = eval_bind G U (tand ag U) e.
Proof.
  unfold attractors. intro H.
  destruct (eval_ef_saturated G U (eval_hctl_var G U e)) as [ef| | |]; simpl in H; try discriminate.
  destruct (eval_ag G U ef) as [ag| | |] eqn:E; simpl in H; try discriminate.
  injection H as <-. exists ef, ag. auto.
Qed.

Section Soundness.
Variable G : genv.
Variable names : list str.
Local Notation L := (g_L G).
Local Notation n := (g_n G).
Local Notation k := (g_k G).

Hypothesis L_nodup : NoDup L.
Hypothesis upd_shaped : forall i, shaped L (upd_of G i).
Hypothesis TS_in : forall i, i < n -> In (TS i) L.
Hypothesis TX_in : forall i e, i < n -> e < k -> In (TX i e) L.
Hypothesis TS_bound : forall i, In (TS i) L -> i < n.
Hypothesis TX_bound : forall i e, In (TX i e) L -> i < n.
Hypothesis names_bound : forall nm i, index_of nm names 0 = Some i -> i < n.

Variable U : tt.
Hypothesis U_shaped : shaped L U.
Hypothesis U_colour : forall v w, (forall j, v (TP j) = w (TP j)) -> mem L U v = mem L U w.

Variable Gamma : str -> val -> Prop.
Variable sw : switches.
(** update functions do not read the spare copies *)
Hypothesis upd_extras : forall i v w, (forall g, is_extra_tag g = false -> v g = w g) ->
  mem L (upd_of G i) v = mem L (upd_of G i) w.

Local Notation spec := (spec_of G U).
Local Notation st := (steady_of G U).
Local Notation Sat := (sat G names Gamma).

Local Notation UM := (U_moves G U U_colour).

Lemma index_of_prop_index nm l i : index_of nm l i = prop_index nm l i.
Proof. revert i; induction l as [|y l IH]; intro i; simpl; [reflexivity|]. destruct (str_eqb nm y); auto. Qed.

Lemma var_id_of x e : hctl_var_id G x = Ok e -> var_of G x = Some e /\ e < k.
Proof.
  unfold hctl_var_id, var_of. destruct x as [|c r]; [discriminate|].
  destruct (Nat.ltb (length r) k) eqn:E; [|discriminate].
  intro H; injection H as <-. apply Nat.ltb_lt in E. auto.
Qed.

Lemma var_of_id x e : var_of G x = Some e -> hctl_var_id G x = Ok e.
Proof.
  unfold hctl_var_id, var_of. destruct x as [|c r]; [discriminate|].
  destruct (Nat.ltb (length r) k); [|discriminate]. intro H; injection H as <-. reflexivity.
Qed.

(** [sat] finds the copy of a variable by [exists e, var_of G x = Some e /\ ...] *)
Lemma var_of_ex x e (Q : nat -> Prop) : var_of G x = Some e ->
  ((exists e', var_of G x = Some e' /\ Q e') <-> Q e).
Proof.
  intro E. split; [|intro H; exists e; auto].
  intros [e' [E' H]]. rewrite E in E'. injection E' as <-. exact H.
Qed.

(** the clauses of [sat] for a variable, a proposition and the hybrid operators without a
    domain, with the copy or the index known *)
Lemma sat_var_at x e w : var_of G x = Some e ->
  (Sat (Terminal (AVar x)) w <-> copy_is_state G e w).
Proof. exact (var_of_ex x e (fun e => copy_is_state G e w)). Qed.

Lemma sat_prop nm i w : index_of nm names 0 = Some i ->
  (Sat (Terminal (AProp nm)) w <-> w (TS i) = true).
Proof.
  intro E. simpl. rewrite <- index_of_prop_index, E.
  split; [intros [j [Hj Hv]]; congruence | intro Hv; exists i; auto].
Qed.

Lemma sat_hybrid_at o x e a w : var_of G x = Some e ->
  (Sat (Hybrid o x None a) w <->
   match o with
   | Bind => Sat a (set_copy e w w)
   | Jump => Sat a (set_state e w)
   | Exists => exists u, Sat a (set_copy e u w)
   | Forall => forall u, Sat a (set_copy e u w)
   end).
Proof.
  intro Ev. destruct o; simpl; rewrite (var_of_ex x e _ Ev).
  - tauto.
  - tauto.
  - split; intros [u H]; exists u; tauto.
  - split; intros H u; [|intros _]; apply H; exact I.
Qed.

(** the hybrid operators inside one unit that only depends on the colour *)
Lemma U_state_indep : state_indep G U.
Proof. intros v w H. apply U_colour. intro j. apply H. reflexivity. Qed.

Lemma U_copy_indep e : copy_indep G U e.
Proof. intros u v. apply U_colour. intro j. reflexivity. Qed.

Lemma spec_bind A P e : e < k -> spec A P ->
  spec (eval_bind G U (tand A U) e) (fun v => P (set_copy e v v)).
Proof.
  intros He HA. pose proof (spec_shaped G U A P HA) as SA. apply spec_of_iff. split.
  - exact (in_bind G L_nodup TS_in TX_in TX_bound U U_shaped A P e He (U_copy_indep e) (spec_of_in G U A P HA)).
  - intros v Hv. apply mem_eval_bind in Hv; auto with shaped.
    destruct Hv as [Hu _]. rewrite U_copy_indep in Hu. exact Hu.
Qed.

Lemma spec_jump A P e : e < k -> spec A P ->
  spec (eval_jump G U A e) (fun v => P (set_state e v)).
Proof.
  intros He HA. pose proof (spec_shaped G U A P HA) as SA. apply spec_of_iff. split.
  - exact (in_jump G L_nodup TS_in TX_in TS_bound U U_shaped U_state_indep A P e He (spec_of_in G U A P HA)).
  - intros v Hv. apply mem_eval_jump in Hv; auto.
    destruct Hv as [Hu _]. rewrite (state_indep_set_state G U e v U_state_indep) in Hu. exact Hu.
Qed.

Lemma spec_exists A P e : e < k -> spec A P ->
  spec (eval_exists G (tand A U) e) (fun v => exists u, P (set_copy e u v)).
Proof.
  intros He HA. pose proof (spec_shaped G U A P HA) as SA. apply spec_of_iff. split.
  - exact (in_exists G L_nodup U U_shaped A P e He (U_copy_indep e) (spec_of_in G U A P HA)).
  - intros v Hv. apply mem_exq_copy in Hv; auto with shaped. destruct Hv as [u Hv].
    rewrite mem_tand in Hv by assumption. apply andb_true_iff in Hv.
    destruct Hv as [_ Hu]. rewrite U_copy_indep in Hu. exact Hu.
Qed.

Lemma spec_forall A P e : e < k -> spec A P ->
  spec (eval_neg U (eval_exists G (eval_neg U A) e)) (fun v => forall u, P (set_copy e u v)).
Proof.
  intros He HA. apply spec_of_iff. split; [|apply inU_neg].
  exact (in_forall G L_nodup U U_shaped A P e He (U_copy_indep e) (spec_of_in G U A P HA)).
Qed.

Lemma spec_sat_var x e : var_of G x = Some e -> e < k ->
  spec (eval_hctl_var G U e) (Sat (Terminal (AVar x))).
Proof.
  intros Ev Hk. eapply spec_ext; [eapply spec_var; eauto|].
  intros w _. symmetry. exact (sat_var_at x e w Ev).
Qed.

Lemma spec_sat_hybrid o x e a A R : var_of G x = Some e -> e < k -> spec A (Sat a) ->
  eval_hybrid G U o e A = Ok R -> spec R (Sat (Hybrid o x None a)).
Proof.
  intros Ev Hk HA HR.
  destruct o; simpl in HR; injection HR as <-;
    (eapply spec_ext; [first [apply spec_bind | apply spec_jump | apply spec_exists | apply spec_forall];
                       eassumption|]);
    intros w _; symmetry; exact (sat_hybrid_at _ x e a w Ev).
Qed.

Lemma enabled_set_copy e u v i : enabled G i (set_copy e u v) = enabled G i v.
Proof.
  unfold enabled. f_equal.
  apply upd_extras. intros g Hg. destruct g; simpl in *; try reflexivity. discriminate.
Qed.

Lemma vflip_set_copy_TX e v i : vflip (TS i) (set_copy e v v) (TX i e) = v (TS i).
Proof. unfold vflip. simpl. rewrite Nat.eqb_refl. reflexivity. Qed.

(** the steady-state shortcut: the precomputed set is the meaning of  !x: AX x *)
Lemma steady_pattern_spec x e : var_of G x = Some e -> e < k ->
  spec st (Sat (Hybrid Bind x None (Unary AX (Terminal (AVar x))))).
Proof.
  intros Ev Hk. split; [apply shaped_steady_of; assumption|]. intro v.
  rewrite (mem_steady_of G L_nodup upd_shaped TS_in U v U_shaped).
  simpl. split.
  - intros [Hu Hs]. split; [assumption|]. exists e. split; [assumption|]. split; [exact I|].
    split.
    + intros i Hi He. rewrite enabled_set_copy in He. rewrite (Hs i Hi) in He. discriminate.
    + intros _. exists e. split; [assumption|]. intros i Hi. simpl. rewrite Nat.eqb_refl. reflexivity.
  - intros [Hu [e' [Ev' [_ [A1 A2]]]]]. split; [assumption|].
    assert (e' = e) by congruence. subst e'.
    intros i Hi. destruct (enabled G i v) eqn:He; [|reflexivity]. exfalso.
    rewrite <- (enabled_set_copy e v v i) in He.
    destruct (A1 i Hi He) as [e2 [Ev2 Hc]]. assert (e2 = e) by congruence. subst e2.
    specialize (Hc i Hi). rewrite vflip_set_copy_TX in Hc.
    unfold vflip in Hc. simpl in Hc. rewrite Nat.eqb_refl in Hc. simpl in Hc.
    destruct (v (TS i)); discriminate.
Qed.

(** the attractor shortcut is modelled by its specification: it returns what the generic
    evaluation of  !x: AG EF x  returns *)
Lemma attractor_pattern_spec x e R : var_of G x = Some e -> e < k ->
  attractors G U e = Ok R ->
  spec R (Sat (Hybrid Bind x None (Unary AG (Unary EF (Terminal (AVar x)))))).
Proof.
  intros Ev Hk H. destruct (attractors_inv G U e R H) as [ef [ag [E1 [E2 ->]]]].
  assert (S2 : spec ag (AGs G (EFs G (Sat (Terminal (AVar x)))))).
  { apply (spec_ag G L_nodup upd_shaped TS_in U U_shaped UM ef _ ag); [|exact E2].
    eapply (spec_ef G L_nodup upd_shaped TS_in U U_shaped UM); [|exact E1].
    apply spec_sat_var; assumption. }
  eapply spec_ext; [exact (spec_bind _ _ e Hk S2)|].
  intros w _. symmetry. exact (sat_hybrid_at Bind x e _ w Ev).
Qed.

Lemma attractor_pattern_inv t : is_attractor_pattern t = true ->
  exists x, t = Hybrid Bind x None (Unary AG (Unary EF (Terminal (AVar x)))).
Proof.
  destruct t as [a|o a|o a b|o x d a]; try discriminate. simpl.
  destruct o; try discriminate. destruct d; try discriminate.
  destruct a as [a|o a|o a b|o y d a]; try discriminate. destruct o; try discriminate.
  destruct a as [a|o a|o a b|o y d a]; try discriminate. destruct o; try discriminate.
  destruct a as [a|o a|o a b|o y d a]; try discriminate. destruct a as [nm|y| | |l]; try discriminate.
  intro H. exists x. apply str_eqb_eq in H. subst. reflexivity.
Qed.

Lemma fixed_point_pattern_inv t : is_fixed_point_pattern t = true ->
  exists x, t = Hybrid Bind x None (Unary AX (Terminal (AVar x))).
Proof.
  destruct t as [a|o a|o a b|o x d a]; try discriminate. simpl.
  destruct o; try discriminate. destruct d; try discriminate.
  destruct a as [a|o a|o a b|o y d a]; try discriminate. destruct o; try discriminate.
  destruct a as [a|o a|o a b|o y d a]; try discriminate. destruct a as [nm|y| | |l]; try discriminate.
  intro H. exists x. apply str_eqb_eq in H. subst. reflexivity.
Qed.

(** every variable of the formula has a spare copy in the graph
    (what check_hctl_var_support guarantees for preprocessed formulae) *)
Fixpoint supported (t : tree) : Prop :=
  match t with
  | Terminal (AVar x) => var_of G x <> None
  | Terminal _ => True
  | Unary _ a => supported a
  | Binary _ a b => supported a /\ supported b
  | Hybrid _ x _ a => var_of G x <> None /\ supported a
  end.

(** the main theorem for plain formulae: whatever [peval] returns denotes [sat],
    with the pattern shortcuts switched on or off *)
Theorem peval_sound : forall t R, plainf t -> supported t ->
  peval G names sw st t U = Ok R -> spec R (Sat t).
Proof.
  induction t as [a | o a IH | o a IHa b IHb | o x d a IH]; intros R Hpl Hsup H.
  - cbn [peval is_attractor_pattern is_fixed_point_pattern] in H. rewrite !andb_false_r in H.
    destruct a as [nm | x | | | l]; simpl in H.
    + destruct (index_of nm names 0) as [i|] eqn:E; [|discriminate]. injection H as <-.
      eapply spec_ext; [eapply spec_prop; eauto|].
      intros w _. symmetry. apply sat_prop. exact E.
    + destruct (hctl_var_id G x) as [e| | |] eqn:E; simpl in H; try discriminate. injection H as <-.
      destruct (var_id_of _ _ E) as [Ev Hk]. apply spec_sat_var; assumption.
    + injection H as <-. apply spec_unit; assumption.
    + injection H as <-. apply spec_of_iff. split; [apply on_empty|].
      intros v Hv. rewrite mem_empty in Hv. discriminate.
    + discriminate.
  - rewrite peval_unary in H.
    destruct (peval G names sw st a U) as [A| | |] eqn:EA; simpl in H; try discriminate.
    exact (unary_spec G L_nodup upd_shaped TS_in U U_shaped UM o A _ R (IH A Hpl Hsup eq_refl) H).
  - rewrite peval_binary in H. destruct Hpl as [Hpa Hpb]. destruct Hsup as [Hsa Hsb].
    destruct (peval G names sw st a U) as [A| | |] eqn:EA; simpl in H; try discriminate.
    destruct (peval G names sw st b U) as [B| | |] eqn:EB; simpl in H; try discriminate.
    exact (binary_spec G L_nodup upd_shaped TS_in U U_shaped UM o A B _ _ R
             (IHa A Hpa Hsa eq_refl) (IHb B Hpb Hsb eq_refl) H).
  - destruct Hpl as [-> Hpa]. destruct Hsup as [Hvx Hsa]. rewrite peval_hybrid in H.
    destruct (use_patterns sw && is_attractor_pattern (Hybrid o x None a)) eqn:PA.
    { apply andb_true_iff in PA. destruct PA as [_ PA].
      destruct (attractor_pattern_inv _ PA) as [y Ey]. injection Ey as -> -> ->.
      destruct (hctl_var_id G y) as [e| | |] eqn:E; simpl in H; try discriminate.
      destruct (var_id_of _ _ E) as [Ev Hk]. eapply attractor_pattern_spec; eauto. }
    destruct (use_patterns sw && is_fixed_point_pattern (Hybrid o x None a)) eqn:PF.
    { apply andb_true_iff in PF. destruct PF as [_ PF].
      destruct (fixed_point_pattern_inv _ PF) as [y Ey]. injection Ey as -> -> ->.
      injection H as <-.
      destruct (var_of G y) as [e|] eqn:Ev; [|congruence].
      destruct (var_id_of _ _ (var_of_id _ _ Ev)) as [_ Hk].
      eapply steady_pattern_spec; eauto. }
    destruct (peval G names sw st a U) as [A| | |] eqn:EA; simpl in H; try discriminate.
    destruct (hctl_var_id G x) as [e| | |] eqn:E; simpl in H; try discriminate.
    destruct (var_id_of _ _ E) as [Ev Hk].
    exact (spec_sat_hybrid o x e a A R Ev Hk (IH A Hpa Hsa eq_refl) H).
Qed.

End Soundness.

Section Link.
Variable G : genv.
Variable names : list str.
Variable sw : switches.
Variable steady : tt.

Lemma bind_assoc_ok {A B} (r : res A) (c : B) :
  (let* x := (let* y := r in Ok (y, c)) in Ok x) = (let* y := r in Ok (y, c)).
Proof. destruct r; reflexivity. Qed.

(** without marked nodes every node is evaluated by the miss branch and nothing is saved *)
Lemma eval_node_nil_dups t U c : duplicates c = [] ->
  eval_node G names sw steady t U c = eval_miss G names sw steady (fun rc => Ok rc) t U c.
Proof. intro Hd. rewrite eval_node_unfold, Hd. reflexivity. Qed.

Theorem eval_node_nodup : forall t U c, plainf t -> duplicates c = [] ->
  exists c', duplicates c' = [] /\
    eval_node G names sw steady t U c =
    bind (peval G names sw steady t U) (fun r => Ok (r, c')).
Proof.
  induction t as [a | o a IH | o a IHa b IHb | o x d a IH]; intros U c Hpl Hd;
    rewrite (eval_node_nil_dups _ U c Hd).
  - exists c. split; [assumption|]. unfold eval_miss.
    cbn [peval is_attractor_pattern is_fixed_point_pattern]. rewrite !andb_false_r.
    destruct a; cbn; try reflexivity;
      try (destruct (index_of s names 0); reflexivity);
      try (destruct (hctl_var_id G s); reflexivity).
  - rewrite peval_unary. unfold eval_miss.
    cbn [is_attractor_pattern is_fixed_point_pattern]. rewrite !andb_false_r.
    destruct (IH U c Hpl Hd) as [c1 [Hd1 E1]]. rewrite E1.
    exists c1. split; [assumption|].
    destruct (peval G names sw steady a U) as [A| | |]; reflexivity.
  - destruct Hpl as [Hpa Hpb]. rewrite peval_binary. unfold eval_miss.
    cbn [is_attractor_pattern is_fixed_point_pattern]. rewrite !andb_false_r.
    destruct (IHa U c Hpa Hd) as [c1 [Hd1 E1]]. rewrite E1.
    destruct (IHb U c1 Hpb Hd1) as [c2 [Hd2 E2]].
    exists c2. split; [assumption|].
    destruct (peval G names sw steady a U) as [A| | |]; cbn [bind]; try reflexivity.
    rewrite E2.
    destruct (peval G names sw steady b U) as [B| | |]; reflexivity.
  - destruct Hpl as [-> Hpa]. rewrite peval_hybrid.
    destruct (use_patterns sw && is_attractor_pattern (Hybrid o x None a)) eqn:PA.
    { exists c. split; [assumption|]. unfold eval_miss. rewrite PA. cbn [pattern_var].
      destruct (hctl_var_id G x); cbn; try reflexivity;
        match goal with |- context [attractors ?g ?u ?e] => destruct (attractors g u e) end; reflexivity. }
    destruct (use_patterns sw && is_fixed_point_pattern (Hybrid o x None a)) eqn:PF.
    { exists c. split; [assumption|]. unfold eval_miss. rewrite PA, PF. reflexivity. }
    destruct (jump_or_quantifier o) as [->|[Ho _]].
    + (* jump: the scope is not opened *)
      unfold eval_miss. rewrite PA, PF.
      destruct (IH U c Hpa Hd) as [c1 [Hd1 E1]]. rewrite E1.
      exists c1. split; [assumption|].
      destruct (peval G names sw steady a U) as [A| | |]; cbn; try reflexivity;
        destruct (hctl_var_id G x); reflexivity.
    + (* the quantifiers open the scope of x and close it again *)
      rewrite (eval_miss_quant G names sw steady _ o x None a U c Ho PA PF). cbn zeta.
      destruct (IH U (set_free c (sinsert x None (free_doms c))) Hpa Hd) as [c1 [Hd1 E1]]. rewrite E1.
      exists (set_free c1 (aremove str_eqb x (free_doms c1))). split; [assumption|].
      destruct (peval G names sw steady a U) as [A| | |]; cbn [bind]; try reflexivity.
      destruct (hctl_var_id G x) as [e| | |]; cbn [bind]; try reflexivity.
      destruct o; try congruence; cbn [eval_hybrid];
        destruct (eval_hybrid_quantifier G U U _ e A); reflexivity.
Qed.
End Link.
