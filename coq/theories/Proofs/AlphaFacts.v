(** Alpha-invariance of preprocessing (property C08: names of bound variables).

    [prep] is, up to the error "re-quantified variable", a function of the de Bruijn normal
    form [db] of the tree (PrepFacts.v) and of the number of enclosing quantifiers:

      prep props ren (xs (length scope)) t  =  dprep props (length scope) (db scope t)
                                            \/ = Err ERequantified.

    [dprep] is the preprocessing of de Bruijn forms defined below; it never answers
    [ERequantified] -- that error is the only outcome of [prep] that is not alpha-invariant
    ([db] forgets the bound names, so it cannot see that an inner quantifier re-uses the name
    of an enclosing one). *)
From HCTL Require Import Base Syntax Preprocess.
From HCTL Require Import PrepFacts.

(** * Preprocessing of de Bruijn forms *)

(** the name given to a de Bruijn variable below [n] quantifiers *)
Definition dvar_name (n : nat) (v : dvar) : str :=
  match v with
  | DBound i => xs (n - i)
  | DFree x => x
  end.

(** the tree named by depth, as a function of the de Bruijn form only *)
Fixpoint dname (n : nat) (d : dtree) : tree :=
  match d with
  | DVar v => Terminal (AVar (dvar_name n v))
  | DProp p => Terminal (AProp p)
  | DTrue => Terminal ATrue
  | DFalse => Terminal AFalse
  | DWild w => Terminal (AWild w)
  | DUnary o c => Unary o (dname n c)
  | DBinary o l r => Binary o (dname n l) (dname n r)
  | DQuant o dd c => Hybrid o (xs (S n)) dd (dname (S n) c)
  | DJump v dd c => Hybrid Jump (dvar_name n v) dd (dname n c)
  end.

(** validation and naming in the traversal order of [prep]: the first unknown proposition
    or free variable decides the error *)
Fixpoint dprep (props : list str) (n : nat) (d : dtree) : res tree :=
  match d with
  | DVar (DBound i) => Ok (Terminal (AVar (xs (n - i))))
  | DVar (DFree _) => Err EFreeVar
  | DProp p => if existsb (str_eqb p) props then Ok (Terminal (AProp p)) else Err EUnknownProp
  | DTrue => Ok (Terminal ATrue)
  | DFalse => Ok (Terminal AFalse)
  | DWild w => Ok (Terminal (AWild w))
  | DUnary o c => let* c' := dprep props n c in Ok (Unary o c')
  | DBinary o l r =>
      let* l' := dprep props n l in
      let* r' := dprep props n r in
      Ok (Binary o l' r')
  | DQuant o dd c => let* c' := dprep props (S n) c in Ok (Hybrid o (xs (S n)) dd c')
  | DJump v dd c =>
      let* c' := dprep props n c in
      match v with
      | DBound i => Ok (Hybrid Jump (xs (n - i)) dd c')
      | DFree _ => Err EFreeVar
      end
  end.

(** closed de Bruijn forms over known propositions *)
Fixpoint dclosed (props : list str) (d : dtree) : Prop :=
  match d with
  | DVar (DBound _) => True
  | DVar (DFree _) => False
  | DProp p => In p props
  | DTrue | DFalse | DWild _ => True
  | DUnary _ c => dclosed props c
  | DBinary _ l r => dclosed props l /\ dclosed props r
  | DQuant _ _ c => dclosed props c
  | DJump v _ c => dclosed props c /\ match v with DBound _ => True | DFree _ => False end
  end.

(** no quantifier binds a name that is already in scope *)
Fixpoint no_requant (scope : list str) (t : tree) : Prop :=
  match t with
  | Terminal _ => True
  | Unary _ c => no_requant scope c
  | Binary _ l r => no_requant scope l /\ no_requant scope r
  | Hybrid o x _ c =>
      if is_quantifier o then ~ In x scope /\ no_requant (x :: scope) c
      else no_requant scope c
  end.

(** * [rename] depends on the de Bruijn form only *)

Lemma rename_var_dref (scope : list str) (x : str) :
  rename_var scope x = dvar_name (length scope) (dref scope x).
Proof. unfold rename_var, dref. destruct (index x scope) as [i|]; reflexivity. Qed.

Theorem rename_dname (t : tree) :
  forall scope, rename scope t = dname (length scope) (db scope t).
Proof.
  induction t as [a | o c IH | o l IHl r IHr | o x d c IH]; intro scope; cbn [rename db].
  - destruct a as [p | x | | | w]; cbn [dname]; try reflexivity.
    rewrite rename_var_dref. reflexivity.
  - cbn [dname]. rewrite IH. reflexivity.
  - cbn [dname]. rewrite IHl, IHr. reflexivity.
  - destruct (is_quantifier o) eqn:Q; cbn [dname].
    + rewrite (IH (x :: scope)). reflexivity.
    + rewrite (not_quantifier_jump o Q), rename_var_dref, IH. reflexivity.
Qed.

Theorem rename_alpha (t1 t2 : tree) (s1 s2 : list str) :
  length s1 = length s2 -> db s1 t1 = db s2 t2 -> rename s1 t1 = rename s2 t2.
Proof. intros LEN E. rewrite !rename_dname, LEN, E. reflexivity. Qed.

(** * Well-scopedness = no re-quantification + closed de Bruijn form *)

Lemma dref_bound_in (scope : list str) (x : str) :
  (match dref scope x with DBound _ => True | DFree _ => False end) <-> In x scope.
Proof.
  unfold dref. destruct (index x scope) as [i|] eqn:I.
  - split; [intros _; apply (index_some x scope i I) | intros _; exact Logic.I].
  - split; [intros [] | intro IN; exact (index_none x scope I IN)].
Qed.

Theorem well_scoped_iff (props : list str) (t : tree) :
  forall scope,
    well_scoped props scope t <-> no_requant scope t /\ dclosed props (db scope t).
Proof.
  induction t as [a | o c IH | o l IHl r IHr | o x d c IH]; intro scope;
    cbn [well_scoped no_requant db].
  - destruct a as [p | x | | | w]; cbn [dclosed]; try tauto.
    pose proof (dref_bound_in scope x) as B. cbn [dclosed].
    destruct (dref scope x); tauto.
  - cbn [dclosed]. apply IH.
  - cbn [dclosed]. rewrite (IHl scope), (IHr scope). tauto.
  - destruct (is_quantifier o) eqn:Q; cbn [dclosed].
    + rewrite (IH (x :: scope)). tauto.
    + rewrite (IH scope). pose proof (dref_bound_in scope x) as B. tauto.
Qed.

(** * [prep] factors through the de Bruijn form, up to [ERequantified] *)

(** [dprep] names as [dname] does, or stops at a free variable or an unknown proposition *)
Lemma dprep_cases (props : list str) (d : dtree) :
  forall n, dprep props n d = Ok (dname n d)
            \/ dprep props n d = Err EFreeVar \/ dprep props n d = Err EUnknownProp.
Proof.
  induction d as [v | p | | | w | o c IH | o l IHl r IHr | o dd c IH | v dd c IH];
    intro n; cbn [dprep dname]; auto.
  - destruct v; auto.
  - destruct (existsb (str_eqb p) props); auto.
  - destruct (IH n) as [-> | [-> | ->]]; cbn [bind]; auto.
  - destruct (IHl n) as [-> | [-> | ->]]; cbn [bind]; auto.
    destruct (IHr n) as [-> | [-> | ->]]; cbn [bind]; auto.
  - destruct (IH (S n)) as [-> | [-> | ->]]; cbn [bind]; auto.
  - destruct (IH n) as [-> | [-> | ->]]; cbn [bind]; auto. destruct v; auto.
Qed.

Lemma dprep_dname (props : list str) (d : dtree) :
  forall n t', dprep props n d = Ok t' -> t' = dname n d.
Proof.
  intros n t' H. destruct (dprep_cases props d n) as [E | [E | E]]; rewrite E in H;
    [injection H as <-; reflexivity | discriminate H | discriminate H].
Qed.

Lemma dprep_never_requantified (props : list str) (d : dtree) :
  forall n, dprep props n d <> Err ERequantified.
Proof.
  intros n H. destruct (dprep_cases props d n) as [E | [E | E]]; rewrite E in H; discriminate H.
Qed.

Lemma slookup_dref (scope : list str) (x : str) :
  slookup scope x
  = match dref scope x with DBound i => Ok (xs (length scope - i)) | DFree _ => Err EFreeVar end.
Proof. unfold slookup, dref. destruct (index x scope); reflexivity. Qed.

(** where [sprep] departs from [dprep] it has met a quantifier over a name in scope *)
Theorem sprep_factors (props : list str) (t : tree) :
  forall scope,
    sprep props scope t = dprep props (length scope) (db scope t)
    \/ (sprep props scope t = Err ERequantified /\ ~ no_requant scope t).
Proof.
  induction t as [a | o c IH | o l IHl r IHr | o x d c IH]; intro scope;
    cbn [sprep db no_requant].
  - left. destruct a as [p | x | | | w]; cbn [dprep]; try reflexivity.
    rewrite slookup_dref. destruct (dref scope x); reflexivity.
  - cbn [dprep]. destruct (IH scope) as [-> | [-> N]]; [left; reflexivity | right].
    split; [reflexivity | exact N].
  - cbn [dprep]. destruct (IHl scope) as [-> | [-> N]]; [|right; split; [reflexivity | tauto]].
    destruct (dprep props (length scope) (db scope l)); cbn [bind]; try (left; reflexivity).
    destruct (IHr scope) as [-> | [-> N]]; [left; reflexivity | right].
    split; [reflexivity | tauto].
  - destruct (is_quantifier o) eqn:Q; cbn [dprep].
    + destruct (index x scope) as [i|] eqn:I.
      { right. split; [reflexivity|]. intros [NIN _]. apply NIN, (index_some x scope i I). }
      destruct (IH (x :: scope)) as [-> | [-> N]]; [left; reflexivity | right].
      split; [reflexivity | tauto].
    + rewrite (not_quantifier_jump o Q).
      destruct (IH scope) as [-> | [-> N]]; [left | right; split; [reflexivity | exact N]].
      rewrite slookup_dref.
      destruct (dprep props (length scope) (db scope c)); cbn [bind]; try reflexivity.
      destruct (dref scope x); reflexivity.
Qed.

Theorem prep_factors (props : list str) (t : tree) :
  forall scope ren,
    ren_inv scope ren ->
    prep props ren (xs (length scope)) t = dprep props (length scope) (db scope t)
    \/ prep props ren (xs (length scope)) t = Err ERequantified.
Proof.
  intros scope ren INV. rewrite (prep_sprep props t scope ren INV).
  destruct (sprep_factors props t scope) as [E | [E _]]; [left | right]; exact E.
Qed.

(** * Top level *)

Theorem preprocess_factors (props : list str) (t : tree) :
  preprocess props t = dprep props 0 (db [] t) \/ preprocess props t = Err ERequantified.
Proof. exact (prep_factors props t [] [] ren_inv_nil). Qed.

Theorem preprocess_factors_exact (props : list str) (t : tree) :
  no_requant [] t -> preprocess props t = dprep props 0 (db [] t).
Proof.
  intro NR. rewrite preprocess_sprep.
  destruct (sprep_factors props t []) as [E | [_ N]]; [exact E | contradiction].
Qed.

Theorem preprocess_not_requantified (props : list str) (t : tree) :
  no_requant [] t -> preprocess props t <> Err ERequantified.
Proof.
  intros NR H. rewrite (preprocess_factors_exact props t NR) in H.
  exact (dprep_never_requantified props _ 0 H).
Qed.

(** alpha-equivalent trees are preprocessed to the same outcome, unless one of them is
    rejected for re-quantifying a variable *)
Theorem preprocess_alpha_general (props : list str) (t1 t2 : tree) :
  db [] t1 = db [] t2 ->
  preprocess props t1 = preprocess props t2
  \/ preprocess props t1 = Err ERequantified
  \/ preprocess props t2 = Err ERequantified.
Proof.
  intro E.
  destruct (preprocess_factors props t1) as [E1 | E1]; [|right; left; exact E1].
  destruct (preprocess_factors props t2) as [E2 | E2]; [|right; right; exact E2].
  left. rewrite E1, E2, E. reflexivity.
Qed.

(** ... hence to the same outcome (same tree or same error class) when neither of them
    re-quantifies *)
Theorem preprocess_alpha_invariant (props : list str) (t1 t2 : tree) :
  db [] t1 = db [] t2 -> no_requant [] t1 -> no_requant [] t2 ->
  preprocess props t1 = preprocess props t2.
Proof.
  intros E NR1 NR2.
  rewrite (preprocess_factors_exact props t1 NR1), (preprocess_factors_exact props t2 NR2), E.
  reflexivity.
Qed.

(** acceptance transfers along alpha-equivalence to every tree that does not re-quantify *)
Theorem preprocess_alpha_ok (props : list str) (t1 t2 t' : tree) :
  db [] t1 = db [] t2 -> no_requant [] t2 ->
  preprocess props t1 = Ok t' -> preprocess props t2 = Ok t'.
Proof.
  intros E NR2 H. pose proof H as WS. apply preprocess_ok_iff in WS. destruct WS as [WS _].
  rewrite <- H. symmetry. apply preprocess_alpha_invariant; try assumption.
  apply (well_scoped_iff props t1 []), WS.
Qed.

(** both accepted: the same tree, whatever the names were *)
Theorem preprocess_alpha_ok_ok (props : list str) (t1 t2 t1' t2' : tree) :
  db [] t1 = db [] t2 ->
  preprocess props t1 = Ok t1' -> preprocess props t2 = Ok t2' -> t1' = t2'.
Proof.
  intros E H1 H2.
  apply preprocess_ok_iff in H1. destruct H1 as [_ ->].
  apply preprocess_ok_iff in H2. destruct H2 as [_ ->].
  apply rename_alpha; [reflexivity | exact E].
Qed.

(** the side condition cannot be dropped: [db] forgets names, re-quantification does not *)
Definition requant_example_1 : tree :=
  Hybrid Bind [c_x] None (Hybrid Bind [c_x] None (Terminal (AVar [c_x]))).
Definition requant_example_2 : tree :=
  Hybrid Bind [c_x] None (Hybrid Bind [c_x; c_x] None (Terminal (AVar [c_x; c_x]))).

Theorem preprocess_alpha_requant_counterexample (props : list str) :
  db [] requant_example_1 = db [] requant_example_2
  /\ preprocess props requant_example_1 = Err ERequantified
  /\ preprocess props requant_example_2 = Ok requant_example_2.
Proof. repeat split; reflexivity. Qed.
