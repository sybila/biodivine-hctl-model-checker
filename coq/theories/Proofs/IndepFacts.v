(** Independence facts (properties C03 part 2 and C15):
    - [sat] is parametric in the valuation: relations on valuations that are preserved by what
      [sat] does to a valuation are preserved by [sat] ([sat_param]); in particular
      [sat] only reads the colour, the state and the spare copies that hold FREE variables of
      the formula; a closed formula ignores every spare copy;
    - the result of the evaluator on a closed formula ignores the spare copies, therefore
      [sanitize] never panics on it and the sanitised set equals the raw one;
    - the sanitised result does not depend on the number k of spare copies. *)
From HCTL Require Import Base Syntax TT Ops Eval Pipeline Kripke HCTL.
From HCTL Require Import TTFacts OpsFacts KripkeFacts SemFacts EvalPure Main LayoutFacts.

(** [copies_ok G A t]: every FREE occurrence of a state variable in [t] (an atom {x} or a
    jump @{x}, not below a binder of a variable stored in the same copy) is stored in a
    copy of the set [A].  Stated for arbitrary trees: a binder adds its copy to the set. *)
Fixpoint copies_ok (G : genv) (A : nat -> Prop) (t : tree) : Prop :=
  match t with
  | Terminal (AVar x) => forall e, var_of G x = Some e -> A e
  | Terminal _ => True
  | Unary _ a => copies_ok G A a
  | Binary _ a b => copies_ok G A a /\ copies_ok G A b
  | Hybrid Jump x _ a => (forall e, var_of G x = Some e -> A e) /\ copies_ok G A a
  | Hybrid _ x _ a =>
      forall e, var_of G x = Some e -> copies_ok G (fun e' => e' = e \/ A e') a
  end.

Definition closed_copies (G : genv) (t : tree) : Prop := copies_ok G (fun _ => False) t.
Definition avoids_copy (G : genv) (e : nat) (t : tree) : Prop := copies_ok G (fun e' => e' <> e) t.

Lemma copies_ok_mono G t : forall (A A' : nat -> Prop), (forall e, A e -> A' e) ->
  copies_ok G A t -> copies_ok G A' t.
Proof.
  induction t as [a | o a IH | o a IHa b IHb | o x d a IH]; intros A A' HA H.
  - destruct a; simpl in *; auto.
  - simpl in *. eapply IH; eassumption.
  - simpl in *. destruct H as [H1 H2]. split; [eapply IHa | eapply IHb]; eassumption.
  - destruct o; simpl in *;
      try (intros e He; eapply IH; [|apply H; exact He]; intros e' [E|E]; [left; exact E | right; auto]).
    destruct H as [H1 H2]. split; [intros e He; auto | eapply IH; eassumption].
Qed.

Lemma copies_ok_top G t : forall (A : nat -> Prop), (forall e, A e) -> copies_ok G A t.
Proof.
  induction t as [a | o a IH | o a IHa b IHb | o x d a IH]; intros A HA.
  - destruct a; simpl; auto.
  - simpl. apply IH; exact HA.
  - simpl. split; [apply IHa | apply IHb]; exact HA.
  - destruct o; simpl; try (intros e He; apply IH; intro e'; right; apply HA).
    split; [intros e He; apply HA | apply IH; exact HA].
Qed.

(** the usual closedness by names implies closedness by copies, for every graph *)
Fixpoint closed_names (B : list str) (t : tree) : Prop :=
  match t with
  | Terminal (AVar x) => In x B
  | Terminal _ => True
  | Unary _ a => closed_names B a
  | Binary _ a b => closed_names B a /\ closed_names B b
  | Hybrid Jump x _ a => In x B /\ closed_names B a
  | Hybrid _ x _ a => closed_names (x :: B) a
  end.

Lemma closed_names_copies_ok G t : forall B, closed_names B t ->
  copies_ok G (fun e => exists x, In x B /\ var_of G x = Some e) t.
Proof.
  induction t as [a | o a IH | o a IHa b IHb | o x d a IH]; intros B H.
  - destruct a as [nm|x| | |l]; simpl in *; auto.
    intros e He. exists x. split; assumption.
  - simpl in *. apply IH; exact H.
  - simpl in *. destruct H as [H1 H2]. split; [apply IHa | apply IHb]; assumption.
  - (* a binder: the copy of the bound variable is the copy of a name of the new list *)
    destruct o; simpl in *;
      try (intros e He; eapply copies_ok_mono; [|apply IH; exact H];
           intros e' [y [[<-|Hy] Hv]]; [left; congruence | right; exists y; split; assumption]).
    destruct H as [H1 H2]. split; [|apply IH; exact H2].
    intros e He. exists x. split; assumption.
Qed.

Lemma closed_names_closed_copies G t : closed_names [] t -> closed_copies G t.
Proof.
  intro H. unfold closed_copies. eapply copies_ok_mono; [|apply closed_names_copies_ok; exact H].
  intros e [x [[] _]].
Qed.

Lemma ex_guard_iff {T} (F B B' : T -> Prop) : (forall e, F e -> (B e <-> B' e)) ->
  ((exists e, F e /\ B e) <-> (exists e, F e /\ B' e)).
Proof.
  intro H. split; intros [e [He Hb]]; exists e; (split; [exact He|]); apply (H e He); exact Hb.
Qed.

(** every variable of the formula is stored in the same copy in both graphs *)
Fixpoint vars_agree (G G' : genv) (t : tree) : Prop :=
  match t with
  | Terminal (AVar x) => var_of G x = var_of G' x
  | Terminal _ => True
  | Unary _ a => vars_agree G G' a
  | Binary _ a b => vars_agree G G' a /\ vars_agree G G' b
  | Hybrid _ x _ a => var_of G x = var_of G' x /\ vars_agree G G' a
  end.

Lemma vars_agree_eq G G' t : (forall x, var_of G x = var_of G' x) -> vars_agree G G' t.
Proof.
  intro V. induction t as [a | o a IH | o a IHa b IHb | o x d a IH]; simpl; auto.
  destruct a; simpl; auto.
Qed.

Lemma vars_agree_refl G t : vars_agree G G t.
Proof. apply vars_agree_eq. reflexivity. Qed.

(** the temporal and Boolean operators of [sat] are congruent under a simulation [R] of
    valuations: sub-formulae with the same meaning at related valuations give compound
    formulae with the same meaning at related valuations *)
Section SatCongr.
Variables G G' : genv.
Variable names : list str.
Variables Gamma Gamma' : str -> val -> Prop.
Variable R : val -> val -> Prop.
Hypothesis Hn : g_n G = g_n G'.
Hypothesis R_en : forall i v w, i < g_n G -> R v w -> enabled G i v = enabled G' i w.
Hypothesis R_flip : forall i v w, R v w -> R (vflip (TS i) v) (vflip (TS i) w).

Lemma sat_unary_rel o a a' :
  (forall v w, R v w -> (sat G names Gamma a v <-> sat G' names Gamma' a' w)) ->
  forall v w, R v w -> (sat G names Gamma (Unary o a) v <-> sat G' names Gamma' (Unary o a') w).
Proof.
  intros K v w Hr. destruct o; simpl.
  - specialize (K v w Hr). tauto.
  - apply (EXs_bisim G G' R Hn R_en R_flip); assumption.
  - apply (AXs_bisim G G' R Hn R_en R_flip); assumption.
  - apply (EFs_bisim G G' R Hn R_en R_flip); assumption.
  - apply (AFs_bisim G G' R Hn R_en R_flip); assumption.
  - apply (EGs_bisim G G' R Hn R_en R_flip); assumption.
  - apply (AGs_bisim G G' R Hn R_en R_flip); assumption.
Qed.

Lemma sat_binary_rel o a a' b b' :
  (forall v w, R v w -> (sat G names Gamma a v <-> sat G' names Gamma' a' w)) ->
  (forall v w, R v w -> (sat G names Gamma b v <-> sat G' names Gamma' b' w)) ->
  forall v w, R v w ->
  (sat G names Gamma (Binary o a b) v <-> sat G' names Gamma' (Binary o a' b') w).
Proof.
  intros Ka Kb v w Hr. pose proof (Ka v w Hr) as Ea. pose proof (Kb v w Hr) as Eb.
  destruct o; simpl; [rewrite Ea, Eb; reflexivity .. | | | |].
  - apply (EUs_bisim G G' R Hn R_en R_flip); assumption.
  - apply (AUs_bisim G G' R Hn R_en R_flip); assumption.
  - apply (EWs_bisim G G' R Hn R_en R_flip); assumption.
  - apply (AWs_bisim G G' R Hn R_en R_flip); assumption.
Qed.
End SatCongr.

(** a set of formulae that contains the sub-formulae of its members, a quantifier's domain
    label counting as the wild-card proposition of that label *)
Definition sub_closed (uses : tree -> Prop) : Prop :=
  (forall o a, uses (Unary o a) -> uses a) /\
  (forall o a b, uses (Binary o a b) -> uses a /\ uses b) /\
  (forall o x d a, uses (Hybrid o x d a) ->
     (forall l, d = Some l -> uses (Terminal (AWild l))) /\ uses a).

Lemma sub_closed_all : sub_closed (fun _ => True).
Proof. repeat split. Qed.

Lemma sub_closed_plainf : sub_closed plainf.
Proof.
  split; [|split]; cbn [plainf]; auto. intros o x d a [-> H]. split; [discriminate | exact H].
Qed.

(** [sat] is parametric: a family of relations [R A] on valuations, indexed by the set [A] of
    spare copies that are related, is preserved by everything [sat] does to a valuation
    (moves, binding, jumping, quantifying) and related valuations give the atoms the same
    truth value; then they satisfy the same formulae.  The two sides may differ in the graph
    and in the context.  [uses] is any [sub_closed] set of formulae: the contexts have
    to agree only on the labels of wild-card propositions in it. *)
Section SatParam.
Variables G G' : genv.
Variable names : list str.
Variables Gamma Gamma' : str -> val -> Prop.
Variable R : (nat -> Prop) -> val -> val -> Prop.
Variable uses : tree -> Prop.
Hypothesis Hn : g_n G = g_n G'.
Hypothesis R_en : forall A i v w, i < g_n G -> R A v w -> enabled G i v = enabled G' i w.
Hypothesis R_flip : forall A i v w, R A v w -> R A (vflip (TS i) v) (vflip (TS i) w).
Hypothesis R_state : forall A i v w, R A v w -> v (TS i) = w (TS i).
Hypothesis R_copy : forall (A : nat -> Prop) e v w, A e -> R A v w ->
  (copy_is_state G e v <-> copy_is_state G' e w).
Hypothesis R_gamma : forall A l v w, uses (Terminal (AWild l)) -> R A v w ->
  (Gamma l v <-> Gamma' l w).
Hypothesis R_with_state : forall A u v w, R A v w -> R A (with_state u v) (with_state u w).
Hypothesis R_bind : forall A e v w, R A v w ->
  R (fun e' => e' = e \/ A e') (set_copy e v v) (set_copy e w w).
Hypothesis R_quant : forall A e u v w, R A v w ->
  R (fun e' => e' = e \/ A e') (set_copy e u v) (set_copy e u w).
Hypothesis R_jump : forall (A : nat -> Prop) e v w, A e -> R A v w ->
  R A (set_state e v) (set_state e w).
Hypothesis uses_sub : sub_closed uses.

Lemma dom_param A d v w : (forall l, d = Some l -> uses (Terminal (AWild l))) -> R A v w ->
  (dom Gamma d v <-> dom Gamma' d w).
Proof.
  intros Hd Hr. destruct d as [l|]; simpl; [|tauto]. apply (R_gamma A); [apply Hd; reflexivity | exact Hr].
Qed.

Theorem sat_param t : forall (A : nat -> Prop) v w,
  vars_agree G G' t -> copies_ok G A t -> uses t -> R A v w ->
  (sat G names Gamma t v <-> sat G' names Gamma' t w).
Proof.
  induction t as [a | o a IH | o a IHa b IHb | o x d a IH]; intros A v w Hva Hc Hu Hr.
  - destruct a as [nm|x| | |l]; simpl in *; [| |reflexivity|reflexivity|].
    + apply ex_guard_iff. intros i _. rewrite (R_state A i v w Hr). reflexivity.
    + rewrite <- Hva. apply ex_guard_iff. intros e He. apply (R_copy A); [apply Hc; exact He | exact Hr].
    + apply (R_gamma A); assumption.
  - apply (proj1 uses_sub) in Hu.
    apply (sat_unary_rel G G' names Gamma Gamma' (R A) Hn (R_en A) (R_flip A)); [|exact Hr].
    intros v' w' Hr'. apply (IH A); assumption.
  - apply (proj1 (proj2 uses_sub)) in Hu. simpl in Hva, Hc.
    destruct Hva as [Hva Hvb]. destruct Hc as [Hca Hcb]. destruct Hu as [Hua Hub].
    apply (sat_binary_rel G G' names Gamma Gamma' (R A) Hn (R_en A) (R_flip A)); [| |exact Hr];
      intros v' w' Hr'; [apply (IHa A) | apply (IHb A)]; assumption.
  - apply (proj2 (proj2 uses_sub)) in Hu. simpl in Hva. destruct Hva as [Hx Hva]. destruct Hu as [Hd Hua].
    (* the domain of a quantified state, and the body below a binder *)
    assert (Dw : forall u, dom Gamma d (with_state u v) <-> dom Gamma' d (with_state u w))
      by (intro u; apply (dom_param A); [exact Hd | apply R_with_state; exact Hr]).
    assert (Kq : forall e u, copies_ok G (fun e' => e' = e \/ A e') a ->
              (sat G names Gamma a (set_copy e u v) <-> sat G' names Gamma' a (set_copy e u w)))
      by (intros e u Hce; apply (IH _ _ _ Hva Hce Hua), R_quant, Hr).
    destruct o; simpl in *; rewrite <- Hx; apply ex_guard_iff; intros e He.
    + pose proof (dom_param A d v w Hd Hr) as Dv.
      pose proof (IH _ _ _ Hva (Hc e He) Hua (R_bind A e v w Hr)) as Kb.
      split; intros [X Y]; (split; [apply Dv, X | apply Kb, Y]).
    + destruct Hc as [Hce Hca]. apply (IH A); try assumption. apply R_jump; [apply Hce; exact He | exact Hr].
    + split; intros [u [Hdu Hs]]; exists u; (split; [apply Dw, Hdu | apply (Kq e u (Hc e He)), Hs]).
    + split; intros H u Hdu; apply (Kq e u (Hc e He)), H, Dw, Hdu.
Qed.
End SatParam.

(** the valuations are the same on both sides and stay in a set [Inv] that is closed under
    everything [sat] moves along: the graphs need to have the same transitions, and the
    contexts the same meaning of the labels in [uses], on that set only *)
Section SatInv.
Variables G G' : genv.
Variable names : list str.
Variables Gamma Gamma' : str -> val -> Prop.
Variable Inv : val -> Prop.
Variable uses : tree -> Prop.
Hypothesis Hn : g_n G = g_n G'.
Hypothesis Hk : g_k G = g_k G'.
Hypothesis Inv_flip : forall i v, Inv v -> Inv (vflip (TS i) v).
Hypothesis Inv_set_copy : forall e u v, Inv v -> Inv (set_copy e u v).
Hypothesis Inv_set_state : forall e v, Inv v -> Inv (set_state e v).
Hypothesis Inv_with_state : forall u v, Inv v -> Inv (with_state u v).
Hypothesis Hen : forall i v, Inv v -> enabled G i v = enabled G' i v.
Hypothesis HGamma : forall l v, uses (Terminal (AWild l)) -> Inv v -> (Gamma l v <-> Gamma' l v).
Hypothesis uses_sub : sub_closed uses.

Theorem sat_inv t v : uses t -> Inv v -> (sat G names Gamma t v <-> sat G' names Gamma' t v).
Proof.
  intros Hu Hv.
  apply (sat_param G G' names Gamma Gamma' (fun _ => rel_inv Inv) uses Hn) with (A := fun _ => True);
    try assumption.
  - intros _. exact (rel_inv_en G G' Inv Hen).
  - intros _. exact (rel_inv_flip Inv Inv_flip).
  - intros _ i a b [<- _]. reflexivity.
  - intros _ e a b _ [<- _]. unfold copy_is_state. rewrite Hn. tauto.
  - intros _ l a b Hl [<- Ha]. apply HGamma; assumption.
  - intros _ u a b [<- Ha]. split; auto.
  - intros _ e a b [<- Ha]. split; auto.
  - intros _ e u a b [<- Ha]. split; auto.
  - intros _ e a b _ [<- Ha]. split; auto.
  - apply vars_agree_eq. intro x. unfold var_of. rewrite Hk. reflexivity.
  - apply copies_ok_top. auto.
  - split; auto.
Qed.
End SatInv.

(** v and w have the same colour, the same state and the same copies e for e in A *)
Definition vagree (A : nat -> Prop) (v w : val) : Prop :=
  (forall j, v (TP j) = w (TP j)) /\ (forall i, v (TS i) = w (TS i)) /\
  (forall i e, A e -> v (TX i e) = w (TX i e)).

(** the three ways in which "[v] and [w] have the same colour and the same state" is written:
    on the tags that are no spare copy (the hypothesis on the update functions,
    [ExtFacts.extras_indep]), on the tags that [not_extra] keeps ([indep_dropped not_extra]),
    and bit by bit (the statements of C03, C10, C15) *)
Lemma same_non_extra (v w : val) :
  (forall g, is_extra_tag g = false -> v g = w g) <->
  (forall j, v (TP j) = w (TP j)) /\ (forall i, v (TS i) = w (TS i)).
Proof.
  split.
  - intro H. split; intro a; apply H; reflexivity.
  - intros [H1 H2] [j|i|i e] Hg; [apply H1 | apply H2 | discriminate].
Qed.

Lemma same_not_extra (v w : val) :
  (forall g, not_extra g = true -> v g = w g) <-> (forall g, is_extra_tag g = false -> v g = w g).
Proof.
  split; intros H g Hg; apply H; [unfold not_extra; rewrite Hg; reflexivity | apply negb_true_iff, Hg].
Qed.

Lemma vagree_flip A i v w : vagree A v w -> vagree A (vflip (TS i) v) (vflip (TS i) w).
Proof.
  intros [H1 [H2 H3]]. unfold vflip. split; [|split].
  - intro j. simpl. apply H1.
  - intro i'. simpl. rewrite H2. reflexivity.
  - intros i' e He. simpl. apply H3. exact He.
Qed.

Lemma vagree_set_copy A e u u' v w : (forall i, u (TS i) = u' (TS i)) -> vagree A v w ->
  vagree (fun e' => e' = e \/ A e') (set_copy e u v) (set_copy e u' w).
Proof.
  intros Hu [H1 [H2 H3]]. unfold set_copy. split; [|split].
  - intro j. apply H1.
  - intro i. apply H2.
  - intros i e' He. destruct (Nat.eqb e e') eqn:E; [apply Hu|].
    destruct He as [He|He]; [|apply H3; exact He].
    subst e'. rewrite Nat.eqb_refl in E. discriminate.
Qed.

Lemma vagree_set_state (A : nat -> Prop) e v w : A e -> vagree A v w ->
  vagree A (set_state e v) (set_state e w).
Proof.
  intros He [H1 [H2 H3]]. unfold set_state. split; [|split].
  - intro j. apply H1.
  - intro i. apply H3. exact He.
  - intros i e' He'. apply H3. exact He'.
Qed.

Lemma vagree_with_state A u v w : vagree A v w -> vagree A (with_state u v) (with_state u w).
Proof. intros [H1 [_ H3]]. split; [exact H1|]. split; [reflexivity | exact H3]. Qed.

Section SatAgree.
Variables G G' : genv.
Variable names : list str.
Variable Gamma : str -> val -> Prop.
Hypothesis Hn : g_n G = g_n G'.
(** the update functions of both graphs read the colour and the state only, and agree *)
Hypothesis Hen : forall i v w, i < g_n G ->
  (forall j, v (TP j) = w (TP j)) -> (forall i', v (TS i') = w (TS i')) ->
  enabled G i v = enabled G' i w.

Lemma copy_is_state_agree (A : nat -> Prop) e v w : A e -> vagree A v w ->
  (copy_is_state G e v <-> copy_is_state G' e w).
Proof.
  intros He [H1 [H2 H3]]. unfold copy_is_state. split; intros H i Hi.
  - rewrite <- (H3 i e He), <- H2. apply H. rewrite Hn. exact Hi.
  - rewrite (H3 i e He), H2. apply H. rewrite <- Hn. exact Hi.
Qed.

(** the context sets read the colour and the state only, on the labels in [uses] *)
Theorem sat_agree_uses (uses : tree -> Prop) t (A : nat -> Prop) v w :
  (forall l v w, uses (Terminal (AWild l)) ->
     (forall j, v (TP j) = w (TP j)) -> (forall i, v (TS i) = w (TS i)) -> (Gamma l v <-> Gamma l w)) ->
  sub_closed uses ->
  vars_agree G G' t -> copies_ok G A t -> uses t -> vagree A v w ->
  (sat G names Gamma t v <-> sat G' names Gamma t w).
Proof.
  intros HGamma Us.
  apply (sat_param G G' names Gamma Gamma vagree uses Hn); try assumption.
  - intros A' i a b Hi (H1 & H2 & _). apply Hen; assumption.
  - intros A' i. apply vagree_flip.
  - intros A' i a b (_ & H2 & _). apply H2.
  - intros A' e. apply copy_is_state_agree.
  - intros A' l a b Hl (H1 & H2 & _). apply HGamma; assumption.
  - intros A' u. apply vagree_with_state.
  - intros A' e a b Hr. apply vagree_set_copy; [apply Hr | exact Hr].
  - intros A' e u a b. apply vagree_set_copy. reflexivity.
  - intros A' e. apply vagree_set_state.
Qed.

Hypothesis HGamma : forall l v w,
  (forall j, v (TP j) = w (TP j)) -> (forall i, v (TS i) = w (TS i)) -> (Gamma l v <-> Gamma l w).

Theorem sat_agree_graphs t (A : nat -> Prop) v w :
  vars_agree G G' t -> copies_ok G A t -> vagree A v w ->
  (sat G names Gamma t v <-> sat G' names Gamma t w).
Proof.
  intros Hva Hc. apply (sat_agree_uses (fun _ => True)); auto using sub_closed_all.
Qed.

Lemma copies_ok_transfer t : forall A, vars_agree G G' t -> copies_ok G A t -> copies_ok G' A t.
Proof.
  induction t as [a | o a IH | o a IHa b IHb | o x d a IH]; intros A Hva Hc.
  - destruct a; simpl in *; auto. rewrite <- Hva. exact Hc.
  - simpl in *. apply IH; assumption.
  - simpl in *. destruct Hva, Hc. split; [apply IHa | apply IHb]; assumption.
  - simpl in Hva. destruct Hva as [Hx Hva]. destruct o; simpl in *; rewrite <- Hx;
      try (intros e He; apply IH; [exact Hva | apply Hc; exact He]).
    destruct Hc as [H1 H2]. split; [exact H1 | apply IH; assumption].
Qed.

End SatAgree.

Section Indep.
Variable G : genv.
Variable names : list str.
Variable Gamma : str -> val -> Prop.
Local Notation L := (g_L G).
(** update functions do not read the spare copies ([wf_upd_extras]) *)
Hypothesis upd_extras : forall i v w, (forall g, is_extra_tag g = false -> v g = w g) ->
  mem L (upd_of G i) v = mem L (upd_of G i) w.
(** the context sets read the colour and the state only *)
Hypothesis HGamma : forall l v w,
  (forall j, v (TP j) = w (TP j)) -> (forall i, v (TS i) = w (TS i)) -> (Gamma l v <-> Gamma l w).

Lemma enabled_ignores_copies i v w :
  (forall j, v (TP j) = w (TP j)) -> (forall i', v (TS i') = w (TS i')) ->
  enabled G i v = enabled G i w.
Proof.
  intros H1 H2. unfold enabled. rewrite (H2 i). f_equal.
  apply upd_extras, same_non_extra. split; assumption.
Qed.

Theorem sat_agree (A : nat -> Prop) t v w : copies_ok G A t -> vagree A v w ->
  (sat G names Gamma t v <-> sat G names Gamma t w).
Proof.
  intros Hc Hr. apply (sat_agree_graphs G G names Gamma eq_refl) with (A := A); try assumption.
  - intros i v' w' _ H1 H2. apply enabled_ignores_copies; assumption.
  - apply vars_agree_refl.
Qed.

Theorem sat_closed_ignores_copies t v w : closed_copies G t ->
  (forall j, v (TP j) = w (TP j)) -> (forall i, v (TS i) = w (TS i)) ->
  (sat G names Gamma t v <-> sat G names Gamma t w).
Proof.
  intros Hc H1 H2. apply (sat_agree (fun _ => False)); [exact Hc|].
  split; [exact H1|]. split; [exact H2|]. intros i e [].
Qed.

End Indep.

Section Restrict.
Variable keep : tag -> bool.

Definition indep_dropped (L : layout) (t : tt) : Prop :=
  forall v w, (forall g, keep g = true -> v g = w g) -> mem L t v = mem L t w.

Lemma restrict_mem L : forall t s, restrict keep L t = Some s ->
  forall v, mem (filter keep L) s v = mem L t v.
Proof.
  induction L as [|h L IH]; intros t s H v.
  - simpl in H. injection H as <-. reflexivity.
  - destruct t as [b|lo hi].
    + simpl in H. injection H as <-. rewrite !mem_leaf. reflexivity.
    + cbn [restrict] in H. cbn [filter]. destruct (keep h) eqn:K.
      * destruct (restrict keep L lo) as [a|] eqn:Ea; [|discriminate].
        destruct (restrict keep L hi) as [b|] eqn:Eb; [|discriminate].
        injection H as <-. cbn [mem].
        destruct (v h); apply IH; assumption.
      * destruct (tt_eqb lo hi) eqn:Eq; [|discriminate].
        apply tt_eqb_eq in Eq. subst hi. cbn [mem].
        rewrite (IH lo s H v). destruct (v h); reflexivity.
Qed.

Lemma restrict_shaped L : forall t s, shaped L t -> restrict keep L t = Some s ->
  shaped (filter keep L) s.
Proof.
  induction L as [|h L IH]; intros t s Sh H.
  - simpl in H. injection H as <-. exact Sh.
  - destruct t as [b|lo hi]; [contradiction|]. destruct Sh as [S1 S2].
    cbn [restrict] in H. cbn [filter]. destruct (keep h) eqn:K.
    + destruct (restrict keep L lo) as [a|] eqn:Ea; [|discriminate].
      destruct (restrict keep L hi) as [b|] eqn:Eb; [|discriminate].
      injection H as <-. split; [apply (IH lo) | apply (IH hi)]; assumption.
    + destruct (tt_eqb lo hi) eqn:Eq; [|discriminate]. apply (IH lo); assumption.
Qed.

Lemma restrict_Some_indep L t s : restrict keep L t = Some s -> indep_dropped L t.
Proof.
  intros H v w Hvw. rewrite <- !(restrict_mem L t s H). apply mem_agree.
  intros g Hg. apply filter_In in Hg. apply Hvw. apply Hg.
Qed.

(** below the first level: the two branches, at valuations that agree on the kept levels *)
Lemma indep_dropped_node h L lo hi (b b' : bool) v w : ~ In h L ->
  indep_dropped (h :: L) (Node lo hi) ->
  (forall g, keep g = true -> upd v h b g = upd w h b' g) ->
  mem L (if b then hi else lo) v = mem L (if b' then hi else lo) w.
Proof.
  intros Hnotin Hind Hk. specialize (Hind _ _ Hk). cbn [mem] in Hind.
  rewrite !upd_same in Hind. rewrite !mem_upd_notin in Hind by assumption. exact Hind.
Qed.

Lemma restrict_defined L : forall t, NoDup L -> shaped L t -> indep_dropped L t ->
  exists s, restrict keep L t = Some s.
Proof.
  induction L as [|h L IH]; intros t ND Sh Hind.
  - exists t. reflexivity.
  - destruct t as [b|lo hi]; [contradiction|]. destruct Sh as [S1 S2].
    inversion ND as [|? ? Hnotin ND']; subst.
    assert (Hb : forall b : bool, indep_dropped L (if b then hi else lo)).
    { intros b v w Hvw. apply (indep_dropped_node h L lo hi b b v w Hnotin Hind).
      intros g Hg. unfold upd. destruct (tag_eqb g h); [reflexivity | apply Hvw; exact Hg]. }
    cbn [restrict]. destruct (keep h) eqn:K.
    + destruct (IH lo ND' S1 (Hb false)) as [a Ea]. destruct (IH hi ND' S2 (Hb true)) as [b Eb].
      rewrite Ea, Eb. eexists; reflexivity.
    + (* a dropped level: both branches are the same set *)
      assert (E : lo = hi).
      { apply (tt_ext L); try assumption. intro v.
        apply (indep_dropped_node h L lo hi false true v v Hnotin Hind).
        intros g Hg. unfold upd. destruct (tag_eqb g h) eqn:E; [|reflexivity].
        apply tag_eqb_eq in E. subst g. congruence. }
      subst hi. rewrite tt_eqb_refl. apply (IH lo ND' S1 (Hb false)).
Qed.

Theorem restrict_indep_Some L t : NoDup L -> shaped L t -> indep_dropped L t ->
  exists s, restrict keep L t = Some s /\ shaped (filter keep L) s /\
            forall v, mem (filter keep L) s v = mem L t v.
Proof.
  intros ND Sh Hind. destruct (restrict_defined L t ND Sh Hind) as [s Hs].
  exists s. split; [exact Hs|]. split; [eapply restrict_shaped; eassumption|].
  apply restrict_mem. exact Hs.
Qed.

End Restrict.

Section Closed.
Variable G : genv.
Variable names : list str.
Variable U : tt.
Hypothesis WF : wf_env G names U.
Local Notation L := (g_L G).
Local Notation st := (steady_of G U).

(** the set computed for a formula reads, beside the colour and the state, only the spare
    copies that hold its free variables *)
Theorem result_reads_free_copies (A : nat -> Prop) sw t R :
  plainf t -> supported G t -> copies_ok G A t ->
  peval G names sw st t U = Ok R ->
  forall v w, vagree A v w -> mem L R v = mem L R w.
Proof.
  intros Hpl Hsup Hc H v w Hvw.
  destruct (peval_correct G names U WF (fun _ _ => True) sw t R Hpl Hsup H) as [_ E].
  apply eq_true_iff_eq. rewrite (E v), (E w), (wf_U_colour _ _ _ WF v w (proj1 Hvw)).
  apply and_iff_compat_l, (sat_agree G names _ (wf_upd_extras _ _ _ WF)) with (A := A); try assumption.
  intros; tauto.
Qed.

(** C03 (part 2) *)
Theorem closed_ignores_copies sw t R : plainf t -> supported G t -> closed_copies G t ->
  peval G names sw st t U = Ok R ->
  forall v w, (forall j, v (TP j) = w (TP j)) -> (forall i, v (TS i) = w (TS i)) ->
    mem L R v = mem L R w.
Proof.
  intros Hpl Hsup Hcl H v w Hp Hs. apply (result_reads_free_copies _ sw t R Hpl Hsup Hcl H).
  split; [exact Hp|]. split; [exact Hs|]. intros i e [].
Qed.

Lemma closed_indep_extras sw t R : plainf t -> supported G t -> closed_copies G t ->
  peval G names sw st t U = Ok R -> indep_dropped not_extra L R.
Proof.
  intros Hpl Hsup Hcl H v w Hvw.
  destruct (proj1 (same_non_extra v w) (proj1 (same_not_extra v w) Hvw)) as [H1 H2].
  exact (closed_ignores_copies sw t R Hpl Hsup Hcl H v w H1 H2).
Qed.

(** C15: sanitising a closed result never panics and returns the same set *)
Theorem sanitize_eq_raw sw t R : plainf t -> supported G t -> closed_copies G t ->
  peval G names sw st t U = Ok R ->
  exists S, sanitize G R = Ok S /\ shaped (filter not_extra L) S /\
            forall v, mem (filter not_extra L) S v = mem L R v.
Proof.
  intros Hpl Hsup Hcl H.
  destruct (peval_correct G names U WF (fun _ _ => True) sw t R Hpl Hsup H) as [Sh _].
  destruct (restrict_indep_Some not_extra L R (wf_nodup _ _ _ WF) Sh
              (closed_indep_extras sw t R Hpl Hsup Hcl H)) as [S [E [SS HM]]].
  exists S. unfold sanitize. rewrite E. auto.
Qed.

Theorem sanitize_Ok_indep R S : sanitize G R = Ok S ->
  (forall v, mem (filter not_extra L) S v = mem L R v) /\ indep_dropped not_extra L R.
Proof.
  unfold sanitize. destruct (restrict not_extra L R) as [s|] eqn:E; [|discriminate].
  intro H. injection H as <-. split; [apply restrict_mem; exact E | eapply restrict_Some_indep; exact E].
Qed.

End Closed.

Lemma var_of_some G x : var_of G x <> None -> var_of G x = Some (pred (length x)).
Proof.
  unfold var_of. destruct x as [|c r]; [congruence|].
  destruct (Nat.ltb (length r) (g_k G)); [reflexivity | congruence].
Qed.

Lemma supported_vars_agree G G' t : supported G t -> supported G' t -> vars_agree G G' t.
Proof.
  induction t as [a | o a IH | o a IHa b IHb | o x d a IH]; simpl.
  - destruct a; simpl; auto. intros H H'. rewrite (var_of_some G), (var_of_some G'); auto.
  - exact IH.
  - intros [H1 H2] [H1' H2']. auto.
  - intros [H1 H2] [H1' H2']. split; [|auto].
    rewrite (var_of_some G), (var_of_some G'); auto.
Qed.

Section KIndep.
Variables p n k k' : nat.
Variable upd_pn : list tt.
Variable unit_pn : tt.
Variable names : list str.
Hypothesis upd_ok : List.Forall (shaped (Lpn p n)) upd_pn.
Hypothesis unit_ok : shaped (Lpn p n) unit_pn.
Hypothesis unit_colour : forall v w, (forall j, v (TP j) = w (TP j)) ->
  mem (Lpn p n) unit_pn v = mem (Lpn p n) unit_pn w.
Hypothesis names_ok : length names <= n.

Lemma mem_upd_of_mk_genv kk i v :
  mem (mk_layout p n kk) (upd_of (mk_genv p n kk upd_pn) i) v =
  mem (Lpn p n) (nth i upd_pn (const (Lpn p n) false)) v.
Proof.
  unfold upd_of. cbn [g_upd mk_genv].
  change (fun g => negb (is_extra_tag g)) with not_extra.
  change (empty (mk_genv p n kk upd_pn)) with (const (mk_layout p n kk) false).
  destruct (Nat.lt_ge_cases i (length upd_pn)) as [Hi|Hi].
  - rewrite (nth_indep _ _ (expand not_extra (mk_layout p n kk) (const (Lpn p n) false)))
      by (rewrite map_length; exact Hi).
    rewrite map_nth.
    assert (Sh : shaped (Lpn p n) (nth i upd_pn (const (Lpn p n) false))).
    { rewrite List.Forall_forall in upd_ok. apply upd_ok. apply nth_In. exact Hi. }
    apply mem_lifted, Sh.
  - rewrite !nth_overflow by (try rewrite map_length; exact Hi).
    rewrite !mem_const. reflexivity.
Qed.

Lemma colour_state_agree_Lpn v w : (forall j, v (TP j) = w (TP j)) -> (forall i, v (TS i) = w (TS i)) ->
  agree (Lpn p n) v w.
Proof.
  intros H1 H2 g Hg. unfold Lpn in Hg. apply in_app_iff in Hg.
  destruct Hg as [Hg|Hg]; apply in_map_iff in Hg; destruct Hg as [x [<- _]]; auto.
Qed.

Lemma enabled_mk_genv i v w :
  (forall j, v (TP j) = w (TP j)) -> (forall i', v (TS i') = w (TS i')) ->
  enabled (mk_genv p n k upd_pn) i v = enabled (mk_genv p n k' upd_pn) i w.
Proof.
  intros H1 H2. unfold enabled. cbn [g_L mk_genv]. rewrite !mem_upd_of_mk_genv, (H2 i).
  f_equal. apply mem_agree. apply colour_state_agree_Lpn; assumption.
Qed.

Local Notation G := (mk_genv p n k upd_pn).
Local Notation G' := (mk_genv p n k' upd_pn).
Local Notation U := (expand not_extra (mk_layout p n k) unit_pn).
Local Notation U' := (expand not_extra (mk_layout p n k') unit_pn).

Theorem sat_k_independent Gamma (A : nat -> Prop) t v w :
  (forall l v w, (forall j, v (TP j) = w (TP j)) -> (forall i, v (TS i) = w (TS i)) ->
     (Gamma l v <-> Gamma l w)) ->
  supported G t -> supported G' t -> copies_ok G A t -> vagree A v w ->
  (sat G names Gamma t v <-> sat G' names Gamma t w).
Proof.
  intros HGamma Hs Hs' Hc Hr.
  apply (sat_agree_graphs G G' names Gamma eq_refl) with (A := A); try assumption.
  - intros i v' w' _ H1 H2. apply enabled_mk_genv; assumption.
  - apply supported_vars_agree; assumption.
Qed.

Lemma NoDup_Lpn : NoDup (Lpn p n).
Proof.
  unfold Lpn. rewrite <- (filter_not_extra_layout p n 0). apply NoDup_filter. apply NoDup_mk_layout.
Qed.

(** the sanitised result of a closed formula, for any number [kk] of spare copies: a tree over
    [Lpn p n], the (colour, state) pairs of the unit that satisfy the formula *)
Lemma sanitized_spec kk sw t R :
  let Gk := mk_genv p n kk upd_pn in
  let Uk := expand not_extra (mk_layout p n kk) unit_pn in
  plainf t -> supported Gk t -> closed_copies Gk t ->
  peval Gk names sw (steady_of Gk Uk) t Uk = Ok R ->
  exists S, sanitize Gk R = Ok S /\ shaped (Lpn p n) S /\
    forall Gamma v, mem (Lpn p n) S v = true <->
      (mem (Lpn p n) unit_pn v = true /\ sat Gk names Gamma t v).
Proof.
  intros Gk Uk Hpl Hs Hcl H.
  pose proof (mk_genv_wf p n kk upd_pn unit_pn names upd_ok unit_ok unit_colour names_ok) as WF.
  destruct (sanitize_eq_raw Gk names Uk WF sw t R Hpl Hs Hcl H) as [S [E [Sh HM]]].
  cbn [Gk g_L mk_genv] in Sh, HM. rewrite filter_not_extra_layout in Sh, HM.
  exists S. split; [exact E|]. split; [exact Sh|]. intros Gamma v. rewrite HM.
  destruct (peval_correct Gk names Uk WF Gamma sw t R Hpl Hs H) as [_ Ev].
  cbn [Gk g_L mk_genv] in Ev. rewrite Ev. unfold Uk. rewrite mem_lifted by exact unit_ok. reflexivity.
Qed.

(** C15: both sanitised results exist, are the same tree over the layout [Lpn p n], and that
    tree is the set of (colour, state) pairs of the unit that satisfy the formula *)
Theorem k_independent sw sw' t R R' :
  plainf t -> supported G t -> supported G' t -> closed_copies G t ->
  peval G names sw (steady_of G U) t U = Ok R ->
  peval G' names sw' (steady_of G' U') t U' = Ok R' ->
  exists S, sanitize G R = Ok S /\ sanitize G' R' = Ok S /\ shaped (Lpn p n) S /\
    forall Gamma v, mem (Lpn p n) S v = true <->
      (mem (Lpn p n) unit_pn v = true /\ sat G names Gamma t v).
Proof.
  intros Hpl Hs Hs' Hcl H H'.
  assert (Hcl' : closed_copies G' t).
  { apply (copies_ok_transfer G G'); [|exact Hcl]. apply supported_vars_agree; assumption. }
  destruct (sanitized_spec k sw t R Hpl Hs Hcl H) as [S [E [Sh HR]]].
  destruct (sanitized_spec k' sw' t R' Hpl Hs' Hcl' H') as [S' [E' [Sh' HR']]].
  assert (ES : S' = S).
  { apply (tt_ext (Lpn p n)); [apply NoDup_Lpn | exact Sh' | exact Sh |].
    intro v. apply eq_true_iff_eq. rewrite (HR' (fun _ _ => True)), (HR (fun _ _ => True)).
    apply and_iff_compat_l. symmetry.
    apply (sat_k_independent (fun _ _ => True) (fun _ => False)); try assumption.
    - intros; tauto.
    - split; [reflexivity|]. split; [reflexivity|]. intros i e []. }
  subst S'. exists S. auto.
Qed.

End KIndep.
