(** The extended string entry point: what [validate_all] (extended syntax) returns satisfies
    the side conditions of the cache invariant of CacheExt.v, with the context predicates
    [Gamma_of] of the user's context map. *)
From HCTL Require Import Base Syntax Tokenizer Parser Preprocess Canon MarkDup TT Ops Eval Pipeline Kripke HCTL.
From HCTL Require Import TTFacts OpsFacts EvalPure Main Termination PrepFacts RoundTrip NoPanic LayoutFacts CacheFacts CacheGen LexFacts.
From HCTL Require Import ExtSem ExtFix ExtFacts ExtHybrid ExtEval ExtLink CacheExt.
From HCTL Require Import BaseFacts.

Fixpoint has_wild (l : str) (t : tree) : Prop :=
  match t with
  | Terminal (AWild p) => l = p
  | Terminal _ => False
  | Unary _ c => has_wild l c
  | Binary _ a b => has_wild l a \/ has_wild l b
  | Hybrid _ _ _ c => has_wild l c
  end.

Fixpoint has_dom (l : str) (t : tree) : Prop :=
  match t with
  | Terminal _ => False
  | Unary _ c => has_dom l c
  | Binary _ a b => has_dom l a \/ has_dom l b
  | Hybrid _ _ d c => d = Some l \/ has_dom l c
  end.

Lemma knownx_intro names wild doms t :
  props_known names t ->
  (forall l, has_wild l t -> alookup str_eqb l wild <> None) ->
  (forall l, has_dom l t -> alookup str_eqb l doms <> None) ->
  knownx names wild doms t.
Proof.
  induction t as [a | o c IH | o a IHa b IHb | o x d c IH]; cbn [props_known has_wild has_dom knownx];
    intros PK HW HD.
  - destruct a as [nm | y | | | p]; try exact I; [exact PK | apply HW; reflexivity].
  - apply IH; assumption.
  - destruct PK. split; [apply IHa | apply IHb]; auto.
  - split; [|apply IH; auto].
    destruct o; try exact I; destruct d as [dl|]; try exact I; apply HD; left; reflexivity.
Qed.

Lemma has_wild_rename l t : forall scope, has_wild l (rename scope t) <-> has_wild l t.
Proof.
  induction t as [a | o c IH | o a IHa b IHb | o x d c IH]; intro scope; cbn [rename has_wild].
  - destruct a; cbn [has_wild]; tauto.
  - apply IH.
  - rewrite IHa, IHb. tauto.
  - destruct (is_quantifier o); cbn [has_wild]; apply IH.
Qed.

Lemma has_dom_rename l t : forall scope, has_dom l (rename scope t) <-> has_dom l t.
Proof.
  induction t as [a | o c IH | o a IHa b IHb | o x d c IH]; intro scope; cbn [rename has_dom].
  - destruct a; cbn [has_dom]; tauto.
  - apply IH.
  - rewrite IHa, IHb. tauto.
  - destruct (is_quantifier o); cbn [has_dom]; rewrite IH; tauto.
Qed.

Lemma in_add_unique x y l : In y (add_unique x l) <-> y = x \/ In y l.
Proof.
  unfold add_unique. destruct (existsb (str_eqb x) l) eqn:E.
  - split; [intro H; right; exact H|]. intros [-> | H]; [|exact H].
    apply existsb_exists in E. destruct E as (z & IN & Q). apply str_eqb_eq in Q. subst z. exact IN.
  - rewrite in_app_iff. cbn [In]. split; [intros [H | [<- | []]]; auto | intros [-> | H]; auto].
Qed.

Lemma or_rotate (A B C : Prop) : B \/ (A \/ C) <-> (A \/ B) \/ C.
Proof. tauto. Qed.

Lemma or_False_l (A : Prop) : A <-> False \/ A.
Proof. tauto. Qed.

(** the labels [collect_wild] adds to its accumulators are those of the formula *)
Lemma collect_wild_iff t : forall acc l,
  (In l (fst (collect_wild t acc)) <-> has_wild l t \/ In l (fst acc))
  /\ (In l (snd (collect_wild t acc)) <-> has_dom l t \/ In l (snd acc)).
Proof.
  induction t as [a | o c IH | o a IHa b IHb | o x d c IH]; intros acc l; cbn [collect_wild has_wild has_dom].
  - destruct a as [nm | y | | | p]; cbn [fst snd]; rewrite ?in_add_unique;
      (split; [first [reflexivity | apply or_False_l] | apply or_False_l]).
  - apply IH.
  - destruct (IHa acc l) as [A1 A2]. destruct (IHb (collect_wild a acc) l) as [B1 B2].
    rewrite B1, B2, A1, A2. split; apply or_rotate.
  - destruct (IH (match d with Some l => (fst acc, add_unique l (snd acc)) | None => acc end) l) as [A1 A2].
    rewrite A1, A2. destruct d as [dl|]; cbn [fst snd]; rewrite ?in_add_unique; (split; [reflexivity|]).
    + split; [intros [H | [-> | H]]; auto | intros [[H | H] | H]; auto]. injection H as ->. auto.
    + split; [intros [H | H]; auto | intros [[H | H] | H]; auto; discriminate H].
Qed.

Lemma pick_context_spec ctx : forall labels r, pick_context labels ctx = Ok r ->
  (forall l, In l labels -> exists s, In (l, s) r)
  /\ (forall l s, In (l, s) r -> alookup str_eqb l ctx = Some s).
Proof.
  induction labels as [|l labels IH]; intros r H; cbn [pick_context] in H.
  - injection H as <-. split; [intros l [] | intros l s []].
  - destruct (alookup str_eqb l ctx) as [s|] eqn:E; [|discriminate].
    destruct (pick_context labels ctx) as [r'| | |]; cbn [bind] in H; try discriminate. injection H as <-.
    destruct (IH r' eq_refl) as [A B]. split.
    + intros l' [<- | IN]; [exists s; left; reflexivity|]. destruct (A l' IN) as [s' H']. exists s'. right. exact H'.
    + intros l' s' [X | IN]; [injection X as <- <-; exact E | apply B, IN].
Qed.

Lemma dedup_in (l : list (str * tt)) x : In x (dedup_labels l) -> In x l.
Proof.
  induction l as [|y l IH]; cbn [dedup_labels fold_right]; [intros []|].
  fold (dedup_labels l). destruct (amem str_eqb (fst y) (dedup_labels l)).
  - intro H. right. apply IH, H.
  - intros [<- | H]; [left; reflexivity | right; apply IH, H].
Qed.

Lemma dedup_has (L0 : list (str * tt)) l s : In (l, s) L0 -> exists s', In (l, s') (dedup_labels L0).
Proof.
  induction L0 as [|y L0 IH]; cbn [dedup_labels fold_right]; [intros []|].
  fold (dedup_labels L0). intros [-> | IN].
  - cbn [fst]. unfold amem. destruct (alookup str_eqb l (dedup_labels L0)) as [s'|] eqn:E.
    + exists s'. apply (alookup_in str_eqb str_eqb_eq), E.
    + exists s. left. reflexivity.
  - destruct (IH IN) as [s' H]. exists s'. destruct (amem str_eqb (fst y) (dedup_labels L0)); [exact H | right; exact H].
Qed.

Lemma fold_ainsert_has : forall (ds : list (str * tt)) acc l,
  (exists s, In (l, s) ds) \/ alookup str_eqb l acc <> None ->
  alookup str_eqb l (fold_left (fun acc pd => ainsert str_eqb (fst pd) (snd pd) acc) ds acc) <> None.
Proof.
  induction ds as [|[d x] ds IH]; intros acc l H; cbn [fold_left].
  - destruct H as [[s []] | H]. exact H.
  - apply IH. cbn [fst snd]. destruct H as [[s [E | IN]] | H].
    + injection E as -> ->. right. rewrite (alookup_ainsert_same str_eqb str_eqb_eq). discriminate.
    + left. exists s. exact IN.
    + right. destruct (str_eqb l d) eqn:Q.
      * apply str_eqb_eq in Q. subst d. rewrite (alookup_ainsert_same str_eqb str_eqb_eq). discriminate.
      * rewrite (alookup_ainsert_other str_eqb str_eqb_eq); [exact H|].
        intro X. subst d. rewrite str_eqb_refl in Q. discriminate.
Qed.

Lemma alookup_map_snd (f : tt -> tt) (ctx : list (str * tt)) l :
  alookup str_eqb l (map (fun ps => (fst ps, f (snd ps))) ctx) = option_map f (alookup str_eqb l ctx).
Proof.
  induction ctx as [|[l' s'] ctx IH]; cbn [alookup map fst snd]; [reflexivity|].
  destruct (str_eqb l l'); [reflexivity | exact IH].
Qed.

Section ValidateX.
Variable ea : N -> bool.
Variable props : list str.
Variable k : nat.
Variable ctx : list (str * tt).

(** what [validate_all] guarantees of a tree it returns in the extended syntax: it is the
    preprocessed parse of some string, needs at most [k] copies, and every label it mentions
    was picked from the context map into [cp] (wild-cards) or [cd] (domains) *)
Definition validx (cp cd : list (str * tt)) (t : tree) : Prop :=
  (exists f t0, parse_formula ea true f = Ok t0 /\ preprocess props t0 = Ok t)
  /\ num_hctl_vars t <= k
  /\ (forall l, has_wild l t -> exists s, In (l, s) cp)
  /\ (forall l, has_dom l t -> exists s, In (l, s) cd).

Lemma validx_mono cp cd cp' cd' t :
  (forall x, In x cp -> In x cp') -> (forall x, In x cd -> In x cd') ->
  validx cp cd t -> validx cp' cd' t.
Proof.
  intros H1 H2 (A & B & C & D). split; [exact A|]. split; [exact B|]. split.
  - intros l H. destruct (C l H) as [s IN]. exists s. apply H1, IN.
  - intros l H. destruct (D l H) as [s IN]. exists s. apply H2, IN.
Qed.

Theorem validate_all_ext_spec : forall fs ts cp cd,
  validate_all ea true props k ctx fs = Ok (ts, cp, cd) ->
  List.Forall (validx cp cd) ts
  /\ (forall l s, In (l, s) cp -> alookup str_eqb l ctx = Some s)
  /\ (forall l s, In (l, s) cd -> alookup str_eqb l ctx = Some s).
Proof.
  induction fs as [|f fs IH]; intros ts cp cd H; cbn [validate_all] in H.
  - injection H as <- <- <-. split; [constructor|]. split; intros l s [].
  - unfold parse_and_minimize in H.
    destruct (parse_formula ea true f) as [t0| | |] eqn:PF; cbn [bind] in H; try discriminate.
    destruct (preprocess props t0) as [t| | |] eqn:PP; cbn [bind] in H; try discriminate.
    destruct (Nat.ltb k (num_hctl_vars t)) eqn:LT; [discriminate|]. apply Nat.ltb_ge in LT.
    unfold divide_wild_cards in H.
    destruct (collect_wild t ([], [])) as [ps ds] eqn:CW.
    destruct (pick_context ps ctx) as [cp1| | |] eqn:P1; cbn [bind] in H; try discriminate.
    destruct (pick_context ds ctx) as [cd1| | |] eqn:P2; cbn [bind] in H; try discriminate.
    destruct (validate_all ea true props k ctx fs) as [[[ts' cp'] cd']| | |] eqn:V; cbn [bind] in H; try discriminate.
    injection H as <- <- <-. cbn [fst snd].
    destruct (IH ts' cp' cd' eq_refl) as (F & C1 & C2).
    destruct (pick_context_spec ctx ps cp1 P1) as [A1 B1].
    destruct (pick_context_spec ctx ds cd1 P2) as [A2 B2].
    pose proof (collect_wild_iff t ([], [])) as W. rewrite CW in W. cbn [fst snd] in W.
    split; [|split].
    + constructor.
      * split; [exists f, t0; split; assumption|]. split; [exact LT|]. split.
        -- intros l Hl. destruct (A1 l (proj2 (proj1 (W l)) (or_introl Hl))) as [s IN]. exists s. apply in_or_app. left. exact IN.
        -- intros l Hl. destruct (A2 l (proj2 (proj2 (W l)) (or_introl Hl))) as [s IN]. exists s. apply in_or_app. left. exact IN.
      * eapply Forall_impl; [|exact F]. intros t1. apply validx_mono; intros x IN; apply in_or_app; right; exact IN.
    + intros l s IN. apply in_app_or in IN. destruct IN as [IN | IN]; [apply B1, IN | apply C1, IN].
    + intros l s IN. apply in_app_or in IN. destruct IN as [IN | IN]; [apply B2, IN | apply C2, IN].
Qed.

End ValidateX.

Section EntryX.
Variable ea : N -> bool.
Variable w : world.
Variable k : nat.

(** the user's context map: sets over colours and states *)
Variable ctx : list (str * tt).
Hypothesis ctx_shaped : forall l s, alookup str_eqb l ctx = Some s -> shaped (Lpn (w_p w) (w_n w)) s.

Local Notation G := (genv_of w k).
Local Notation U := (unit_of w k).

(** the same map, lifted to the layout with spare copies *)
Definition ctx_lifted : list (str * tt) := map (fun ps => (fst ps, lift w k (snd ps))) ctx.

Lemma ctx_lifted_ok : ctx_sets_ok G ctx_lifted.
Proof.
  intros l s E. unfold ctx_lifted in E. rewrite alookup_map_snd in E.
  destruct (alookup str_eqb l ctx) as [s'|] eqn:E'; [injection E as <- | discriminate E].
  exact (lifted_ok (w_p w) (w_n w) k s' (ctx_shaped l s' E')).
Qed.

Variable cp cd : list (str * tt).
Hypothesis cp_ctx : forall l s, In (l, s) cp -> alookup str_eqb l ctx = Some s.
Hypothesis cd_ctx : forall l s, In (l, s) cd -> alookup str_eqb l ctx = Some s.

Lemma lifted_in (L0 : list (str * tt)) l s :
  (forall l0 s0, In (l0, s0) L0 -> alookup str_eqb l0 ctx = Some s0) ->
  In (l, s) (map (fun ps => (fst ps, lift w k (snd ps))) (dedup_labels L0)) ->
  alookup str_eqb l ctx_lifted = Some s.
Proof.
  intros HC IN. apply in_map_iff in IN. destruct IN as ([l' s'] & E & IN). cbn [fst snd] in E.
  injection E as <- <-. apply dedup_in in IN. unfold ctx_lifted. rewrite alookup_map_snd, (HC _ _ IN). reflexivity.
Qed.

Lemma wild_picked : picked_from_ctx ctx_lifted (wild_of w k cp).
Proof.
  intros l s E. apply (alookup_in str_eqb str_eqb_eq) in E. unfold wild_of in E. apply in_rev in E.
  exact (lifted_in cp l s cp_ctx E).
Qed.

Lemma doms_picked : picked_from_ctx ctx_lifted (doms_of w k cp cd).
Proof.
  intros l s E. unfold doms_of, extend_context in E. cbn [domain_sets set_domsets] in E.
  apply fold_ainsert_in in E. destruct E as [IN | E].
  - exact (lifted_in cd l s cd_ctx IN).
  - rewrite extend_props_domsets in E. discriminate E.
Qed.

Lemma validx_topx t : validx ea (w_names w) k cp cd t ->
  topx ea G (w_names w) (wild_of w k cp) (doms_of w k cp cd) t.
Proof.
  intros ((f & t0 & PF & PP) & LE & HW & HD).
  destruct (preprocess_bridge (w_names w) t0 t PP) as (_ & PK & DN & _ & SUP).
  pose proof (proj1 (preprocess_ok_iff _ _ _) PP) as [_ ER].
  split; [|split; [exact DN | exact (preprocessed_scoped G (w_names w) t0 t PP LE)]].
  split; [|split; [|apply SUP; exact LE]].
  - rewrite ER. apply rename_well_named. eapply parsed_well_named. exact PF.
  - apply knownx_intro; [exact PK | |].
    + intros l Hl. destruct (HW l Hl) as [s IN]. destruct (dedup_has cp l s IN) as [s' IN'].
      intro H. apply (proj1 (alookup_None str_eqb str_eqb_eq _ _) H), (in_map fst _ (l, lift w k s')). unfold wild_of. apply in_rev. rewrite rev_involutive.
      unfold wprops_of. apply in_map_iff. exists (l, s'). split; [reflexivity | exact IN'].
    + intros l Hl. destruct (HD l Hl) as [s IN]. destruct (dedup_has cd l s IN) as [s' IN'].
      unfold doms_of, extend_context. cbn [domain_sets set_domsets]. apply fold_ainsert_has. left.
      exists (lift w k s'). unfold dprops_of. apply in_map_iff. exists (l, s'). split; [reflexivity | exact IN'].
Qed.

End EntryX.

(** what [validate_all] returns meets the side conditions of [check_trees_mapX], with the
    labels meaning membership in the user's sets *)
Lemma ext_entry_hyps ea (w : world) k ctx fs ts cp cd :
  (forall l s, alookup str_eqb l ctx = Some s -> shaped (Lpn (w_p w) (w_n w)) s) ->
  validate_all ea true (w_names w) k ctx fs = Ok (ts, cp, cd) ->
  let Gamma := Gamma_of (genv_of w k) (ctx_lifted w k ctx) in
  ctx_ignores_copies Gamma
  /\ wild_sets_ok (genv_of w k) Gamma (wild_of w k cp)
  /\ dom_sets_ok (genv_of w k) Gamma (doms_of w k cp cd)
  /\ List.Forall (topx ea (genv_of w k) (w_names w) (wild_of w k cp) (doms_of w k cp cd)) ts.
Proof.
  intros HC V. destruct (validate_all_ext_spec ea (w_names w) k ctx fs ts cp cd V) as (F & C1 & C2).
  pose proof (ctx_lifted_ok w k ctx HC) as CO.
  split; [apply Gamma_of_ignores_copies, CO|].
  split; [apply (picked_wild_ok _ _ CO), (wild_picked w k ctx cp C1)|].
  split; [apply (picked_doms_ok _ _ CO), (doms_picked w k ctx cp cd C2)|].
  eapply Forall_impl; [|exact F]. intros t. apply validx_topx.
Qed.

(** the extended string entry point: duplicate marking does not change the outcome *)
Theorem model_check_cache_mode_irrelevantX ea (w : world) k m m' ctx fs :
  List.Forall (shaped (Lpn (w_p w) (w_n w))) (w_upd w) ->
  shaped (Lpn (w_p w) (w_n w)) (w_unit w) ->
  (forall v v', (forall j, v (TP j) = v' (TP j)) ->
     mem (Lpn (w_p w) (w_n w)) (w_unit w) v = mem (Lpn (w_p w) (w_n w)) (w_unit w) v') ->
  length (w_names w) <= w_n w ->
  (forall l s, alookup str_eqb l ctx = Some s -> shaped (Lpn (w_p w) (w_n w)) s) ->
  m_ext m = true -> m_unsafe_ex m = false -> m_ext m' = true -> m_unsafe_ex m' = false ->
  m_sanitize m = m_sanitize m' -> m_nopatterns m = m_nopatterns m' ->
  model_check ea w k m ctx fs = model_check ea w k m' ctx fs.
Proof.
  intros H1 H2 H3 H4 HC He Hu He' Hu' Hs Hp. unfold model_check. rewrite He, He'.
  destruct (validate_all ea true (w_names w) k ctx fs) as [[[ts cp] cd]| | |] eqn:V; try reflexivity.
  cbn [bind fst snd].
  destruct (ext_entry_hyps ea w k ctx fs ts cp cd HC V) as (Gx & WO & DO & F).
  exact (cache_mode_irrelevantX ea w k H1 H2 H3 H4 cp cd _ Gx WO DO m m' ts He Hu He' Hu' Hs Hp F).
Qed.
