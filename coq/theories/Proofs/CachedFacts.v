(** The cache-free theorems C01, C02, C03, C10, C12, C14, C15, C18, C20 lifted to the
    configuration the real entry points use: duplicate sub-formulae marked by
    [mark_duplicates], sub-formula cache on ([m_nocache = false]).

    Everything goes through the cache-transparency theorems of C04b / C04c:
      plain modes     [check_trees_mapS]  check_trees w k m ts [] [] = mapM (singleS w k m) ts
      extended mode   [check_trees_mapX]  check_trees w k m ts cp cd = mapM (singleX w k cp cd m) ts
    which hold for BOTH values of [m_nocache]; [singleS] / [singleX] are the cache-free
    evaluators [peval] / [peval_ext] followed by the sanitiser, to which the cache-free
    theorems apply formula by formula.  No lemma here has a hypothesis on [m_nocache] (C18
    wants it equal on both sides); Properties/Cached.v states them for [m_nocache = false].

    What is not a transfer is [peval_ext_reads] and what leads to it: the raw result of a CLOSED formula -- plain or
    extended, any self-loop set that ignores the copies -- ignores all spare copies
    everywhere, not only inside the unit, and can therefore be sanitised.  This gives C14 for
    the sanitised unsafe_ex entry point and for the extended entry points, and C15
    (sanitised = raw) for extended formulae. *)
From HCTL Require Import Base Syntax Tokenizer Parser Preprocess Canon MarkDup TT Ops Eval Pipeline Kripke HCTL.
From HCTL Require Import TTFacts OpsFacts SemFacts EvalPure Main Termination PrepFacts RoundTrip CanonFacts CanonAlpha MarkDupFacts LayoutFacts NoPanic RenameFacts CacheFacts CopyRel CacheGen LexFacts.
From HCTL Require Import ExtSem ExtFacts ExtEval ExtLink CacheExt CacheExtEntry.
From HCTL Require Import Unsafe ColourFacts IndepFacts ClosedIndep SubstFacts.
From HCTL Require Import BaseFacts.

Lemma Forall2_weaken {A B} (P : A -> Prop) (Q R : A -> B -> Prop) l rs :
  List.Forall P l -> List.Forall2 Q l rs -> (forall x r, P x -> Q x r -> R x r) ->
  List.Forall2 R l rs.
Proof.
  intros F H K. induction H as [|x r l rs HQ _ IH]; [constructor|].
  inversion F; subst. constructor; [apply K; assumption | apply IH; assumption].
Qed.

Lemma Forall2_join {A B C} (P : A -> Prop) (Q : A -> B -> Prop) (Q' : A -> C -> Prop)
      (R : B -> C -> Prop) l rs rs' :
  List.Forall P l -> List.Forall2 Q l rs -> List.Forall2 Q' l rs' ->
  (forall x r r', P x -> Q x r -> Q' x r' -> R r r') -> List.Forall2 R rs rs'.
Proof.
  intros F H. revert rs'. induction H as [|x r l rs HQ _ IH]; intros rs' H' K; inversion H'; subst;
    [constructor|].
  inversion F; subst. constructor; [eapply K; eassumption | apply IH; assumption].
Qed.

Lemma Forall2_total {A B} (P : A -> Prop) (Q : A -> B -> Prop) l :
  List.Forall P l -> (forall x, P x -> exists r, Q x r) -> exists rs, List.Forall2 Q l rs.
Proof.
  intros F K. induction F as [|x l HP _ [rs IH]]; [exists []; constructor|].
  destruct (K x HP) as [r HQ]. exists (r :: rs). constructor; assumption.
Qed.

Lemma mapM_total {A B} (f : A -> res B) (P : A -> Prop) (Q : A -> B -> Prop) l :
  List.Forall P l -> (forall x, P x -> exists r, f x = Ok r /\ Q x r) ->
  exists rs, mapM f l = Ok rs /\ List.Forall2 Q l rs.
Proof.
  intros F K. induction F as [|x l HP _ (rs & IH & F2)]; cbn [mapM]; [exists []; split; constructor|].
  destruct (K x HP) as (r & -> & HQ). rewrite IH. exists (r :: rs). split; [reflexivity | constructor; assumption].
Qed.

(** * What [validate_all] returns, position by position *)

Lemma validate_all_parsed ea ext props k ctx : forall fs ts cp cd,
  validate_all ea ext props k ctx fs = Ok (ts, cp, cd) ->
  List.Forall2 (fun f t => parse_and_minimize ea ext props f = Ok t) fs ts.
Proof.
  induction fs as [|f fs IH]; intros ts cp cd H; cbn [validate_all] in H.
  - injection H as <- _ _. constructor.
  - destruct (parse_and_minimize ea ext props f) as [t| | |] eqn:PM; cbn [bind] in H; try discriminate.
    destruct (Nat.ltb k (num_hctl_vars t)); [discriminate|].
    destruct (if ext then divide_wild_cards t ctx else Ok ([], [])) as [[cp1 cd1]| | |];
      cbn [bind] in H; try discriminate.
    destruct (validate_all ea ext props k ctx fs) as [[[ts' cp'] cd']| | |] eqn:V; cbn [bind] in H;
      try discriminate.
    injection H as <- _ _. cbn [fst]. constructor; [exact PM | eapply IH; reflexivity].
Qed.

Lemma parse_and_minimize_rename ea ext props f t :
  parse_and_minimize ea ext props f = Ok t ->
  exists t0, parse_formula ea ext f = Ok t0 /\ well_scoped props [] t0 /\ t = rename [] t0.
Proof.
  unfold parse_and_minimize. destruct (parse_formula ea ext f) as [t0| | |]; cbn [bind]; try discriminate.
  intro H. apply preprocess_ok_iff in H. destruct H as [WS ->]. exists t0. auto.
Qed.

(** the trees of the plain entry points: good (C04b) and closed *)
Definition vplain (ea : N -> bool) (w : world) (k : nat) (t : tree) : Prop :=
  good ea false (genv_of w k) (w_names w) t /\ depth_named 0 t.

Lemma validate_all_vplain ea (w : world) k ctx fs r :
  validate_all ea false (w_names w) k ctx fs = Ok r ->
  exists ts, r = (ts, [], []) /\ List.Forall (vplain ea w k) ts
             /\ List.Forall2 (fun f t => parse_and_minimize ea false (w_names w) f = Ok t) fs ts.
Proof.
  intro H. pose proof H as H0. apply validate_all_ok_iff in H. destruct H as (ts & -> & F).
  exists ts. split; [reflexivity|]. split; [|exact (validate_all_parsed _ _ _ _ _ _ _ _ _ H0)].
  clear H0. induction F as [|f t' fs ts P _ IH]; constructor; [|exact IH].
  split; [apply (prepared_good ea (genv_of w k) (w_names w) f t'); exact P|].
  apply (prepared_evaluable ea (genv_of w k) (w_names w) f t' P).
Qed.

(** the mode with the duplicate marking switched on / off *)
Definition set_nocache (b : bool) (m : mode) : mode :=
  {| m_ext := m_ext m; m_sanitize := m_sanitize m; m_unsafe_ex := m_unsafe_ex m;
     m_nocache := b; m_nopatterns := m_nopatterns m |}.

(** * Plain modes *)

(** the upstream theorems, from the bundled world hypotheses *)
Lemma world_ok_wf (w : world) k : world_ok w -> wf_env (genv_of w k) (w_names w) (unit_of w k).
Proof. intros (A & B & C & D). exact (world_wf w k A B C D). Qed.

Lemma check_trees_mapS_ok ea ext (w : world) k : world_ok w -> forall m ts,
  m_ext m = false -> List.Forall (good ea ext (genv_of w k) (w_names w)) ts ->
  check_trees w k m ts [] [] = mapM (singleS w k m) ts.
Proof. intros (A & B & C & D). exact (check_trees_mapS ea ext w k A B C D). Qed.

Lemma check_trees_mapX_ok ea (w : world) k : world_ok w ->
  forall cprops cdoms (Gamma : str -> val -> Prop),
  ctx_ignores_copies Gamma ->
  wild_sets_ok (genv_of w k) Gamma (wild_of w k cprops) ->
  dom_sets_ok (genv_of w k) Gamma (doms_of w k cprops cdoms) ->
  forall m ts, m_ext m = true -> m_unsafe_ex m = false ->
  List.Forall (topx ea (genv_of w k) (w_names w) (wild_of w k cprops) (doms_of w k cprops cdoms)) ts ->
  check_trees w k m ts cprops cdoms = mapM (singleX w k cprops cdoms m) ts.
Proof. intros (A & B & C & D). exact (check_trees_mapX ea w k A B C D). Qed.

Section PlainWorld.
Variable ea : N -> bool.
Variable ext : bool.
Variable w : world.
Variable k : nat.
Hypothesis WOK : world_ok w.

Local Notation G := (genv_of w k).
Local Notation U := (unit_of w k).
Local Notation names := (w_names w).
Local Notation good := (good ea ext G names).
Local Notation swm m := {| use_patterns := negb (m_nopatterns m) |}.

Let WF : wf_env G names U := world_ok_wf w k WOK.

(** the bridge: with or without duplicate marking, position by position *)
Lemma ct_plain_single m ts rs :
  m_ext m = false -> List.Forall good ts -> check_trees w k m ts [] [] = Ok rs ->
  List.Forall2 (fun t R => singleS w k m t = Ok R) ts rs.
Proof.
  intros He F H. rewrite (check_trees_mapS_ok ea ext w k WOK m ts He F) in H.
  apply mapM_Forall2, H.
Qed.

Lemma ct_plain_single_rev m ts rs :
  m_ext m = false -> List.Forall good ts ->
  List.Forall2 (fun t R => singleS w k m t = Ok R) ts rs -> check_trees w k m ts [] [] = Ok rs.
Proof.
  intros He F H. rewrite (check_trees_mapS_ok ea ext w k WOK m ts He F).
  apply mapM_Forall2, H.
Qed.

Lemma singleS_dirty m t R :
  m_sanitize m = false ->
  (singleS w k m t = Ok R <-> peval G names (swm m) (steady_of_mode w k m) t U = Ok R).
Proof.
  intro Hs. unfold singleS. rewrite Hs.
  destruct (peval G names (swm m) (steady_of_mode w k m) t U); cbn [bind]; split; congruence.
Qed.

Lemma singleS_sanitized m t S :
  m_sanitize m = true ->
  (singleS w k m t = Ok S <->
   exists R, peval G names (swm m) (steady_of_mode w k m) t U = Ok R /\ sanitize G R = Ok S).
Proof.
  intro Hs. unfold singleS. rewrite Hs.
  split; [intro H; apply bind_ok_inv, H | intros (R & -> & H); exact H].
Qed.

Lemma steady_std m : m_unsafe_ex m = false -> steady_of_mode w k m = steady_of G U.
Proof. intro Hu. unfold steady_of_mode. rewrite Hu. reflexivity. Qed.

Lemma ct_plain_peval m ts rs :
  m_ext m = false -> m_sanitize m = false -> m_unsafe_ex m = false ->
  List.Forall good ts -> check_trees w k m ts [] [] = Ok rs ->
  List.Forall2 (fun t R => peval G names (swm m) (steady_of G U) t U = Ok R) ts rs.
Proof.
  intros He Hs Hu F H. eapply Forall2_weaken; [exact F | exact (ct_plain_single m ts rs He F H)|].
  intros t R _ E. apply (singleS_dirty m t R Hs) in E. rewrite (steady_std m Hu) in E. exact E.
Qed.

(** the cache-free evaluator on good trees: total, and independent of the switches *)
Lemma good_peval_total sw t : good t ->
  exists R, peval G names sw (steady_of G U) t U = Ok R /\ shaped (g_L G) R.
Proof.
  intros (PL & SUP & PK & _).
  exact (peval_total G names sw (steady_of G U) U (wf_nodup _ _ _ WF) (wf_upd_shaped _ _ _ WF)
           (wf_U_shaped _ _ _ WF) (wf_steady_shaped G names U WF) t PL SUP PK).
Qed.

Lemma peval_sw_irrelevant sw sw' t : good t ->
  peval G names sw (steady_of G U) t U = peval G names sw' (steady_of G U) t U.
Proof.
  intro GT. destruct (good_peval_total sw t GT) as (R & E & _).
  destruct (good_peval_total sw' t GT) as (R' & E' & _). rewrite E, E'. f_equal.
  destruct GT as (PL & SUP & _).
  destruct (peval_correct G names U WF (fun _ _ => True) sw t R PL SUP E) as [S1 E1].
  destruct (peval_correct G names U WF (fun _ _ => True) sw' t R' PL SUP E') as [S2 E2].
  apply (tt_ext (g_L G)); try assumption; [apply (wf_nodup _ _ _ WF)|].
  intro v. apply eq_true_iff_eq. rewrite (E1 v), (E2 v). reflexivity.
Qed.

Theorem cached_C01_check_trees (Gamma : str -> val -> Prop) m ts rs :
  m_ext m = false -> m_sanitize m = false -> m_unsafe_ex m = false ->
  List.Forall good ts -> check_trees w k m ts [] [] = Ok rs ->
  List.Forall2 (fun t R => forall v,
     mem (g_L G) R v = true <-> (mem (g_L G) U v = true /\ sat G names Gamma t v)) ts rs.
Proof.
  intros He Hs Hu F H. eapply Forall2_weaken; [exact F | exact (ct_plain_peval m ts rs He Hs Hu F H)|].
  intros t R (PL & SUP & _) E. exact (proj2 (peval_correct G names U WF Gamma _ t R PL SUP E)).
Qed.

Theorem cached_C03_within_unit m ts rs :
  m_ext m = false -> m_sanitize m = false -> m_unsafe_ex m = false ->
  List.Forall good ts -> check_trees w k m ts [] [] = Ok rs ->
  List.Forall (fun R => forall v, mem (g_L G) R v = true -> mem (g_L G) U v = true) rs.
Proof.
  intros He Hs Hu F H.
  apply (Forall2_Forall_r _ _ _ ts rs F (cached_C01_check_trees (fun _ _ => True) m ts rs He Hs Hu F H)).
  intros t R _ E v Hv. apply E in Hv. tauto.
Qed.

Theorem cached_C03_closed_ignores_copies m ts rs :
  m_ext m = false -> m_sanitize m = false -> m_unsafe_ex m = false ->
  List.Forall good ts -> List.Forall (depth_named 0) ts -> check_trees w k m ts [] [] = Ok rs ->
  List.Forall (fun R => forall v v', (forall j, v (TP j) = v' (TP j)) -> (forall i, v (TS i) = v' (TS i)) ->
                 mem (g_L G) R v = mem (g_L G) R v') rs.
Proof.
  intros He Hs Hu F D H.
  apply (Forall2_Forall_r _ _ _ ts rs (Forall_and F D) (ct_plain_peval m ts rs He Hs Hu F H)).
  intros t R [(PL & SUP & _) DN] E.
  exact (closed_ignores_copies G names U WF _ t R PL SUP (depth_named_closed G t DN) E).
Qed.

Lemma singleS_patterns m m' t :
  m_unsafe_ex m = false -> m_unsafe_ex m' = false -> m_sanitize m = m_sanitize m' ->
  good t -> singleS w k m t = singleS w k m' t.
Proof.
  intros Hu Hu' Hs GT. unfold singleS. rewrite (steady_std m Hu), (steady_std m' Hu'), Hs.
  rewrite (peval_sw_irrelevant (swm m) (swm m') t GT). reflexivity.
Qed.

Lemma mapM_ext_in {A B} (f g : A -> res B) l :
  (forall x, In x l -> f x = g x) -> mapM f l = mapM g l.
Proof.
  induction l as [|x l IH]; intro H; cbn [mapM]; [reflexivity|].
  rewrite (H x (or_introl eq_refl)), IH; [reflexivity|]. intros y IN. apply H. right. exact IN.
Qed.

(** the pattern switch AND the cache switch are both irrelevant *)
Theorem cached_C12_check_trees m m' ts :
  m_ext m = false -> m_ext m' = false -> m_unsafe_ex m = false -> m_unsafe_ex m' = false ->
  m_sanitize m = m_sanitize m' ->
  List.Forall good ts ->
  check_trees w k m ts [] [] = check_trees w k m' ts [] [].
Proof.
  intros He He' Hu Hu' Hs F.
  rewrite (check_trees_mapS_ok ea ext w k WOK m ts He F).
  rewrite (check_trees_mapS_ok ea ext w k WOK m' ts He' F).
  apply mapM_ext_in. intros t IN. apply singleS_patterns; try assumption.
  rewrite Forall_forall in F. apply F, IN.
Qed.

(** ** C15: sanitised = raw *)

Theorem cached_C15_sanitize_eq_raw m m' ts rs :
  m_ext m = false -> m_ext m' = false -> m_unsafe_ex m = false -> m_unsafe_ex m' = false ->
  m_sanitize m = false -> m_sanitize m' = true ->
  List.Forall good ts -> List.Forall (depth_named 0) ts ->
  check_trees w k m ts [] [] = Ok rs ->
  exists ss, check_trees w k m' ts [] [] = Ok ss
    /\ List.Forall2 (fun R S => shaped (filter not_extra (g_L G)) S /\
                       forall v, mem (filter not_extra (g_L G)) S v = mem (g_L G) R v) rs ss.
Proof.
  intros He He' Hu Hu' Hs Hs' F D H.
  pose proof (ct_plain_peval m ts rs He Hs Hu F H) as F2.
  assert (exists ss, List.Forall2 (fun t S => singleS w k m' t = Ok S) ts ss
            /\ List.Forall2 (fun R S => shaped (filter not_extra (g_L G)) S /\
                       forall v, mem (filter not_extra (g_L G)) S v = mem (g_L G) R v) rs ss) as (ss & A & B).
  { clear H. revert F D. induction F2 as [|t R ts rs E _ IH]; intros F D.
    - exists []. split; constructor.
    - inversion F as [|? ? GT F']; subst. inversion D as [|? ? DN D']; subst.
      destruct (IH F' D') as (ss & A & B).
      rewrite (peval_sw_irrelevant _ (swm m') t GT) in E.
      destruct GT as (PL & SUP & _).
      destruct (sanitize_eq_raw G names U WF (swm m') t R PL SUP (depth_named_closed G t DN) E)
        as (S & ES & SH & HM).
      exists (S :: ss). split; constructor; try assumption; [|split; assumption].
      apply (singleS_sanitized m' t S Hs'). exists R. rewrite (steady_std m' Hu'). auto. }
  exists ss. split; [apply (ct_plain_single_rev m' ts ss He' F A) | exact B].
Qed.

End PlainWorld.

(** ** C10: the extended entry point with empty contexts, on plain trees *)

Theorem cached_C10_check_trees_ext_empty ea ext (w : world) k :
  world_ok w ->
  forall (Gamma : str -> val -> Prop) m ts rs,
  m_ext m = true -> m_sanitize m = false -> m_unsafe_ex m = false ->
  List.Forall (good ea ext (genv_of w k) (w_names w)) ts ->
  check_trees w k m ts [] [] = Ok rs ->
  List.Forall2 (fun t R => forall v,
     mem (g_L (genv_of w k)) R v = true <->
     (mem (g_L (genv_of w k)) (unit_of w k) v = true /\ sat (genv_of w k) (w_names w) Gamma t v)) ts rs.
Proof.
  intros WOK Gamma m ts rs He Hs Hu F H.
  set (m' := {| m_ext := false; m_sanitize := m_sanitize m; m_unsafe_ex := m_unsafe_ex m;
                m_nocache := m_nocache m; m_nopatterns := m_nopatterns m |}).
  rewrite (check_trees_empty_context w k m m' ts eq_refl eq_refl eq_refl eq_refl) in H.
  exact (cached_C01_check_trees ea ext w k WOK Gamma m' ts rs eq_refl Hs Hu F H).
Qed.

(** ** C15: the sanitised results do not depend on the number of spare copies *)

Section KIndepWorld.
Variable ea : N -> bool.
Variable ext : bool.
Variable w : world.
Variables k k' : nat.
Hypothesis WOK : world_ok w.

Local Notation names := (w_names w).
Local Notation swm m := {| use_patterns := negb (m_nopatterns m) |}.

Lemma singleS_k_independent m m' t S :
  m_unsafe_ex m = false -> m_unsafe_ex m' = false -> m_sanitize m = true -> m_sanitize m' = true ->
  good ea ext (genv_of w k) names t -> good ea ext (genv_of w k') names t -> depth_named 0 t ->
  singleS w k m t = Ok S ->
  singleS w k' m' t = Ok S
  /\ (shaped (Lpn (w_p w) (w_n w)) S /\
      forall (Gamma : str -> val -> Prop) v, mem (Lpn (w_p w) (w_n w)) S v = true <->
        (mem (Lpn (w_p w) (w_n w)) (w_unit w) v = true /\ sat (genv_of w k) names Gamma t v)).
Proof.
  intros Hu Hu' Hs Hs' GT GT' DN E.
  apply (singleS_sanitized w k m t S Hs) in E. destruct E as (R & E & ES).
  rewrite (steady_std w k m Hu) in E.
  destruct (good_peval_total ea ext w k' WOK (swm m') t GT') as (R' & E' & _).
  destruct GT as (PL & SUP & _). destruct GT' as (_ & SUP' & _). destruct WOK as (W1 & W2 & W3 & W4).
  destruct (k_independent (w_p w) (w_n w) k k' (w_upd w) (w_unit w) names W1 W2 W3 W4
              (swm m) (swm m') t R R' PL SUP SUP' (depth_named_closed _ t DN) E E')
    as (S0 & A & B & C & D0).
  change (mk_genv (w_p w) (w_n w) k (w_upd w)) with (genv_of w k) in A, D0.
  change (mk_genv (w_p w) (w_n w) k' (w_upd w)) with (genv_of w k') in B.
  assert (S0 = S) as -> by congruence.
  split; [|split; assumption].
  apply (singleS_sanitized w k' m' t S Hs'). exists R'. rewrite (steady_std w k' m' Hu'). auto.
Qed.

Theorem cached_C15_k_independent m m' ts ss :
  m_ext m = false -> m_ext m' = false -> m_unsafe_ex m = false -> m_unsafe_ex m' = false ->
  m_sanitize m = true -> m_sanitize m' = true ->
  List.Forall (good ea ext (genv_of w k) names) ts ->
  List.Forall (good ea ext (genv_of w k') names) ts ->
  List.Forall (depth_named 0) ts ->
  check_trees w k m ts [] [] = Ok ss ->
  check_trees w k' m' ts [] [] = Ok ss
  /\ List.Forall2 (fun t S => shaped (Lpn (w_p w) (w_n w)) S /\
       forall (Gamma : str -> val -> Prop) v, mem (Lpn (w_p w) (w_n w)) S v = true <->
         (mem (Lpn (w_p w) (w_n w)) (w_unit w) v = true /\ sat (genv_of w k) names Gamma t v)) ts ss.
Proof.
  intros He He' Hu Hu' Hs Hs' F F' D H.
  pose proof (ct_plain_single ea ext w k WOK m ts ss He F H) as F2.
  pose proof (Forall_and (Forall_and F F') D) as PF.
  split; [apply (ct_plain_single_rev ea ext w k' WOK m' ts ss He' F')|];
    (eapply Forall2_weaken; [exact PF | exact F2|]); intros t S [[GT GT'] DN] E;
    apply (singleS_k_independent m m' t S Hu Hu' Hs Hs' GT GT' DN E).
Qed.

End KIndepWorld.

Section PlainEntry.
Variable ea : N -> bool.
Variable w : world.
Variable k : nat.
Hypothesis WOK : world_ok w.

Local Notation G := (genv_of w k).
Local Notation U := (unit_of w k).
Local Notation names := (w_names w).
Local Notation parsed fs ts :=
  (List.Forall2 (fun f t => parse_and_minimize ea false names f = Ok t) fs ts).

Lemma model_check_plain_inv m ctx fs rs :
  m_ext m = false -> model_check ea w k m ctx fs = Ok rs ->
  exists ts, List.Forall (vplain ea w k) ts /\ parsed fs ts /\ check_trees w k m ts [] [] = Ok rs.
Proof.
  intros He H. destruct (model_check_ok_inv _ _ _ _ _ _ _ H) as (ts & cp & cd & V & C). rewrite He in V.
  destruct (validate_all_vplain ea w k ctx fs _ V) as (ts' & X & F & P). injection X as -> -> ->.
  exists ts'. auto.
Qed.

Lemma model_check_plain_congr m m' ctx fs :
  m_ext m = false -> m_ext m' = false ->
  (forall ts, List.Forall (vplain ea w k) ts -> parsed fs ts ->
     check_trees w k m ts [] [] = check_trees w k m' ts [] []) ->
  model_check ea w k m ctx fs = model_check ea w k m' ctx fs.
Proof.
  intros He He' K. unfold model_check. rewrite He, He'.
  destruct (validate_all ea false names k ctx fs) as [r| | |] eqn:V; cbn [bind]; try reflexivity.
  destruct (validate_all_vplain ea w k ctx fs r V) as (ts & -> & F & P). cbn [fst snd].
  apply K; assumption.
Qed.

Lemma vplain_good ts : List.Forall (vplain ea w k) ts -> List.Forall (good ea false G names) ts.
Proof. apply Forall_impl. intros t [A _]. exact A. Qed.

Lemma vplain_closed ts : List.Forall (vplain ea w k) ts -> List.Forall (depth_named 0) ts.
Proof. apply Forall_impl. intros t [_ A]. exact A. Qed.

Theorem cached_C01_model_check (Gamma : str -> val -> Prop) m ctx fs rs :
  m_ext m = false -> m_sanitize m = false -> m_unsafe_ex m = false ->
  model_check ea w k m ctx fs = Ok rs ->
  exists ts, parsed fs ts /\
    List.Forall2 (fun t R => forall v,
       mem (g_L G) R v = true <-> (mem (g_L G) U v = true /\ sat G names Gamma t v)) ts rs.
Proof.
  intros He Hs Hu H. destruct (model_check_plain_inv m ctx fs rs He H) as (ts & F & P & C).
  exists ts. split; [exact P|].
  exact (cached_C01_check_trees ea false w k WOK Gamma m ts rs
           He Hs Hu (vplain_good ts F) C).
Qed.

Theorem cached_C03_model_check m ctx fs rs :
  m_ext m = false -> m_sanitize m = false -> m_unsafe_ex m = false ->
  model_check ea w k m ctx fs = Ok rs ->
  List.Forall (fun R =>
      (forall v, mem (g_L G) R v = true -> mem (g_L G) U v = true)
      /\ (forall v v', (forall j, v (TP j) = v' (TP j)) -> (forall i, v (TS i) = v' (TS i)) ->
            mem (g_L G) R v = mem (g_L G) R v')) rs.
Proof.
  intros He Hs Hu H. destruct (model_check_plain_inv m ctx fs rs He H) as (ts & F & P & C).
  apply Forall_and.
  - exact (cached_C03_within_unit ea false w k WOK m ts rs
             He Hs Hu (vplain_good ts F) C).
  - exact (cached_C03_closed_ignores_copies ea false w k WOK m ts rs
             He Hs Hu (vplain_good ts F) (vplain_closed ts F) C).
Qed.

Theorem cached_C12_model_check m m' ctx fs :
  m_ext m = false -> m_ext m' = false -> m_unsafe_ex m = false -> m_unsafe_ex m' = false ->
  m_sanitize m = m_sanitize m' ->
  model_check ea w k m ctx fs = model_check ea w k m' ctx fs.
Proof.
  intros He He' Hu Hu' Hs. apply model_check_plain_congr; try assumption. intros ts F _.
  exact (cached_C12_check_trees ea false w k WOK m m' ts
           He He' Hu Hu' Hs (vplain_good ts F)).
Qed.

Theorem cached_C15_model_check_sanitize_eq_raw m m' ctx fs rs :
  m_ext m = false -> m_ext m' = false -> m_unsafe_ex m = false -> m_unsafe_ex m' = false ->
  m_sanitize m = false -> m_sanitize m' = true ->
  model_check ea w k m ctx fs = Ok rs ->
  exists ss, model_check ea w k m' ctx fs = Ok ss
    /\ List.Forall2 (fun R S => shaped (filter not_extra (g_L G)) S /\
                       forall v, mem (filter not_extra (g_L G)) S v = mem (g_L G) R v) rs ss.
Proof.
  intros He He' Hu Hu' Hs Hs' H.
  destruct (model_check_ok_inv _ _ _ _ _ _ _ H) as (ts & cp & cd & V & C). rewrite He in V.
  destruct (validate_all_vplain ea w k ctx fs _ V) as (ts' & X & F & P). injection X as -> -> ->.
  rewrite <- He' in V. rewrite (model_check_validated _ _ _ _ _ _ _ _ _ V).
  exact (cached_C15_sanitize_eq_raw ea false w k WOK m m' ts' rs
           He He' Hu Hu' Hs Hs' (vplain_good ts' F) (vplain_closed ts' F) C).
Qed.

End PlainEntry.

Theorem cached_C15_model_check_k_independent ea (w : world) k k' m m' ctx ctx' fs ss ss' :
  world_ok w ->
  m_ext m = false -> m_ext m' = false -> m_unsafe_ex m = false -> m_unsafe_ex m' = false ->
  m_sanitize m = true -> m_sanitize m' = true ->
  model_check ea w k m ctx fs = Ok ss -> model_check ea w k' m' ctx' fs = Ok ss' ->
  ss = ss'
  /\ exists ts, List.Forall2 (fun f t => parse_and_minimize ea false (w_names w) f = Ok t) fs ts
     /\ List.Forall2 (fun t S => shaped (Lpn (w_p w) (w_n w)) S /\
          forall (Gamma : str -> val -> Prop) v, mem (Lpn (w_p w) (w_n w)) S v = true <->
            (mem (Lpn (w_p w) (w_n w)) (w_unit w) v = true /\ sat (genv_of w k) (w_names w) Gamma t v)) ts ss.
Proof.
  intros WOK He He' Hu Hu' Hs Hs' H H'.
  destruct (model_check_plain_inv ea w k m ctx fs ss He H) as (ts & F & P & C).
  destruct (model_check_plain_inv ea w k' m' ctx' fs ss' He' H') as (ts' & F' & P' & C').
  assert (ts' = ts) as ->.
  { eapply Forall2_fun; [|exact P' | exact P]. intros; congruence. }
  destruct (cached_C15_k_independent ea false w k k' WOK m m' ts ss He He' Hu Hu' Hs Hs'
              (vplain_good ea w k ts F) (vplain_good ea w k' ts F') (vplain_closed ea w k ts F) C) as [A B].
  split; [congruence|]. exists ts. auto.
Qed.

(** ** C18: the self-loop-free variant (any cache mode, plain or extended) *)

Lemma eval_all_fragment G names sw s1 s2 U : forall ts c, List.Forall in_fragment ts ->
  eval_all G names sw s1 U ts c = eval_all G names sw s2 U ts c.
Proof.
  induction ts as [|t ts IH]; intros c F; cbn [eval_all]; [reflexivity|].
  inversion F as [|? ? Ft Fr]; subst.
  rewrite (fragment_ignores_steady G names sw s1 s2 t U c Ft).
  destruct (eval_node G names sw s2 t U c) as [[r c']| | |]; cbn [bind]; try reflexivity.
  rewrite (IH c' Fr). reflexivity.
Qed.

Theorem cached_C18_fragment_check_trees (w : world) k m m' ts cp cd :
  m_ext m = m_ext m' -> m_sanitize m = m_sanitize m' -> m_nocache m = m_nocache m' ->
  m_nopatterns m = m_nopatterns m' -> List.Forall in_fragment ts ->
  check_trees w k m ts cp cd = check_trees w k m' ts cp cd.
Proof.
  intros He Hs Hn Hp F. unfold check_trees. rewrite <- He, <- Hs, <- Hn, <- Hp.
  rewrite (eval_all_fragment _ _ _ (if m_unsafe_ex m then empty (genv_of w k)
                                       else steady_of (genv_of w k) (unit_of w k))
             (if m_unsafe_ex m' then empty (genv_of w k)
              else steady_of (genv_of w k) (unit_of w k)) _ ts _ F).
  reflexivity.
Qed.

Lemma in_fragment_rename t : forall scope, in_fragment (rename scope t) <-> in_fragment t.
Proof.
  induction t as [a | o c IH | o a IHa b IHb | o x d c IH]; intro scope; cbn [rename].
  - destruct a; reflexivity.
  - destruct o; cbn [in_fragment]; first [reflexivity | apply IH].
  - destruct o; cbn [in_fragment];
      first [reflexivity | split; intros [X Y]; (split; [apply (IHa scope), X | apply (IHb scope), Y])].
  - destruct (is_quantifier o); cbn [in_fragment]; apply IH.
Qed.

Theorem cached_C18_fragment_model_check ea (w : world) k m m' ctx fs :
  m_ext m = m_ext m' -> m_sanitize m = m_sanitize m' -> m_nocache m = m_nocache m' ->
  m_nopatterns m = m_nopatterns m' ->
  (forall f t0, In f fs -> parse_formula ea (m_ext m) f = Ok t0 -> in_fragment t0) ->
  model_check ea w k m ctx fs = model_check ea w k m' ctx fs.
Proof.
  intros He Hs Hn Hp K. unfold model_check. rewrite <- He.
  destruct (validate_all ea (m_ext m) (w_names w) k ctx fs) as [[[ts cp] cd]| | |] eqn:V; cbn [bind];
    try reflexivity.
  cbn [fst snd]. apply cached_C18_fragment_check_trees; try assumption.
  pose proof (validate_all_parsed _ _ _ _ _ _ _ _ _ V) as P. clear V.
  induction P as [|f t fs ts PM _ IH]; constructor.
  - destruct (parse_and_minimize_rename _ _ _ _ _ PM) as (t0 & PF & _ & ->).
    apply in_fragment_rename. apply (K f t0 (or_introl eq_refl) PF).
  - apply IH. intros f' t0 IN. apply K. right. exact IN.
Qed.

Section NoSteadyWorld.
Variable w : world.
Variable k : nat.
Hypothesis WOK : world_ok w.
Hypothesis no_steady : forall v, mem (g_L (genv_of w k)) (unit_of w k) v = true -> ~ vsteady (genv_of w k) v.

Theorem cached_C18_no_steady_check_trees m m' ts cp cd :
  m_ext m = m_ext m' -> m_sanitize m = m_sanitize m' -> m_nocache m = m_nocache m' ->
  m_nopatterns m = m_nopatterns m' ->
  check_trees w k m ts cp cd = check_trees w k m' ts cp cd.
Proof.
  intros He Hs Hn Hp. unfold check_trees. rewrite <- He, <- Hs, <- Hn, <- Hp.
  pose proof (world_ok_wf w k WOK) as WF.
  rewrite (no_steady_states_empty (genv_of w k) (wf_nodup _ _ _ WF) (wf_upd_shaped _ _ _ WF)
             (wf_TS_in _ _ _ WF) (unit_of w k) (wf_U_shaped _ _ _ WF) no_steady).
  destruct (m_unsafe_ex m), (m_unsafe_ex m'); reflexivity.
Qed.

Theorem cached_C18_no_steady_model_check ea m m' ctx fs :
  m_ext m = m_ext m' -> m_sanitize m = m_sanitize m' -> m_nocache m = m_nocache m' ->
  m_nopatterns m = m_nopatterns m' ->
  model_check ea w k m ctx fs = model_check ea w k m' ctx fs.
Proof.
  intros He Hs Hn Hp. unfold model_check. rewrite <- He.
  destruct (validate_all ea (m_ext m) (w_names w) k ctx fs) as [[[ts cp] cd]| | |]; cbn [bind];
    try reflexivity.
  apply cached_C18_no_steady_check_trees; assumption.
Qed.

End NoSteadyWorld.

(** ** C20: the colour slice *)

(** the network instantiated by a colour, as a world (with a unit set of its own) *)
Definition colour_world (c : val) (u' : tt) (w : world) : world :=
  {| w_p := w_p w; w_n := w_n w; w_names := w_names w;
     w_upd := map (fix_colour c (Lpn (w_p w) (w_n w))) (w_upd w);
     w_unit := u' |}.

Lemma expand_fix_colour c : forall L t,
  expand not_extra L (fix_colour c (filter not_extra L) t) = fix_colour c L (expand not_extra L t).
Proof.
  induction L as [|h L IH]; intro t; [reflexivity|].
  cbn [filter]. destruct (not_extra h) eqn:K.
  - destruct t as [b|lo hi].
    + cbn [fix_colour expand]. rewrite K. symmetry. apply (fix_colour_const c (h :: L) b).
    + destruct h as [j|i|i e]; [| |discriminate K]; cbn [fix_colour expand]; rewrite K; cbn [fix_colour].
      * rewrite IH. destruct (c (TP j)); reflexivity.
      * rewrite !IH. reflexivity.
  - destruct h as [j|i|i e]; [discriminate K | discriminate K|].
    cbn [expand]. rewrite K. cbn [fix_colour]. rewrite IH. reflexivity.
Qed.

Lemma genv_of_colour_world c u' (w : world) k :
  genv_of (colour_world c u' w) k = instantiate c (genv_of w k).
Proof.
  unfold genv_of, colour_world, instantiate, mk_genv. cbn [w_p w_n w_upd g_n g_p g_k g_L g_upd].
  f_equal. rewrite !map_map. apply map_ext. intro t.
  change (fun g => negb (is_extra_tag g)) with not_extra.
  rewrite <- expand_fix_colour, filter_not_extra_layout. reflexivity.
Qed.

Section ColourWorld.
Variable ea : N -> bool.
Variable ext : bool.
Variable w : world.
Variable k : nat.
Hypothesis WOK : world_ok w.
Variable c : val.
Variable u' : tt.
Hypothesis unit_ok' : shaped (Lpn (w_p w) (w_n w)) u'.
Hypothesis unit_colour' : forall v v', (forall j, v (TP j) = v' (TP j)) ->
  mem (Lpn (w_p w) (w_n w)) u' v = mem (Lpn (w_p w) (w_n w)) u' v'.

Local Notation G := (genv_of w k).
Local Notation U := (unit_of w k).
Local Notation names := (w_names w).
Local Notation w' := (colour_world c u' w).

Lemma colour_world_ok : world_ok w'.
Proof.
  destruct WOK as (A & _ & _ & D). split; [|exact (conj unit_ok' (conj unit_colour' D))].
  cbn [colour_world w_p w_n w_upd]. apply Forall_forall. intros t IN. apply in_map_iff in IN.
  destruct IN as (t0 & <- & IN). apply shaped_fix_colour. rewrite Forall_forall in A. apply A, IN.
Qed.

Lemma colour_world_good t : good ea ext G names t -> good ea ext (genv_of w' k) names t.
Proof.
  intros (A & B & C & D). rewrite genv_of_colour_world. split; [exact A|].
  split; [apply supported_instantiate, B | split; [exact C | exact D]].
Qed.

Theorem cached_C20_check_trees m m' ts rs rs' :
  m_ext m = false -> m_ext m' = false -> m_sanitize m = false -> m_sanitize m' = false ->
  m_unsafe_ex m = false -> m_unsafe_ex m' = false ->
  List.Forall (good ea ext G names) ts ->
  check_trees w k m ts [] [] = Ok rs -> check_trees w' k m' ts [] [] = Ok rs' ->
  List.Forall2 (fun R R' => forall v, (forall j, v (TP j) = c (TP j)) ->
     mem (g_L G) U v = true -> mem (g_L G) (unit_of w' k) v = true ->
     mem (g_L G) R v = mem (g_L G) R' v) rs rs'.
Proof.
  intros He He' Hs Hs' Hu Hu' F H H'.
  pose proof (world_ok_wf w k WOK) as WF.
  pose proof (world_ok_wf w' k colour_world_ok) as WF'.
  pose proof (ct_plain_peval ea ext w k WOK m ts rs He Hs Hu F H) as F2.
  assert (List.Forall (good ea ext (genv_of w' k) names) ts) as FG'.
  { eapply Forall_impl; [|exact F]. apply colour_world_good. }
  pose proof (ct_plain_peval ea ext w' k colour_world_ok m' ts rs'
                He' Hs' Hu' FG' H') as F2'.
  cbn [w_names colour_world] in F2', WF'. rewrite genv_of_colour_world in F2', WF'.
  eapply Forall2_join; [exact F | exact F2 | exact F2' |].
  intros t R R' (PL & SUP & _) E E' v Hc HU HU'.
  exact (peval_colour_slice G names c U (unit_of w' k) WF WF' _ _ t R R' PL SUP E E' v Hc HU HU').
Qed.

End ColourWorld.

Theorem cached_C20_model_check ea (w : world) k c u' m m' ctx ctx' fs rs rs' :
  world_ok w ->
  shaped (Lpn (w_p w) (w_n w)) u' ->
  (forall v v', (forall j, v (TP j) = v' (TP j)) ->
     mem (Lpn (w_p w) (w_n w)) u' v = mem (Lpn (w_p w) (w_n w)) u' v') ->
  m_ext m = false -> m_ext m' = false -> m_sanitize m = false -> m_sanitize m' = false ->
  m_unsafe_ex m = false -> m_unsafe_ex m' = false ->
  model_check ea w k m ctx fs = Ok rs -> model_check ea (colour_world c u' w) k m' ctx' fs = Ok rs' ->
  List.Forall2 (fun R R' => forall v, (forall j, v (TP j) = c (TP j)) ->
     mem (g_L (genv_of w k)) (unit_of w k) v = true ->
     mem (g_L (genv_of w k)) (unit_of (colour_world c u' w) k) v = true ->
     mem (g_L (genv_of w k)) R v = mem (g_L (genv_of w k)) R' v) rs rs'.
Proof.
  intros WOK H5 H6 He He' Hs Hs' Hu Hu' H H'.
  destruct (model_check_plain_inv ea w k m ctx fs rs He H) as (ts & F & P & C).
  destruct (model_check_plain_inv ea (colour_world c u' w) k m' ctx' fs rs' He' H') as (ts' & F' & P' & C').
  assert (ts' = ts) as ->.
  { eapply Forall2_fun; [|exact P' | exact P]. cbn [w_names colour_world]. intros; congruence. }
  exact (cached_C20_check_trees ea false w k WOK c u' H5 H6 m m' ts rs rs'
           He He' Hs Hs' Hu Hu' (vplain_good ea w k ts F) C C').
Qed.

(** * The raw result of a closed formula does not read the spare copies -- everywhere, not
    only inside the unit (which is what the sanitiser needs)

    [reads A S]: the set [S] is shaped and membership in it depends only on the colour, the
    state and the spare copies in [A]: [S] is related to itself ([trel], CopyRel.v) by
    [vagree A] (IndepFacts.v).  Every operator of Model/Ops.v that the evaluator uses keeps
    [reads A] (the operator family of CopyRel.v at [vagree A]: a syntactic argument on
    decision trees, no semantics, no termination argument), and a quantifier over the variable
    in copy [e] turns [reads (e or A)] into [reads A].  The result of a formula whose free
    variables are stored in copies of [A] ([copies_ok], the hypothesis of [sat_agree]) reads
    [A]: a quantifier evaluates its body with its own copy added and projects that copy out
    again.  For a closed formula [A] is empty. *)

Section Reads.
Variable G : genv.
Variable names : list str.
Variable Utop : tt.
Hypothesis WF : wf_env G names Utop.
Local Notation L := (g_L G).
Local Notation k := (g_k G).

Definition reads (A : nat -> Prop) (S : tt) : Prop := trel G (vagree A) S S.

Lemma vagree_vsim A : vsim (vagree A).
Proof.
  assert (forall v, vagree A v v) as RF by (intro v; split; [|split]; reflexivity).
  split.
  - intros v w (H1 & H2 & _) [j|i|i e] Hg; [apply H1 | apply H2 | discriminate Hg].
  - intros i v w. apply vagree_flip.
  - intros u v w. apply vagree_with_state.
  - intro w. exists w. apply RF.
  - intro v. exists v. apply RF.
Qed.

(** the two facts about [vagree] that a variable in copy [e] needs *)
Lemma vagree_var (A : nat -> Prop) e : A e -> forall v w, vagree A v w -> forall i, v (TX i e) = w (TX i e).
Proof. intros He v w (_ & _ & H) i. apply H, He. Qed.

Lemma vagree_lift A e u v w :
  vagree A v w -> vagree (fun e' => e' = e \/ A e') (set_copy e u v) (set_copy e u w).
Proof. apply vagree_set_copy. reflexivity. Qed.

Lemma reads_mono (A A' : nat -> Prop) S : (forall e, A e -> A' e) -> reads A S -> reads A' S.
Proof.
  intro K. apply trel_mono. intros v w (H1 & H2 & H3).
  split; [exact H1|]. split; [exact H2|]. intros i e He. apply H3, K, He.
Qed.

Lemma reads_extras_indep A S : shaped L S -> extras_indep G S -> reads A S.
Proof. apply trel_extras_indep, (vsim_base _ (vagree_vsim A)). Qed.

Lemma reads_top A : reads A Utop.
Proof. exact (trel_top WF (vagree_vsim A)). Qed.

Lemma reads_steady_of A U : reads A U -> reads A (steady_of G U).
Proof. exact (trel_steady_of WF (vagree_vsim A) U U). Qed.

Lemma reads_cmp (A : nat -> Prop) U e : reads A U -> A e -> e < k -> reads A (comparator_var_state G U e).
Proof. intros HU He LT. exact (trel_cmp WF (vagree_vsim A) U U HU e e LT LT (vagree_var A e He)). Qed.

Lemma reads_unary A U st o x r :
  reads A U -> reads A st -> reads A x -> eval_unary G U st o x = Ok r -> reads A r.
Proof. intros HU HS HX. exact (rrel_diag _ _ r (trel_unary WF (vagree_vsim A) st HS U U HU o x x HX)). Qed.

Lemma reads_binary A U st o a b r :
  reads A U -> reads A st -> reads A a -> reads A b -> eval_binary G U st o a b = Ok r -> reads A r.
Proof.
  intros HU HS HA HB. exact (rrel_diag _ _ r (trel_binary WF (vagree_vsim A) st HS U U HU o a a b b HA HB)).
Qed.

Lemma reads_jump (A : nat -> Prop) U a e : reads A U -> reads A a -> A e -> e < k -> reads A (eval_jump G U a e).
Proof. intros HU Ha He LT. exact (trel_jump WF (vagree_vsim A) U U HU e e LT LT (vagree_var A e He) a a Ha). Qed.

Lemma reads_restricted (A : nat -> Prop) U dset e : reads A U -> reads A dset -> A e -> e < k ->
  reads A (tand U (compute_valid_domain_for_var G U dset e)).
Proof.
  intros HU Hd He LT. exact (trel_restricted WF (vagree_vsim A) U U HU e e LT LT (vagree_var A e He) dset Hd).
Qed.

(** a quantifier over the variable stored in copy [e]: the restricted unit and the body may
    read that copy, the result does not *)
Lemma reads_quantifier A U Ur o e a r : reads A U -> e < k ->
  reads (fun e' => e' = e \/ A e') Ur -> reads (fun e' => e' = e \/ A e') a ->
  eval_hybrid_quantifier G U Ur o e a = Ok r -> reads A r.
Proof.
  set (A' := fun e' => e' = e \/ A e'). intros HU LT HR HA. apply rrel_diag.
  apply (trel_quantifier WF (vagree_vsim A') e e LT LT (vagree_var A' e (or_introl eq_refl)) (vagree_lift A e)
           U U HU (reads_mono A A' U (fun e' => @or_intror _ _) HU) Ur Ur o a a HR HA).
Qed.

Lemma reads_attractors A U e r : reads A U -> e < k -> attractors G U e = Ok r -> reads A r.
Proof.
  set (A' := fun e' => e' = e \/ A e'). intros HU LT. apply rrel_diag.
  apply (trel_attractors WF (vagree_vsim A') e e LT LT (vagree_var A' e (or_introl eq_refl)) (vagree_lift A e)
           U U (reads_mono A A' U (fun e' => @or_intror _ _) HU)).
Qed.

End Reads.

Section ReadsEval.
Variable G : genv.
Variable names : list str.
Variable Utop : tt.
Hypothesis WF : wf_env G names Utop.
Variable sw : switches.
Variable wild doms : list (str * tt).
Variable st : tt.     (* the self-loop set handed to the evaluator: any set that reads no copy *)
Local Notation reads := (reads G).
Local Notation pevx := (peval_ext G names sw st wild doms).
Local Notation none := (fun _ : nat => False).

Hypothesis st_reads : reads none st.
Hypothesis wild_reads : forall l s, alookup str_eqb l wild = Some s -> reads none s.
Hypothesis doms_reads : forall l s, alookup str_eqb l doms = Some s -> reads none s.

Lemma reads_none A S : reads none S -> reads A S.
Proof. apply reads_mono. intros e []. Qed.

Theorem peval_ext_reads : forall t (A : nat -> Prop) U R,
  reads A U -> copies_ok G A t -> pevx t U = Ok R -> reads A R.
Proof.
  (* Induction on the formula, for all sets [A] of copies and all units that read [A].  Terminals
     and operators keep [reads A].  A quantifier over the variable in copy [e] evaluates its body
     with [e] added to [A] (the unit and the restricted unit read [e] or [A]) and projects [e]
     out again ([reads_quantifier]); a jump reads a copy that is in [A]. *)
  induction t as [a | o a IH | o a IHa b IHb | o x d a IH]; intros A U R HU HA; rewrite peval_ext_eq.
  - cbn [is_attractor_pattern is_fixed_point_pattern]. rewrite !andb_false_r.
    destruct a as [nm | y | | | l]; cbn [peval_ext_body copies_ok] in *.
    + destruct (index_of nm names 0) as [i|] eqn:E; [|discriminate]. intro H. injection H as <-.
      apply (trel_prop WF (vagree_vsim A) U U HU). apply (wf_names _ _ _ WF nm i E).
    + destruct (hctl_var_id G y) as [e| | |] eqn:E; cbn [bind]; try discriminate.
      intro H. injection H as <-. destruct (var_id_of G y e E) as [V LT].
      exact (reads_cmp G names Utop WF A U e HU (HA e V) LT).
    + intro H. injection H as <-. exact HU.
    + intro H. injection H as <-. apply trel_const.
    + destruct (alookup str_eqb l wild) as [s|] eqn:E; [|discriminate]. intro H. injection H as <-.
      apply reads_none, (wild_reads l s E).
  - cbn [is_attractor_pattern is_fixed_point_pattern]. rewrite !andb_false_r.
    cbn [peval_ext_body copies_ok] in *.
    destruct (pevx a U) as [X| | |] eqn:EA; cbn [bind]; try discriminate.
    exact (reads_unary G names Utop WF A U st o X R HU (reads_none A st st_reads) (IH A U X HU HA EA)).
  - cbn [is_attractor_pattern is_fixed_point_pattern]. rewrite !andb_false_r.
    cbn [peval_ext_body copies_ok] in *. destruct HA as [HAa HAb].
    destruct (pevx a U) as [X| | |] eqn:EA; cbn [bind]; try discriminate.
    destruct (pevx b U) as [Y| | |] eqn:EB; cbn [bind]; try discriminate.
    exact (reads_binary G names Utop WF A U st o X Y R HU (reads_none A st st_reads)
             (IHa A U X HU HAa EA) (IHb A U Y HU HAb EB)).
  - destruct (use_patterns sw && is_attractor_pattern (Hybrid o x d a)).
    { cbn [pattern_var]. destruct (hctl_var_id G x) as [e| | |] eqn:E; cbn [bind]; try discriminate.
      destruct (var_id_of G x e E) as [V LT]. exact (reads_attractors G names Utop WF A U e R HU LT). }
    destruct (use_patterns sw && is_fixed_point_pattern (Hybrid o x d a)).
    { intro H. injection H as <-. apply reads_none, st_reads. }
    destruct (jump_or_quantifier o) as [-> | [NJ _]].
    + cbn [peval_ext_body copies_ok] in *. destruct HA as [Hx HAa].
      destruct (pevx a U) as [r| | |] eqn:ER; cbn [bind]; try discriminate.
      destruct (hctl_var_id G x) as [e| | |] eqn:E; cbn [bind]; try discriminate.
      destruct (var_id_of G x e E) as [V LT]. intro H. injection H as <-.
      exact (reads_jump G names Utop WF A U r e HU (IH A U r HU HAa ER) (Hx e V) LT).
    + rewrite (peval_ext_body_quant G names sw st wild doms o x d a U NJ).
      assert (forall e, var_of G x = Some e -> copies_ok G (fun e' => e' = e \/ A e') a) as HAa
        by (destruct o; try congruence; exact HA).
      destruct d as [dl|].
      * destruct (alookup str_eqb dl doms) as [dset|] eqn:ED; [|discriminate].
        destruct (hctl_var_id G x) as [e| | |] eqn:E; cbn [bind]; try discriminate.
        destruct (var_id_of G x e E) as [V LT]. cbv zeta.
        set (A' := fun e' => e' = e \/ A e') in *.
        assert (reads A' (tand U (compute_valid_domain_for_var G U dset e))) as HR.
        { apply (reads_restricted G names Utop WF A'); [|apply reads_none, (doms_reads _ _ ED) | left; reflexivity | exact LT].
          apply (reads_mono G A); [right; assumption | exact HU]. }
        destruct (is_empty (tand U (compute_valid_domain_for_var G U dset e))).
        -- intro H. injection H as <-. destruct o; try exact HU; apply trel_const.
        -- destruct (pevx a (tand U (compute_valid_domain_for_var G U dset e))) as [r| | |] eqn:ER;
             cbn [bind]; try discriminate.
           apply (reads_quantifier G names Utop WF A U _ o e r R HU LT HR).
           exact (IH A' _ r HR (HAa e V) ER).
      * destruct (pevx a U) as [r| | |] eqn:ER; cbn [bind]; try discriminate.
        destruct (hctl_var_id G x) as [e| | |] eqn:E; cbn [bind]; try discriminate.
        destruct (var_id_of G x e E) as [V LT].
        assert (reads (fun e' => e' = e \/ A e') U) as HU' by (apply (reads_mono G A); [right; assumption | exact HU]).
        apply (reads_quantifier G names Utop WF A U U o e r R HU LT HU').
        exact (IH _ U r HU' (HAa e V) ER).
Qed.

(** the result of a closed formula reads no spare copy, in the form the sanitiser asks for *)
Corollary closed_result_reads_none t U R :
  reads none U -> closed_copies G t -> pevx t U = Ok R -> indep_dropped not_extra (g_L G) R.
Proof.
  intros HU HC E. destruct (peval_ext_reads t none U R HU HC E) as (_ & _ & H).
  intros v w K. apply H. split; [|split]; [intro j; apply K; reflexivity | intro i; apply K; reflexivity | intros i e []].
Qed.

End ReadsEval.

(** ** plain modes, all of them: closed results can always be sanitised

    (also with the empty self-loop set of [m_unsafe_ex], sanitised -- the combination that
    C14 leaves out) *)

Section PlainAllModes.
Variable ea : N -> bool.
Variable ext : bool.
Variable w : world.
Variable k : nat.
Hypothesis WOK : world_ok w.

Local Notation G := (genv_of w k).
Local Notation U := (unit_of w k).
Local Notation names := (w_names w).
Local Notation good := (good ea ext G names).
Local Notation swm m := {| use_patterns := negb (m_nopatterns m) |}.

Let WF : wf_env G names U := world_ok_wf w k WOK.

Lemma steady_of_mode_reads m : reads G (fun _ => False) (steady_of_mode w k m).
Proof.
  unfold steady_of_mode. destruct (m_unsafe_ex m); [apply trel_const|].
  apply (reads_steady_of G names U WF), (reads_top G names U WF).
Qed.

(** the raw result of a closed plain formula, in every plain mode, ignores the spare copies *)
Theorem plain_closed_result_indep m t R : good t -> depth_named 0 t ->
  peval G names (swm m) (steady_of_mode w k m) t U = Ok R ->
  indep_dropped not_extra (g_L G) R.
Proof.
  intros (PL & _) DN E.
  rewrite <- (peval_ext_plain G names (swm m) (steady_of_mode w k m) [] [] t U PL) in E.
  apply (closed_result_reads_none G names U WF (swm m) [] [] _ (steady_of_mode_reads m)) with (t := t) (U := U);
    try (intros l s X; discriminate X); try assumption.
  - apply (reads_top G names U WF).
  - exact (depth_named_closed G t DN).
Qed.

Lemma singleS_total m t : good t -> depth_named 0 t -> exists R, singleS w k m t = Ok R.
Proof.
  intros GT DN. pose proof GT as (PL & SUP & PK & _).
  assert (shaped (g_L G) (steady_of_mode w k m)) as SS by exact (proj1 (steady_of_mode_reads m)).
  destruct (peval_total G names (swm m) (steady_of_mode w k m) U (wf_nodup _ _ _ WF) (wf_upd_shaped _ _ _ WF)
              (wf_U_shaped _ _ _ WF) SS t PL SUP PK) as (R & E & SH).
  unfold singleS. rewrite E. cbn [bind]. destruct (m_sanitize m); [|exists R; reflexivity].
  destruct (restrict_indep_Some not_extra (g_L G) R (wf_nodup _ _ _ WF) SH
              (plain_closed_result_indep m t R GT DN E)) as (S & ES & _).
  exists S. unfold sanitize. rewrite ES. reflexivity.
Qed.

(** [check_trees] on validated trees answers with one set per formula in EVERY plain mode *)
Theorem cached_C14_check_trees_total m ts :
  m_ext m = false -> List.Forall good ts -> List.Forall (depth_named 0) ts ->
  exists rs, check_trees w k m ts [] [] = Ok rs /\ length rs = length ts.
Proof.
  intros He F D. rewrite (check_trees_mapS_ok ea ext w k WOK m ts He F).
  destruct (mapM_total (singleS w k m) _ (fun _ _ => True) ts (Forall_and F D)) as (rs & E & F2).
  - intros t [GT DN]. destruct (singleS_total m t GT DN) as [R E]. exists R. auto.
  - exists rs. split; [exact E | symmetry; exact (Forall2_length_eq _ _ _ F2)].
Qed.

End PlainAllModes.

(** ** C14 for the plain string entry point, every plain mode *)

Section PlainNoPanic.
Variable ea : N -> bool.
Variable w : world.
Variable k : nat.
Hypothesis WOK : world_ok w.
Local Notation names := (w_names w).
Local Notation accepted := (accepted ea names k).
Local Notation rejected := (rejected ea names k).

Theorem cached_C14_cases m ctx fs :
  m_ext m = false ->
  (exists rs, model_check ea w k m ctx fs = Ok rs /\ length rs = length fs
              /\ List.Forall accepted fs)
  \/ (exists e, model_check ea w k m ctx fs = Err e /\ first_reject accepted rejected fs e).
Proof.
  intros He.
  destruct (validate_all_cases ea names k ctx fs) as [(ts & V & F) | (e & V & FR)]; rewrite <- He in V;
    [|right; exists e; split; [apply model_check_invalid, V | exact FR]].
  left. rewrite (model_check_validated _ _ _ _ _ _ _ _ _ V). rewrite He in V.
  destruct (validate_all_vplain ea w k ctx fs _ V) as (ts' & X & FV & _). injection X as <-.
  destruct (cached_C14_check_trees_total ea false w k WOK m ts He (vplain_good ea w k ts FV)
              (vplain_closed ea w k ts FV)) as (rs & -> & L).
  exists rs. split; [reflexivity|]. split.
  - rewrite L. symmetry. exact (Forall2_length_eq _ _ _ F).
  - exact (Forall2_left _ _ _ _ (prepared_accepted ea names k) F).
Qed.

Theorem cached_C14_no_panic m ctx fs :
  m_ext m = false ->
  (forall p, model_check ea w k m ctx fs <> Panic p) /\ model_check ea w k m ctx fs <> OutOfFuel.
Proof. intro He. exact (cases_no_panic _ _ _ _ (cached_C14_cases m ctx fs He)). Qed.

Theorem cached_C14_err_iff m ctx fs e :
  m_ext m = false ->
  (model_check ea w k m ctx fs = Err e <-> first_reject accepted rejected fs e).
Proof.
  intro He. split; [apply cases_err, cached_C14_cases, He|].
  intro FR. apply model_check_invalid. rewrite He. apply first_reject_validate, FR.
Qed.

Theorem cached_C14_ok_iff m ctx fs :
  m_ext m = false ->
  ((exists rs, model_check ea w k m ctx fs = Ok rs) <-> List.Forall accepted fs).
Proof.
  intro He. apply (cases_ok_iff _ _ _ _ (cached_C14_cases m ctx fs He)).
  intros f e. apply accepted_not_rejected.
Qed.

Theorem cached_C14_err_iff_parsed m ctx fs ts e :
  m_ext m = false ->
  Forall2 (fun f t => parse_formula ea false f = Ok t) fs ts ->
  (model_check ea w k m ctx fs = Err e
   <-> exists ts1 t ts2,
         ts = ts1 ++ t :: ts2
         /\ List.Forall (fun t1 => well_scoped names [] t1 /\ qdepth t1 <= k) ts1
         /\ (scope_violation names [] t e
             \/ (well_scoped names [] t /\ k < qdepth t /\ e = EVarSupport))).
Proof.
  intros He P. rewrite (cached_C14_err_iff m ctx fs e He).
  rewrite (first_reject_parsed ea names k fs ts e P).
  apply first_reject_split.
Qed.

Theorem cached_C14_errs_iff_parsed m ctx fs ts :
  m_ext m = false ->
  Forall2 (fun f t => parse_formula ea false f = Ok t) fs ts ->
  ((exists e, model_check ea w k m ctx fs = Err e)
   <-> List.Exists (fun t => ~ well_scoped names [] t \/ k < qdepth t) ts).
Proof.
  intros He P. rewrite (cases_some_err_iff _ _ _ _ (cached_C14_cases m ctx fs He)).
  - apply some_reject_parsed, P.
  - intros f e. apply accepted_not_rejected.
Qed.

End PlainNoPanic.


(** * The extended mode: wild-card propositions and quantifier domains *)

Lemma ctx_ignores_copies_iff (Gamma : str -> val -> Prop) : ctx_ignores_copies Gamma ->
  forall l v w, (forall j, v (TP j) = w (TP j)) -> (forall i, v (TS i) = w (TS i)) ->
    (Gamma l v <-> Gamma l w).
Proof.
  intros Gx l v w H1 H2. split; apply Gx; intros [j|i|i e] X; try discriminate X; auto.
Qed.

Lemma mapM_ok_or_panic {A B} (f : A -> res B) (p0 : panicsite) l :
  (forall x, In x l -> (exists r, f x = Ok r) \/ f x = Panic p0) ->
  (exists rs, mapM f l = Ok rs /\ length rs = length l) \/ mapM f l = Panic p0.
Proof.
  induction l as [|x l IH]; intro K; cbn [mapM].
  - left. exists []. split; reflexivity.
  - destruct (K x (or_introl eq_refl)) as [[r ->] | ->]; cbn [bind]; [|right; reflexivity].
    destruct IH as [(rs & -> & LEN) | ->]; cbn [bind].
    + intros y IN. apply K. right. exact IN.
    + left. exists (r :: rs). split; [reflexivity | cbn [length]; lia].
    + right. reflexivity.
Qed.

Section ExtWorld.
Variable ea : N -> bool.
Variable w : world.
Variable k : nat.
Hypothesis WOK : world_ok w.
Variable cprops cdoms : list (str * tt).
Variable Gamma : str -> val -> Prop.

Local Notation G := (genv_of w k).
Local Notation U := (unit_of w k).
Local Notation names := (w_names w).
Local Notation wild := (wild_of w k cprops).
Local Notation doms := (doms_of w k cprops cdoms).
Local Notation swm m := {| use_patterns := negb (m_nopatterns m) |}.
Local Notation topx := (topx ea G names wild doms).
Local Notation pevx m := (peval_ext G names (swm m) (steady_of G U) wild doms).

Hypothesis Gx : ctx_ignores_copies Gamma.
Hypothesis wild_ok : wild_sets_ok G Gamma wild.
Hypothesis doms_ok : dom_sets_ok G Gamma doms.

Let WF : wf_env G names U := world_ok_wf w k WOK.

Local Notation ctmX := (check_trees_mapX_ok ea w k WOK cprops cdoms
                          Gamma Gx wild_ok doms_ok).

Lemma ct_ext_single m ts rs :
  m_ext m = true -> m_unsafe_ex m = false -> List.Forall topx ts ->
  check_trees w k m ts cprops cdoms = Ok rs ->
  List.Forall2 (fun t R => singleX w k cprops cdoms m t = Ok R) ts rs.
Proof. intros He Hu F H. rewrite (ctmX m ts He Hu F) in H. apply mapM_Forall2, H. Qed.

Lemma ct_ext_peval m ts rs :
  m_ext m = true -> m_unsafe_ex m = false -> m_sanitize m = false -> List.Forall topx ts ->
  check_trees w k m ts cprops cdoms = Ok rs ->
  List.Forall2 (fun t R => pevx m t U = Ok R) ts rs.
Proof.
  intros He Hu Hs F H. eapply Forall2_weaken; [exact F | exact (ct_ext_single m ts rs He Hu F H)|].
  intros t R _ E. unfold singleX in E. rewrite Hs in E.
  destruct (pevx m t U); cbn [bind] in E; congruence.
Qed.

Lemma topx_peval_ext_total sw t : topx t ->
  exists R, peval_ext G names sw (steady_of G U) wild doms t U = Ok R /\ shaped (g_L G) R.
Proof.
  intros ((_ & KN & SUP) & _ & _).
  apply (peval_ext_total G names sw (steady_of G U) wild doms (wf_nodup _ _ _ WF) (wf_upd_shaped _ _ _ WF)).
  - apply (wf_steady_shaped G names U WF).
  - intros l s E. exact (proj1 (wild_ok l s E)).
  - intros l s E. exact (proj1 (doms_ok l s E)).
  - apply (wf_U_shaped _ _ _ WF).
  - exact KN.
  - exact SUP.
Qed.

Lemma ext_wild_reads l s : alookup str_eqb l wild = Some s -> reads G (fun _ => False) s.
Proof.
  intro E. destruct (wild_ok l s E) as [SS HM]. apply reads_extras_indep; [exact SS|].
  intros v v' H. apply eq_true_iff_eq. rewrite (HM v), (HM v'). split; apply Gx; intros g Hg;
    [|symmetry]; apply H, Hg.
Qed.

Lemma ext_doms_reads l s : alookup str_eqb l doms = Some s -> reads G (fun _ => False) s.
Proof.
  intro E. destruct (doms_ok l s E) as (SS & X & _). apply reads_extras_indep; assumption.
Qed.

(** the raw result of a closed extended formula does not read the spare copies at all *)
Theorem topx_result_extras_indep sw t R : topx t ->
  peval_ext G names sw (steady_of G U) wild doms t U = Ok R ->
  indep_dropped not_extra (g_L G) R.
Proof.
  intros (_ & DN & _) E.
  apply (closed_result_reads_none G names U WF sw wild doms (steady_of G U)) with (t := t) (U := U);
    [|exact ext_wild_reads | exact ext_doms_reads | | exact (depth_named_closed G t DN) | exact E];
    [apply (reads_steady_of G names U WF)|]; apply (reads_top G names U WF).
Qed.

Theorem topx_result_sanitize sw t R : topx t ->
  peval_ext G names sw (steady_of G U) wild doms t U = Ok R ->
  exists S, sanitize G R = Ok S /\ shaped (filter not_extra (g_L G)) S /\
            forall v, mem (filter not_extra (g_L G)) S v = mem (g_L G) R v.
Proof.
  intros TX E. destruct (topx_peval_ext_total sw t TX) as (R' & E' & SH).
  assert (R' = R) as -> by congruence.
  destruct (restrict_indep_Some not_extra (g_L G) R (wf_nodup _ _ _ WF) SH
              (topx_result_extras_indep sw t R TX E)) as (S & ES & X).
  exists S. unfold sanitize. rewrite ES. auto.
Qed.

Theorem cached_C02_check_trees m ts rs :
  m_ext m = true -> m_sanitize m = false -> m_unsafe_ex m = false ->
  List.Forall topx ts -> check_trees w k m ts cprops cdoms = Ok rs ->
  List.Forall2 (fun t R => shaped (g_L G) R /\
     forall v, mem (g_L G) U v = true -> (mem (g_L G) R v = true <-> sat G names Gamma t v)) ts rs.
Proof.
  intros He Hs Hu F H. eapply Forall2_weaken; [exact F | exact (ct_ext_peval m ts rs He Hu Hs F H)|].
  intros t R (_ & _ & SC) E.
  exact (peval_ext_correct G names U WF Gamma _ wild doms wild_ok doms_ok t R SC E).
Qed.

(** inside the unit the result is exact: its intersection with the unit is the set of the
    valuations of the unit that satisfy the formula *)
Theorem cached_C03_ext_in_unit m ts rs :
  m_ext m = true -> m_sanitize m = false -> m_unsafe_ex m = false ->
  List.Forall topx ts -> check_trees w k m ts cprops cdoms = Ok rs ->
  List.Forall2 (fun t R => forall v,
     mem (g_L G) (tand R U) v = true <-> (mem (g_L G) U v = true /\ sat G names Gamma t v)) ts rs.
Proof.
  intros He Hs Hu F H.
  pose proof (cached_C02_check_trees m ts rs He Hs Hu F H) as F2.
  clear - F2 WF. induction F2 as [|t R ts rs [SH E] _ IH]; constructor; [|exact IH].
  intro v. rewrite (mem_tand (g_L G) R U v SH (wf_U_shaped _ _ _ WF)), andb_true_iff.
  split.
  - intros [A B]. split; [exact B | apply (E v B), A].
  - intros [B S]. split; [apply (E v B), S | exact B].
Qed.

Theorem cached_C03_ext_closed_ignores_copies m ts rs :
  m_ext m = true -> m_sanitize m = false -> m_unsafe_ex m = false ->
  List.Forall topx ts -> check_trees w k m ts cprops cdoms = Ok rs ->
  List.Forall (fun R => forall v v',
                 (forall j, v (TP j) = v' (TP j)) -> (forall i, v (TS i) = v' (TS i)) ->
                 mem (g_L G) R v = mem (g_L G) R v') rs.
Proof.
  intros He Hs Hu F H.
  apply (Forall2_Forall_r _ _ _ ts rs F (ct_ext_peval m ts rs He Hu Hs F H)).
  intros t R TX E v v' H1 H2. apply (topx_result_extras_indep _ t R TX E).
  intros [j|i|i e] X; [apply H1 | apply H2 | discriminate X].
Qed.

(** ** C12: inside the unit the pattern switch is irrelevant *)

Theorem cached_C12_ext_in_unit m m' ts rs rs' :
  m_ext m = true -> m_ext m' = true -> m_sanitize m = false -> m_sanitize m' = false ->
  m_unsafe_ex m = false -> m_unsafe_ex m' = false ->
  List.Forall topx ts ->
  check_trees w k m ts cprops cdoms = Ok rs -> check_trees w k m' ts cprops cdoms = Ok rs' ->
  List.Forall2 (fun R R' => forall v, mem (g_L G) U v = true -> mem (g_L G) R v = mem (g_L G) R' v) rs rs'.
Proof.
  intros He He' Hs Hs' Hu Hu' F H H'.
  eapply Forall2_join; [exact F | exact (cached_C02_check_trees m ts rs He Hs Hu F H)
                        | exact (cached_C02_check_trees m' ts rs' He' Hs' Hu' F H') |].
  intros t R R' _ [_ E] [_ E'] v Hv. apply eq_true_iff_eq. rewrite (E v Hv), (E' v Hv). reflexivity.
Qed.

(** ** C14: [check_trees] on validated extended trees *)

Theorem cached_C14_ext_check_trees_total m ts :
  m_ext m = true -> m_unsafe_ex m = false -> List.Forall topx ts ->
  exists rs, check_trees w k m ts cprops cdoms = Ok rs /\ length rs = length ts.
Proof.
  intros He Hu F. rewrite (ctmX m ts He Hu F).
  destruct (mapM_total (singleX w k cprops cdoms m) _ (fun _ _ => True) ts F) as (rs & E & F2).
  - intros t FT. destruct (topx_peval_ext_total (swm m) t FT) as (R & E & _).
    unfold singleX. rewrite E. cbn [bind]. destruct (m_sanitize m); [|exists R; auto].
    destruct (topx_result_sanitize (swm m) t R FT E) as (S & -> & _). exists S. auto.
  - exists rs. split; [exact E | symmetry; exact (Forall2_length_eq _ _ _ F2)].
Qed.

(** ** C15 for extended formulae: sanitised = raw *)

Theorem cached_C15_ext_sanitize_eq_raw m m' ts rs :
  m_ext m = true -> m_ext m' = true -> m_unsafe_ex m = false -> m_unsafe_ex m' = false ->
  m_sanitize m = false -> m_sanitize m' = true -> m_nopatterns m = m_nopatterns m' ->
  List.Forall topx ts ->
  check_trees w k m ts cprops cdoms = Ok rs ->
  exists ss, check_trees w k m' ts cprops cdoms = Ok ss
    /\ List.Forall2 (fun R S => shaped (filter not_extra (g_L G)) S /\
                       forall v, mem (filter not_extra (g_L G)) S v = mem (g_L G) R v) rs ss.
Proof.
  intros He He' Hu Hu' Hs Hs' Hp F H.
  pose proof (ct_ext_peval m ts rs He Hu Hs F H) as F2.
  rewrite (ctmX m' ts He' Hu' F). clear H.
  induction F2 as [|t R ts rs E _ IH]; cbn [mapM].
  - exists []. split; [reflexivity | constructor].
  - inversion F as [|? ? FT F']; subst. destruct (IH F') as (ss & -> & B).
    unfold singleX at 1. rewrite <- Hp, E, Hs'. cbn [bind].
    destruct (topx_result_sanitize (swm m) t R FT E) as (S & -> & SH & HM). cbn [bind].
    exists (S :: ss). split; [reflexivity|]. constructor; [split; assumption | exact B].
Qed.

End ExtWorld.

(** ** the extended string entry point: validation, classified *)

Section ValidateXCases.
Variable ea : N -> bool.
Variable props : list str.
Variable k : nat.
Variable ctx : list (str * tt).

(** every label of the formula (wild-card proposition or domain) is bound in the context
    (another predicate than [Termination.labels_known], which this name hides from here on) *)
Definition labels_known (t : tree) : Prop :=
  forall l, has_wild l t \/ has_dom l t -> alookup str_eqb l ctx <> None.
Definition label_missing (t : tree) : Prop :=
  exists l, (has_wild l t \/ has_dom l t) /\ alookup str_eqb l ctx = None.

Lemma labels_known_not_missing t : labels_known t -> ~ label_missing t.
Proof. intros K (l & H & N). exact (K l H N). Qed.

Lemma labels_known_rename t scope : labels_known (rename scope t) <-> labels_known t.
Proof.
  unfold labels_known. split; intros K l H; apply K; revert H;
    rewrite (has_wild_rename l t scope), (has_dom_rename l t scope); tauto.
Qed.

Lemma label_missing_rename t scope : label_missing (rename scope t) <-> label_missing t.
Proof.
  unfold label_missing. split; intros (l & H & N); exists l; (split; [|exact N]); revert H;
    rewrite (has_wild_rename l t scope), (has_dom_rename l t scope); tauto.
Qed.

Lemma pick_context_cases labels :
  (exists r, pick_context labels ctx = Ok r /\ forall l, In l labels -> alookup str_eqb l ctx <> None)
  \/ (pick_context labels ctx = Err EMissingContext
      /\ exists l, In l labels /\ alookup str_eqb l ctx = None).
Proof.
  induction labels as [|l labels IH]; cbn [pick_context].
  - left. exists []. split; [reflexivity | intros l []].
  - destruct (alookup str_eqb l ctx) as [s|] eqn:E.
    + destruct IH as [(r & -> & K) | (-> & l' & IN & N)]; cbn [bind].
      * left. eexists. split; [reflexivity|]. intros l0 [<- | IN]; [congruence | apply K, IN].
      * right. split; [reflexivity|]. exists l'. split; [right; exact IN | exact N].
    + right. split; [reflexivity|]. exists l. split; [left; reflexivity | exact E].
Qed.

Lemma divide_cases t :
  (exists cp cd, divide_wild_cards t ctx = Ok (cp, cd) /\ labels_known t)
  \/ (divide_wild_cards t ctx = Err EMissingContext /\ label_missing t).
Proof.
  unfold divide_wild_cards. pose proof (collect_wild_iff t ([], [])) as CW.
  destruct (collect_wild t ([], [])) as [ps ds]. cbn [fst snd In] in CW.
  destruct (pick_context_cases ps) as [(cp & -> & K1) | (-> & l & IN & N)]; cbn [bind].
  - destruct (pick_context_cases ds) as [(cd & -> & K2) | (-> & l & IN & N)]; cbn [bind].
    + left. exists cp, cd. split; [reflexivity|].
      intros l [H | H]; [apply K1 | apply K2]; apply (CW l); left; exact H.
    + right. split; [reflexivity|]. exists l. split; [|exact N].
      destruct (proj1 (proj2 (CW l)) IN) as [H | []]. right. exact H.
  - right. split; [reflexivity|]. exists l. split; [|exact N].
    destruct (proj1 (proj1 (CW l)) IN) as [H | []]. left. exact H.
Qed.

(** verdict on a formula string (extended syntax) *)
Definition acceptedx (f : str) : Prop :=
  exists t, parse_formula ea true f = Ok t /\ tree_ok props k t /\ labels_known t.

Definition rejectedx (f : str) (e : errkind) : Prop :=
  (tokenize ea true f = Err ELex /\ e = ELex)
  \/ (exists ts, tokenize ea true f = Ok ts /\ parse_tokens ts = Err EParse /\ e = EParse)
  \/ (exists t, parse_formula ea true f = Ok t
                /\ (tree_rejected props k t e
                    \/ (tree_ok props k t /\ label_missing t /\ e = EMissingContext))).

(** with every formula parsed: the verdicts are those of the trees *)
Definition treex_ok (t : tree) : Prop := tree_ok props k t /\ labels_known t.
Definition treex_rejected (t : tree) (e : errkind) : Prop :=
  tree_rejected props k t e \/ (tree_ok props k t /\ label_missing t /\ e = EMissingContext).

(** the extended syntax as an instance of [Round] (NoPanic.v): the context check accepts
    known labels and rejects a missing one *)
Lemma ext_tree_accepts t : treex_ok t ->
  exists cp cd, validate_tree true props k ctx t = Ok (rename [] t, cp, cd).
Proof.
  intros [OK K]. unfold validate_tree. rewrite (scope_check_ok props k t OK). cbn [bind context_check].
  destruct (divide_cases (rename [] t)) as [(cp & cd & -> & _) | (_ & M)]; [exists cp, cd; reflexivity|].
  destruct (labels_known_not_missing t K (proj1 (label_missing_rename t []) M)).
Qed.

Lemma ext_tree_rejects t e : treex_rejected t e -> validate_tree true props k ctx t = Err e.
Proof.
  unfold validate_tree. intros [RJ | (OK & M & ->)]; [rewrite (scope_check_rejects props k t e RJ); reflexivity|].
  rewrite (scope_check_ok props k t OK). cbn [bind context_check].
  destruct (divide_cases (rename [] t)) as [(cp & cd & _ & K) | (-> & _)]; [|reflexivity].
  destruct (labels_known_not_missing t (proj1 (labels_known_rename t []) K) M).
Qed.

Lemma ext_tree_cases t : treex_ok t \/ exists e, treex_rejected t e.
Proof.
  destruct (tree_ok_or_rejected props k t) as [OK | [e R]]; [|right; exists e; left; exact R].
  destruct (divide_cases t) as [(cp & cd & _ & K) | (_ & M)]; [left; split; assumption|].
  right. exists EMissingContext. right. auto.
Qed.

Lemma classifyx f : acceptedx f \/ exists e, rejectedx f e.
Proof. exact (classify ea true _ _ ext_tree_cases f). Qed.

Lemma acceptedx_not_rejectedx f e : acceptedx f -> ~ rejectedx f e.
Proof. exact (accepted_not_rejectedG ea true props k ctx _ _ ext_tree_accepts ext_tree_rejects f e). Qed.

Lemma rejectedx_unique f e e' : rejectedx f e -> rejectedx f e' -> e = e'.
Proof. exact (rejectedG_unique ea true props k ctx _ ext_tree_rejects f e e'). Qed.

Lemma rejectedx_class f e : rejectedx f e ->
  e = ELex \/ e = EParse \/ e = EFreeVar \/ e = ERequantified \/ e = EUnknownProp
  \/ e = EVarSupport \/ e = EMissingContext.
Proof.
  intros [[_ ->] | [[ts [_ [_ ->]]] | [t [_ [[V | [_ [_ ->]]] | [_ [_ ->]]]]]]]; auto 10.
  destruct (scope_violation_class _ _ _ _ V) as [-> | [-> | ->]]; auto 10.
Qed.

Theorem validate_all_casesx fs :
  (exists ts cp cd, validate_all ea true props k ctx fs = Ok (ts, cp, cd)
                    /\ length ts = length fs /\ List.Forall acceptedx fs)
  \/ (exists e, validate_all ea true props k ctx fs = Err e
                /\ first_reject acceptedx rejectedx fs e).
Proof.
  destruct (validate_all_casesG ea true props k ctx _ _ ext_tree_accepts ext_tree_rejects ext_tree_cases fs)
    as [(ts & cp & cd & V & F) | R]; [left | right; exact R].
  exists ts, cp, cd. split; [exact V|]. split; [symmetry; exact (Forall2_length_eq _ _ _ F)|].
  revert F. apply Forall2_left. intros f t' (t & HP & OK & _). exists t. auto.
Qed.

Lemma first_reject_validatex fs e :
  first_reject acceptedx rejectedx fs e -> validate_all ea true props k ctx fs = Err e.
Proof. exact (first_reject_validateG ea true props k ctx _ _ ext_tree_accepts ext_tree_rejects fs e). Qed.

Lemma first_reject_parsedx fs ts e :
  Forall2 (fun f t => parse_formula ea true f = Ok t) fs ts ->
  (first_reject acceptedx rejectedx fs e <-> first_reject treex_ok treex_rejected ts e).
Proof. apply first_reject_Forall2; intros f t HP; [apply acceptedG_parsed | apply rejectedG_parsed]; exact HP. Qed.

End ValidateXCases.

Section ExtEntry.
Variable ea : N -> bool.
Variable w : world.
Variable k : nat.
Hypothesis WOK : world_ok w.
Variable ctx : list (str * tt).
Hypothesis ctx_shaped : forall l s, alookup str_eqb l ctx = Some s -> shaped (Lpn (w_p w) (w_n w)) s.

Local Notation G := (genv_of w k).
Local Notation U := (unit_of w k).
Local Notation names := (w_names w).
(** the meaning of the labels: membership in the user's sets (lifted to the spare copies) *)
Local Notation GammaC := (Gamma_of G (ctx_lifted w k ctx)).
Local Notation parsedx fs ts :=
  (List.Forall2 (fun f t => parse_and_minimize ea true names f = Ok t) fs ts).
Local Notation acceptedx := (acceptedx ea names k ctx).
Local Notation rejectedx := (rejectedx ea names k ctx).

Lemma model_check_ext_inv m fs rs :
  m_ext m = true -> model_check ea w k m ctx fs = Ok rs ->
  exists ts cp cd, validate_all ea true names k ctx fs = Ok (ts, cp, cd)
                   /\ check_trees w k m ts cp cd = Ok rs.
Proof.
  intros He H. rewrite <- He. apply model_check_ok_inv, H.
Qed.

Theorem cached_C02_model_check m fs rs :
  m_ext m = true -> m_sanitize m = false -> m_unsafe_ex m = false ->
  model_check ea w k m ctx fs = Ok rs ->
  exists ts, parsedx fs ts /\
    List.Forall2 (fun t R => shaped (g_L G) R /\
       forall v, mem (g_L G) U v = true -> (mem (g_L G) R v = true <-> sat G names GammaC t v)) ts rs.
Proof.
  intros He Hs Hu H. destruct (model_check_ext_inv m fs rs He H) as (ts & cp & cd & V & C).
  destruct (ext_entry_hyps ea w k ctx fs ts cp cd ctx_shaped V) as (Gx & WO & DO & F).
  exists ts. split; [exact (validate_all_parsed _ _ _ _ _ _ _ _ _ V)|].
  exact (cached_C02_check_trees ea w k WOK cp cd GammaC Gx WO DO m ts rs
           He Hs Hu F C).
Qed.

Theorem cached_C03_ext_model_check m fs rs :
  m_ext m = true -> m_sanitize m = false -> m_unsafe_ex m = false ->
  model_check ea w k m ctx fs = Ok rs ->
  (exists ts, parsedx fs ts /\
     List.Forall2 (fun t R => forall v,
       mem (g_L G) (tand R U) v = true <-> (mem (g_L G) U v = true /\ sat G names GammaC t v)) ts rs)
  /\ List.Forall (fun R => forall v v',
                    (forall j, v (TP j) = v' (TP j)) -> (forall i, v (TS i) = v' (TS i)) ->
                    mem (g_L G) R v = mem (g_L G) R v') rs.
Proof.
  intros He Hs Hu H. destruct (model_check_ext_inv m fs rs He H) as (ts & cp & cd & V & C).
  destruct (ext_entry_hyps ea w k ctx fs ts cp cd ctx_shaped V) as (Gx & WO & DO & F). split.
  - exists ts. split; [exact (validate_all_parsed _ _ _ _ _ _ _ _ _ V)|].
    exact (cached_C03_ext_in_unit ea w k WOK cp cd GammaC Gx WO DO m ts rs
             He Hs Hu F C).
  - exact (cached_C03_ext_closed_ignores_copies ea w k WOK cp cd GammaC
             Gx WO DO m ts rs He Hs Hu F C).
Qed.

Theorem cached_C12_ext_model_check m m' fs rs rs' :
  m_ext m = true -> m_ext m' = true -> m_sanitize m = false -> m_sanitize m' = false ->
  m_unsafe_ex m = false -> m_unsafe_ex m' = false ->
  model_check ea w k m ctx fs = Ok rs -> model_check ea w k m' ctx fs = Ok rs' ->
  List.Forall2 (fun R R' => forall v, mem (g_L G) U v = true -> mem (g_L G) R v = mem (g_L G) R' v) rs rs'.
Proof.
  intros He He' Hs Hs' Hu Hu' H H'.
  destruct (model_check_ext_inv m fs rs He H) as (ts & cp & cd & V & C).
  destruct (model_check_ext_inv m' fs rs' He' H') as (ts' & cp' & cd' & V' & C').
  rewrite V in V'. injection V' as <- <- <-.
  destruct (ext_entry_hyps ea w k ctx fs ts cp cd ctx_shaped V) as (Gx & WO & DO & F).
  exact (cached_C12_ext_in_unit ea w k WOK cp cd GammaC Gx WO DO
           m m' ts rs rs' He He' Hs Hs' Hu Hu' F C C').
Qed.

(** ** C14, extended mode: sanitised or dirty *)

Theorem cached_C14_ext_cases m fs :
  m_ext m = true -> m_unsafe_ex m = false ->
  (exists rs, model_check ea w k m ctx fs = Ok rs /\ length rs = length fs
              /\ List.Forall acceptedx fs)
  \/ (exists e, model_check ea w k m ctx fs = Err e /\ first_reject acceptedx rejectedx fs e).
Proof.
  intros He Hu.
  destruct (validate_all_casesx ea names k ctx fs) as [(ts & cp & cd & V & LEN & AC) | (e & V & FR)];
    [|right; exists e; split; [apply model_check_invalid; rewrite He; exact V | exact FR]].
  destruct (ext_entry_hyps ea w k ctx fs ts cp cd ctx_shaped V) as (Gx & WO & DO & F).
  rewrite <- He in V. rewrite (model_check_validated _ _ _ _ _ _ _ _ _ V).
  destruct (cached_C14_ext_check_trees_total ea w k WOK cp cd GammaC Gx WO DO m ts He Hu F)
    as (rs & -> & L).
  left. exists rs. split; [reflexivity|]. split; [lia | exact AC].
Qed.

Theorem cached_C14_ext_no_panic m fs :
  m_ext m = true -> m_unsafe_ex m = false ->
  (forall p, model_check ea w k m ctx fs <> Panic p) /\ model_check ea w k m ctx fs <> OutOfFuel.
Proof.
  intros He Hu. exact (cases_no_panic _ _ _ _ (cached_C14_ext_cases m fs He Hu)).
Qed.

Theorem cached_C14_ext_err_iff m fs e :
  m_ext m = true -> m_unsafe_ex m = false ->
  (model_check ea w k m ctx fs = Err e <-> first_reject acceptedx rejectedx fs e).
Proof.
  intros He Hu. split; [apply cases_err, cached_C14_ext_cases; assumption|].
  intro FR. apply model_check_invalid. rewrite He. apply first_reject_validatex, FR.
Qed.

Theorem cached_C14_ext_ok_iff m fs :
  m_ext m = true -> m_unsafe_ex m = false ->
  ((exists rs, model_check ea w k m ctx fs = Ok rs) <-> List.Forall acceptedx fs).
Proof.
  intros He Hu. apply (cases_ok_iff _ _ _ _ (cached_C14_ext_cases m fs He Hu)).
  intros f e. apply acceptedx_not_rejectedx.
Qed.

(** ** C15, extended mode: sanitised = raw *)
Theorem cached_C15_ext_model_check_sanitize_eq_raw m m' fs rs :
  m_ext m = true -> m_ext m' = true -> m_unsafe_ex m = false -> m_unsafe_ex m' = false ->
  m_sanitize m = false -> m_sanitize m' = true -> m_nopatterns m = m_nopatterns m' ->
  model_check ea w k m ctx fs = Ok rs ->
  exists ss, model_check ea w k m' ctx fs = Ok ss
    /\ List.Forall2 (fun R S => shaped (filter not_extra (g_L G)) S /\
                       forall v, mem (filter not_extra (g_L G)) S v = mem (g_L G) R v) rs ss.
Proof.
  intros He He' Hu Hu' Hs Hs' Hp H.
  destruct (model_check_ext_inv m fs rs He H) as (ts & cp & cd & V & C).
  destruct (ext_entry_hyps ea w k ctx fs ts cp cd ctx_shaped V) as (Gx & WO & DO & F).
  rewrite <- He' in V. rewrite (model_check_validated _ _ _ _ _ _ _ _ _ V).
  exact (cached_C15_ext_sanitize_eq_raw ea w k WOK cp cd GammaC Gx WO DO m m' ts rs
           He He' Hu Hu' Hs Hs' Hp F C).
Qed.

Theorem cached_C14_ext_err_iff_parsed m fs ts e :
  m_ext m = true -> m_unsafe_ex m = false ->
  Forall2 (fun f t => parse_formula ea true f = Ok t) fs ts ->
  (model_check ea w k m ctx fs = Err e
   <-> exists ts1 t ts2,
         ts = ts1 ++ t :: ts2
         /\ List.Forall (fun t1 => (well_scoped names [] t1 /\ qdepth t1 <= k)
                                   /\ labels_known ctx t1) ts1
         /\ ((scope_violation names [] t e
              \/ (well_scoped names [] t /\ k < qdepth t /\ e = EVarSupport))
             \/ ((well_scoped names [] t /\ qdepth t <= k) /\ label_missing ctx t
                 /\ e = EMissingContext))).
Proof.
  intros He Hu P. rewrite (cached_C14_ext_err_iff m fs e He Hu).
  rewrite (first_reject_parsedx ea names k ctx fs ts e P).
  apply first_reject_split.
Qed.

End ExtEntry.
