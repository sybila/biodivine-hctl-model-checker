(** The sub-formula cache for EXTENDED formulae (wild-card propositions, quantifier domains).

    Inside a scope whose unit [Uc] is restricted by the domains of enclosing quantifiers a
    cached set may have been computed in a LARGER unit (a cache hit does not look at the
    domains of variables that do not occur in the sub-formula), so at node level the result
    of [eval_node] is only determined INSIDE the current unit:

      [spec_in G Uc R (sat ... t)]   (tier 1, every scope);

    where no enclosing quantifier has a domain ("clean" scope, in particular at top level)
    the result is exactly that of the cache-free evaluator:

      [peval_ext ... t Uc = Ok R]    (tier 2).

    The quantifiers with a domain intersect the result of their body with their unit, which
    restores exactness.

    Two independent facts make up the node-level theorem: every successful [eval_node] leaves
    the open scopes as it found them ([eval_node_frame] of CacheFacts.v, no invariant needed), and under the
    store invariant the result has the two tiers above ([eval_node_storeX]).

    Names.  The suffix [X] marks the extended counterpart of a notion of CacheFacts.v /
    CacheGen.v ([cache_okX], [dups_okX], [hit_okX], [check_trees_mapX], ...); "ehq" in lemma
    names is [eval_hybrid_quantifier].  The definitions are restated, with what each part is
    for, in Properties/C04c.v part B. *)
From Coq Require Import Permutation.
From HCTL Require Import Base Syntax Tokenizer Preprocess Canon MarkDup TT Ops Eval Pipeline Kripke HCTL.
From HCTL Require Import TTFacts OpsFacts FixFacts SemFacts HybridFacts EvalPure Main Termination.
From HCTL Require Import KripkeFacts IndepFacts PrepFacts RoundTrip CanonFacts CanonAlpha MarkDupFacts RenameFacts LayoutFacts NoPanic CacheFacts CopyRel CacheGen LexFacts.
From HCTL Require Import ExtSem ExtFix ExtFacts ExtHybrid ExtEval ExtLink.
From HCTL Require Import BaseFacts.

(** * 1. Preliminaries *)

Lemma sinsert_keys {B} (x : str) (v : B) (l : list (str * B)) y :
  In y (map fst (sinsert x v l)) -> y = x \/ In y (map fst l).
Proof.
  induction l as [|[k' v'] l IH]; cbn [sinsert map fst In].
  - intros [<- | []]. left. reflexivity.
  - destruct (str_eqb x k') eqn:E.
    + cbn [map fst In]. intros [<- | H]; [left; reflexivity | right; right; exact H].
    + destruct (str_ltb x k'); cbn [map fst In].
      * intros [<- | [<- | H]]; [left; reflexivity | right; left; reflexivity | right; right; exact H].
      * intros [<- | H]; [right; left; reflexivity|]. destruct (IH H) as [-> | H']; [left; reflexivity | right; right; exact H'].
Qed.

Lemma sinsert_nodup_fresh {B} (x : str) (v : B) (l : list (str * B)) :
  NoDup (map fst l) -> ~ In x (map fst l) -> NoDup (map fst (sinsert x v l)).
Proof.
  induction l as [|[k' v'] l IH]; cbn [sinsert map fst]; intros ND NI.
  - constructor; [intros [] | constructor].
  - inversion ND as [|? ? NI' ND']; subst. destruct (str_eqb x k') eqn:E.
    + str_eq. exfalso. apply NI. left. symmetry. exact E.
    + destruct (str_ltb x k'); cbn [map fst].
      * constructor; [exact NI | exact ND].
      * constructor; [|apply IH; [exact ND' | intro H; apply NI; right; exact H]].
        intro H. destruct (sinsert_keys x v l k' H) as [-> | H']; [str_eq; congruence | contradiction].
Qed.

Lemma alookup_in_nodup {B} (x : str) (d : B) (l : list (str * B)) :
  NoDup (map fst l) -> In (x, d) l -> alookup str_eqb x l = Some d.
Proof. apply (In_alookup str_eqb str_eqb_eq). Qed.

Lemma canon_domains_single fd x cn : NoDup (map fst fd) -> forall acc,
  canon_domains fd [(x, cn)] acc
  = match alookup str_eqb x fd with Some d => sinsert cn d acc | None => acc end.
Proof.
  induction fd as [|[v d] fd IH]; intros ND acc; cbn [canon_domains alookup]; [reflexivity|].
  inversion ND as [|? ? NI ND']; subst. cbn [map fst] in *.
  destruct (str_eqb v x) eqn:E.
  - str_eq. subst v. rewrite str_eqb_refl. rewrite (IH ND').
    rewrite (proj2 (alookup_None str_eqb str_eqb_eq fd x) NI). reflexivity.
  - assert (str_eqb x v = false) as E' by (str_eq; apply str_eqb_neq; congruence).
    rewrite E'. apply IH, ND'.
Qed.

Lemma foreign_false fd ren : foreign_restriction fd ren = false ->
  forall v d, In (v, d) fd -> amem str_eqb v ren = true \/ d = None.
Proof.
  unfold foreign_restriction. intros H v d IN.
  destruct (amem str_eqb v ren) eqn:A; [left; reflexivity | right].
  destruct d as [dl|]; [|reflexivity]. exfalso.
  assert (existsb (fun vd => negb (amem str_eqb (fst vd) ren)
                   && match snd vd with Some _ => true | None => false end) fd = true) as X.
  { apply existsb_exists. exists (v, Some dl). split; [exact IN|]. cbn [fst snd]. rewrite A. reflexivity. }
  rewrite H in X. discriminate.
Qed.

Section SatRenameExt.
Variable G : genv.
Variable names : list str.
Variable U : tt.
Hypothesis WF : wf_env G names U.
Variable Gamma : str -> val -> Prop.
Hypothesis Gx : ctx_ignores_copies Gamma.

Theorem sat_rename_ext x x0 e e0 : var_of G x = Some e -> var_of G x0 = Some e0 ->
  forall s v w, crel e e0 v w ->
    (sat G names Gamma (vmap (fun _ => x) s) v <-> sat G names Gamma (vmap (fun _ => x0) s) w).
Proof. intros Ex Ex0 s. exact (sat_rename_gen G names U WF Gamma x x0 e e0 Ex Ex0 s (or_intror Gx)). Qed.

End SatRenameExt.

Section ExtTotal.
Variable G : genv.
Variable names : list str.
Variable sw : switches.
Variable steady : tt.
Variable wild doms : list (str * tt).
Local Notation L := (g_L G).
Hypothesis L_nodup : NoDup L.
Hypothesis upd_shaped : forall i, shaped L (upd_of G i).
Hypothesis steady_shaped : shaped L steady.
Hypothesis wild_shaped : forall l s, alookup str_eqb l wild = Some s -> shaped L s.
Hypothesis doms_shaped : forall l s, alookup str_eqb l doms = Some s -> shaped L s.

(** propositions, wild-card labels and domain labels are known ([labels_known] of
    Termination.v under the name the statements of C04c use) *)
Fixpoint knownx (t : tree) : Prop :=
  match t with
  | Terminal (AProp nm) => index_of nm names 0 <> None
  | Terminal (AWild l) => alookup str_eqb l wild <> None
  | Terminal _ => True
  | Unary _ a => knownx a
  | Binary _ a b => knownx a /\ knownx b
  | Hybrid o _ d a =>
      match o, d with
      | Jump, _ | _, None => True
      | _, Some dl => alookup str_eqb dl doms <> None
      end /\ knownx a
  end.

Theorem peval_ext_total : forall t U, shaped L U -> knownx t -> supported G t ->
  total G (peval_ext G names sw steady wild doms t U).
Proof.
  intros t U HU Hk Hs.
  exact (outcome_total G _ _ (conj Hk Hs)
           (peval_ext_outcome G names sw steady wild doms L_nodup upd_shaped steady_shaped
              wild_shaped doms_shaped t U HU)).
Qed.

End ExtTotal.

Lemma name_ok_inert ea p : name_ok ea p -> forallb canon_inert p = true.
Proof.
  intros [_ F]. induction F as [|c p Hc _ IH]; [reflexivity|]. cbn [forallb]. rewrite IH, andb_true_r.
  assert (forall k, is_name_char ea k = false -> N.eqb c k = false) as NE
    by (intros k Hk; destruct (N.eqb_spec c k); [congruence | reflexivity]).
  unfold canon_inert. rewrite !NE by reflexivity. reflexivity.
Qed.

Lemma well_named_linkable ea ext t : well_named ea ext t -> linkable t.
Proof.
  induction t as [a | o c IH | o l IHl r IHr | o x d c IH]; cbn [well_named linkable].
  - destruct a as [nm | y | | | p]; cbn [atom_ok]; try (intros; exact I).
    + intros ((NE & F) & _) r E. subst nm. inversion F as [|? ? Hc _]; subst.
      cbv in Hc. discriminate Hc.
    + intros (_ & N). apply canonize_plain_label, (name_ok_inert ea), N.
  - exact IH.
  - intros [A B]. split; [apply IHl, A | apply IHr, B].
  - intros (_ & _ & W). apply IH, W.
Qed.

(** * 2. The invariants *)

Section CacheX.
Variable ea : N -> bool.
Variable G : genv.
Variable names : list str.
Variable Utop : tt.
Hypothesis WF : wf_env G names Utop.
Variable Gamma : str -> val -> Prop.
Hypothesis Gx : ctx_ignores_copies Gamma.
Variable sw : switches.
Variable wild doms : list (str * tt).
Hypothesis wild_ok : wild_sets_ok G Gamma wild.
Hypothesis doms_ok : dom_sets_ok G Gamma doms.

Local Notation L := (g_L G).
Local Notation st := (steady_of G Utop).
Local Notation pevx := (peval_ext G names sw st wild doms).
Local Notation Sat := (sat G names Gamma).
Local Notation unit_ok := (unit_ok G Utop).
Local Notation scoped := (scoped G).
Local Notation knownx := (knownx names wild doms).

(** static side conditions on an extended (sub-)formula, the [good] of this file *)
Definition gx (t : tree) : Prop :=
  well_named ea true t /\ knownx t /\ supported G t.

Lemma gx_unary o a : gx (Unary o a) -> gx a.
Proof. intros (A & B & C). repeat split; assumption. Qed.
Lemma gx_binary o a b : gx (Binary o a b) -> gx a /\ gx b.
Proof. intros ([A A'] & [B B'] & [C C']). repeat split; assumption. Qed.
Lemma gx_hybrid o x d a : gx (Hybrid o x d a) -> gx a.
Proof. intros ((_ & _ & A) & (_ & B) & (_ & C)). repeat split; assumption. Qed.

(** no quantifier in scope has a domain *)
Definition clean (fd : dommap) : Prop := forall y d, alookup str_eqb y fd = Some d -> d = None.

(** the restrictions the domains in scope put on a valuation *)
Definition restr (fd : dommap) (w : val) : Prop :=
  forall y dl dset e, alookup str_eqb y fd = Some (Some dl) -> alookup str_eqb dl doms = Some dset ->
    var_of G y = Some e -> mem L dset (set_state e w) = true.

(** the evaluation context of a sub-formula found below [d] quantifiers *)
Definition ctxinv (c : ectx) (bound : list nat) (Uc : tt) (d : nat) : Prop :=
  domain_sets c = doms
  /\ unit_ok bound Uc
  /\ NoDup (map fst (free_doms c))
  /\ (forall j, d <= j -> alookup str_eqb (xs (S j)) (free_doms c) = None)
  /\ (forall w, mem L Uc w = true <-> (mem L Utop w = true /\ restr (free_doms c) w)).

(** the result of a node: exact inside the unit; equal to the cache-free result when [C] *)
Definition nres (C : Prop) (t : tree) (Uc R : tt) : Prop :=
  spec_in G Uc R (Sat t) /\ (C -> pevx t Uc = Ok R).

Definition all_none (kd : dommap) : Prop := forall cn d, In (cn, d) kd -> d = None.

Definition key_restr (kd : dommap) (rn : list (str * str)) (w : val) : Prop :=
  forall x0 cn dl dset e0, rn = [(x0, cn)] -> alookup str_eqb cn kd = Some (Some dl) ->
    alookup str_eqb dl doms = Some dset -> var_of G x0 = Some e0 ->
    mem L dset (set_state e0 w) = true.

Definition reg_entry (k : key) (S : tt) (rn : list (str * str)) : Prop :=
  exists t0 d0 bound0 U0,
    gx t0 /\ depth_named d0 t0 /\ is_wild_terminal t0 = false /\ scoped bound0 t0 /\ unit_ok bound0 U0
    /\ canonize (render t0) = (fst k, rn) /\ length rn <= 1
    /\ spec_in G U0 S (Sat t0)
    /\ (forall w, mem L Utop w = true -> key_restr (snd k) rn w -> mem L U0 w = true)
    /\ (all_none (snd k) -> pevx t0 Utop = Ok S).

Definition wild_key_like (k : key) : Prop := exists r, fst k = c_pct :: r.

Definition cache_okX (c : ectx) : Prop :=
  forall k S rn, In (k, (S, rn)) (cache c) -> wild_key_like k \/ reg_entry k S rn.

Definition dups_okX (c : ectx) : Prop :=
  forall k m, In (k, m) (duplicates c) -> wild_key_like k \/ single_text ea true (fst k).

Definition wild_present (c : ectx) : Prop :=
  forall p s, alookup str_eqb p wild = Some s ->
    amem key_eqb (wild_key p) (duplicates c) = true
    /\ alookup key_eqb (wild_key p) (cache c) = Some (s, []).

Definition storeinv (c : ectx) : Prop := cache_okX c /\ dups_okX c /\ wild_present c.

(** the scopes and the domain sets are those before the node; CacheFacts.v proves
    [eval_node_frame] and its lemmas for this conjunction written out *)
Definition frame (c c' : ectx) : Prop :=
  free_doms c' = free_doms c /\ domain_sets c' = domain_sets c.

Lemma wild_copies l s : alookup str_eqb l wild = Some s -> shaped L s /\ ignores_copies G s.
Proof.
  intro E. destruct (wild_ok l s E) as [SS ES]. split; [exact SS|]. intros v w H1 H2.
  apply eq_true_iff_eq. rewrite !ES. apply (Gamma_agree Gamma Gx).
  intros [j|i|i e'] Hg; [apply H1 | apply H2 | discriminate Hg].
Qed.

Lemma doms_copies l s : alookup str_eqb l doms = Some s -> shaped L s /\ ignores_copies G s.
Proof.
  intro E. destruct (doms_ok l s E) as (SS & XS & _). split; [exact SS|]. intros v w H1 H2.
  apply XS. intros [j|i|i e'] Hg; [apply H1 | apply H2 | discriminate Hg].
Qed.

(** in a clean scope the unit is the top-level unit *)
Lemma clean_unit c bound Uc d : ctxinv c bound Uc d -> clean (free_doms c) -> Uc = Utop.
Proof.
  intros (_ & HU & _ & _ & HR) CL. apply (tt_ext L).
  - apply (wf_nodup _ _ _ WF).
  - apply (uo_shaped _ _ _ _ HU).
  - apply (wf_U_shaped _ _ _ WF).
  - intro w. apply eq_true_iff_eq. rewrite HR. split; [tauto|]. intro H. split; [exact H|].
    intros y dl dset e E. apply CL in E. discriminate E.
Qed.

(** agreement inside the unit transfers the weak invariant *)
Lemma spec_in_sub Uc U0 S P : (forall w, mem L Uc w = true -> mem L U0 w = true) ->
  spec_in G U0 S P -> spec_in G Uc S P.
Proof. intros H [SS E]. split; [exact SS|]. intros w Hw. apply E, H, Hw. Qed.

(** the quantifier only looks at its body inside the (restricted) unit *)
Lemma ehq_exact U Ur o e a a' : shaped L Ur -> shaped L a -> shaped L a' ->
  (forall w, mem L Ur w = true -> mem L a w = mem L a' w) ->
  eval_hybrid_quantifier G U Ur o e a = eval_hybrid_quantifier G U Ur o e a'.
Proof.
  intros SR Sa Sa' H. pose proof (wf_nodup _ _ _ WF) as ND.
  assert (tand a Ur = tand a' Ur) as E1.
  { apply (tt_ext L); try apply shaped_tand; try assumption. intro w.
    rewrite !mem_tand by assumption. destruct (mem L Ur w) eqn:E; [rewrite (H w E); reflexivity|].
    rewrite !andb_false_r. reflexivity. }
  assert (eval_neg Ur a = eval_neg Ur a') as E2.
  { unfold eval_neg. apply (tt_ext L); try apply shaped_tminus; try assumption. intro w.
    rewrite !mem_tminus by assumption. destruct (mem L Ur w) eqn:E; [rewrite (H w E); reflexivity|].
    reflexivity. }
  destruct o; cbn [eval_hybrid_quantifier]; rewrite ?E1, ?E2; reflexivity.
Qed.

Lemma set_state_copy_from dset e0 e w : extras_indep G dset ->
  mem L dset (set_state e0 (copy_from e0 e w)) = mem L dset (set_state e w).
Proof.
  intro XD. apply XD. intros [j|i|i e'] Hg; cbn [set_state copy_from]; try reflexivity.
  - rewrite Nat.eqb_refl. reflexivity.
  - discriminate Hg.
Qed.

Theorem hit_okX t c bound Uc d canon ren S rn :
  gx t -> depth_named d t -> ctxinv c bound Uc d ->
  canonize (render t) = (canon, ren) ->
  reg_entry (canon, canon_domains (free_doms c) ren []) S rn ->
  exists R, rename_back G rn ren S = Ok R /\ nres (clean (free_doms c)) t Uc R.
Proof.
  (* The entry was stored for a tree [t0] with the same canonical text; by [hit_names] either
     [t = t0] with no variable, or the two differ in the name of their only variable and
     [rename_back] moves copy [e0] to copy [e].  Tier 1: the current unit lies, after that move,
     inside the unit [U0] of the entry, because the key carries the domain of the variable
     ([INU]); then [sat_rename_ext].  Tier 2: a clean scope has a key without domains ([AN]),
     so the entry is the cache-free result at the top-level unit; then [peval_ext_rename]. *)
  intros GT DN CI CT (t0 & d0 & bound0 & U0 & GT0 & DN0 & NW0 & SC0 & HU0 & CT0 & LEN & SP0 & PR & T2).
  cbn [fst snd] in CT0, PR, T2.
  pose proof GT as (W & Kn & Su). pose proof GT0 as (W0 & Kn0 & Su0).
  pose proof CI as (_ & HU & NDf & _ & HR).
  assert (forall w, mem L Uc w = true -> mem L Utop w = true) as USub by apply (uo_sub _ _ _ _ HU).
  destruct (hit_names ea true G d d0 t t0 canon ren rn S W W0 DN DN0 Su Su0 CT CT0 LEN)
    as [(-> & -> & <-) | (x0 & x & cn & e0 & e & -> & -> & I0 & I1 & RB & ET0 & ET & SAME)].
  - (* no variable at all: the same tree *)
    exists S. split; [reflexivity|].
    rewrite canon_domains_nil in PR, T2. split.
    + eapply spec_in_sub; [|exact SP0]. intros w Hw. apply PR; [apply USub, Hw|].
      intros ? ? ? ? ? X. discriminate X.
    + intro CL. rewrite (clean_unit c bound Uc d CI CL). apply T2. intros ? ? [].
  - rewrite (canon_domains_single _ x cn NDf) in PR, T2.
    destruct (var_id_of G x0 e0 I0) as [V0 K0]. destruct (var_id_of G x e I1) as [V K1].
    exists (substitute_hctl_var G S e0 e). split; [exact RB|].
    destruct SP0 as [SS ES].
    (* the restrictions of the key hold at the renamed valuation *)
    assert (forall w, mem L Uc w = true -> mem L U0 (copy_from e0 e w) = true) as INU.
    { intros w Hw. apply PR.
      - rewrite <- (USub w Hw). apply (wf_U_colour _ _ _ WF). intro j. reflexivity.
      - intros x0' cn' dl dset e0' X LK ED V0'. injection X as <- <-.
        assert (e0' = e0) by congruence. subst e0'.
        destruct (alookup str_eqb x (free_doms c)) as [dx|] eqn:FX; [|discriminate LK].
        cbn [sinsert alookup] in LK. rewrite str_eqb_refl in LK. injection LK as ->.
        destruct (doms_ok dl dset ED) as (_ & XD & _).
        rewrite (set_state_copy_from dset e0 e w XD).
        apply (proj1 (HR w) Hw) with (y := x) (dl := dl); assumption. }
    assert (clean (free_doms c) -> all_none
              (match alookup str_eqb x (free_doms c) with Some d1 => sinsert cn d1 [] | None => [] end)) as AN.
    { intros CL cn' d' IN. destruct (alookup str_eqb x (free_doms c)) as [dx|] eqn:FX; [|destruct IN].
      cbn [sinsert In] in IN. destruct IN as [X | []]. injection X as <- <-. exact (CL x dx FX). }
    destruct (Nat.eq_dec e0 e) as [EQ | NE].
    + (* same copy: same tree *)
      subst e0. pose proof (SAME eq_refl) as ->. unfold substitute_hctl_var. rewrite Nat.eqb_refl. split.
      * split; [exact SS|]. intros w Hw. apply ES. specialize (INU w Hw).
        rewrite <- INU. apply mem_agree. intros g Hg. destruct g as [j1|i|i e']; cbn [copy_from]; try reflexivity.
        destruct (Nat.eqb e e') eqn:Q; [|reflexivity]. apply Nat.eqb_eq in Q. subst e'. reflexivity.
      * intro CL. rewrite (clean_unit c bound Uc d CI CL). apply T2, AN, CL.
    + split.
      * split; [apply (shaped_substitute G), SS|]. intros w Hw.
        rewrite (mem_substitute G names Utop WF S e0 e w SS K0 K1 NE).
        apply (iff_trans (ES _ (INU w Hw))). rewrite ET. symmetry.
        pose proof (sat_rename_ext G names Utop WF Gamma Gx x x0 e e0 V V0 t0 w _ (crel_copy_from e e0 w)) as K.
        rewrite ET0 in K. exact K.
      * intro CL. rewrite (clean_unit c bound Uc d CI CL). rewrite ET.
        specialize (T2 (AN CL)). rewrite <- ET0 in T2.
        exact (peval_ext_rename G names Utop WF sw st wild doms x x0 e e0 t0 S (wf_steady_shaped G names Utop WF) (steady_of_ignores_copies G names Utop WF)
                 wild_copies doms_copies I1 I0 NE T2).
Qed.

(** ** the store: hits and saves keep the invariants *)

Lemma non_wild_text t : gx t -> is_wild_terminal t = false ->
  forall r, fst (canonize (render t)) <> c_pct :: r.
Proof. intros (W & _) NW. apply render_head; [eapply well_named_linkable; exact W | exact NW]. Qed.

Lemma not_wild_key (k : key) p : (forall r, fst k <> c_pct :: r) -> wild_key p <> k.
Proof. intros H E. subst k. apply (H (p ++ [c_pct])). reflexivity. Qed.

Lemma wild_present_cache_other c k (f : list (key * (tt * list (str * str))) -> list (key * (tt * list (str * str)))) :
  (forall r, fst k <> c_pct :: r) ->
  (forall k', k' <> k -> alookup key_eqb k' (f (cache c)) = alookup key_eqb k' (cache c)) ->
  wild_present c -> wild_present (set_cache c (f (cache c))).
Proof.
  intros NK HF WP p s E. destruct (WP p s E) as [A B]. split; [exact A|].
  cbn [cache set_cache]. rewrite HF; [exact B | apply not_wild_key, NK].
Qed.

Lemma hit_ctx_okX t k c : (forall r, fst k <> c_pct :: r) -> storeinv c -> storeinv (hit_ctx t k c).
Proof.
  intros NK (CO & DO & WP). destruct (hit_ctx_sub t k c) as (HC & HD & HO). split; [|split].
  - intros k' S rn IN. exact (CO k' S rn (HC _ _ IN)).
  - intros k' m IN. destruct (HD k' m IN) as [m' IN']. exact (DO k' m' IN').
  - intros p s Ep. destruct (WP p s Ep) as [A B].
    destruct (HO (wild_key p) (not_wild_key k p NK)) as [EC ED]. rewrite EC, ED. split; assumption.
Qed.

Lemma finishX k ren save R c1 :
  (save = true -> reg_entry k R ren) -> (forall r, fst k <> c_pct :: r) -> storeinv c1 ->
  exists c', finish_at k ren save (R, c1) = Ok (R, c') /\ storeinv c'.
Proof.
  intros HE NK (CO & DO & WP). unfold finish_at. destruct save; [|exists c1; split; [reflexivity | exact (conj CO (conj DO WP))]].
  eexists. split; [reflexivity|]. cbn [fst snd]. split; [|split; [exact DO|]].
  - intros k' S rn [EQ | IN].
    + injection EQ as <- <- <-. right. apply HE. reflexivity.
    + apply (CO k' S rn). eapply in_aremove; exact IN.
  - exact (wild_present_cache_other c1 k (ainsert key_eqb k (R, ren)) NK
             (fun k' NE => alookup_ainsert_other key_eqb key_eqb_eq k' k (R, ren) (cache c1) NE) WP).
Qed.

(** the entry stored at the end of a cache miss *)
Lemma save_entry t c bound Uc d R :
  gx t -> depth_named d t -> is_wild_terminal t = false -> scoped bound t ->
  ctxinv c bound Uc d -> nres (clean (free_doms c)) t Uc R -> dups_okX c ->
  amem key_eqb (key_of c t) (duplicates c)
  && negb (foreign_restriction (free_doms c) (snd (canonize (render t)))) = true ->
  reg_entry (key_of c t) R (snd (canonize (render t))).
Proof.
  intros GT DN NW SC CI [SP EX] DO SV. apply andb_true_iff in SV. destruct SV as [DUP NF].
  apply negb_true_iff in NF. pose proof GT as (W & _).
  pose proof CI as (_ & HU & NDf & _ & HR).
  destruct (in_amem _ _ DUP) as [m IN].
  assert (length (snd (canonize (render t))) <= 1) as LEN.
  { destruct (DO _ _ IN) as [[r Hr] | ST]; [exfalso; exact (non_wild_text t GT NW r Hr)|].
    apply (ST t d W DN). reflexivity. }
  set (ren := snd (canonize (render t))) in *.
  (* a restricted variable in scope is the variable of the one-entry map *)
  assert (forall y dl, alookup str_eqb y (free_doms c) = Some (Some dl) ->
            exists cn, ren = [(y, cn)] /\ snd (key_of c t) = [(cn, Some dl)]) as ONE.
  { intros y dl FY. destruct (foreign_false _ _ NF y (Some dl) (alookup_in str_eqb str_eqb_eq _ _ _ FY)) as [AM | X];
      [|discriminate X].
    destruct (short_list _ LEN) as [E0 | [[x cn] E1]].
    - rewrite E0 in AM. discriminate AM.
    - rewrite E1 in AM. unfold amem in AM. cbn [alookup] in AM.
      destruct (str_eqb y x) eqn:Q; [|discriminate AM]. str_eq. subst x.
      exists cn. split; [exact E1|]. unfold key_of. cbn [snd]. fold ren. rewrite E1.
      rewrite (canon_domains_single _ y cn NDf), FY. reflexivity. }
  exists t, d, bound, Uc. split; [exact GT|]. split; [exact DN|]. split; [exact NW|].
  split; [exact SC|]. split; [exact HU|].
  split; [unfold key_of; cbn [fst]; subst ren; destruct (canonize (render t)); reflexivity|].
  split; [exact LEN|]. split; [exact SP|]. split.
  - intros w Hw KR. apply HR. split; [exact Hw|]. intros y dl dset e FY ED VY.
    destruct (ONE y dl FY) as (cn & E1 & E2).
    apply (KR y cn dl dset e E1); try assumption. rewrite E2. cbn [alookup]. rewrite str_eqb_refl. reflexivity.
  - intro AN.
    assert (clean (free_doms c)) as CL.
    { intros y [dl|] FY; [|reflexivity]. destruct (ONE y dl FY) as (cn & _ & E2).
      apply (AN cn). rewrite E2. left. reflexivity. }
    specialize (EX CL). rewrite (clean_unit c bound Uc d CI CL) in EX. exact EX.
Qed.

(** ** one step of the evaluator, on results that are exact inside the unit *)

(* one step of [peval_ext] at a node that is not a pattern *)
Ltac pevx_unfold :=
  rewrite peval_ext_eq; cbn [is_attractor_pattern is_fixed_point_pattern];
  rewrite ?andb_false_r; cbn [peval_ext_body].

Lemma unary_stepX bound Uc (C : Prop) o a A :
  unit_ok bound Uc -> nres C a Uc A ->
  exists R, eval_unary G Uc st o A = Ok R /\ nres C (Unary o a) Uc R.
Proof.
  intros HU [SP EX].
  destruct (eval_unary_total G st (wf_nodup _ _ _ WF) (wf_upd_shaped _ _ _ WF)
              (wf_steady_shaped G names Utop WF) o Uc A (uo_shaped _ _ _ _ HU) (proj1 SP)) as (R & E & _).
  exists R. split; [exact E|]. split.
  - eapply (in_unary_ok G names Utop WF); eassumption.
  - intro HC. pevx_unfold. rewrite (EX HC). exact E.
Qed.

Lemma binary_stepX bound Uc (C : Prop) o a b A B :
  unit_ok bound Uc -> nres C a Uc A -> nres C b Uc B ->
  exists R, eval_binary G Uc st o A B = Ok R /\ nres C (Binary o a b) Uc R.
Proof.
  intros HU [SPa EXa] [SPb EXb].
  destruct (eval_binary_total G st (wf_nodup _ _ _ WF) (wf_upd_shaped _ _ _ WF)
              (wf_steady_shaped G names Utop WF) o Uc A B (uo_shaped _ _ _ _ HU) (proj1 SPa) (proj1 SPb)) as (R & E & _).
  exists R. split; [exact E|]. split.
  - eapply (in_binary_ok G names Utop WF); eassumption.
  - intro HC. pevx_unfold. rewrite (EXa HC), (EXb HC). exact E.
Qed.

Lemma terminal_stepX bound Uc (C : Prop) a :
  unit_ok bound Uc ->
  match a with
  | AProp nm => forall i, index_of nm names 0 = Some i -> nres C (Terminal a) Uc (eval_prop G Uc i)
  | AVar y => forall e, hctl_var_id G y = Ok e -> nres C (Terminal a) Uc (eval_hctl_var G Uc e)
  | ATrue => nres C (Terminal a) Uc Uc
  | AFalse => nres C (Terminal a) Uc (empty G)
  | AWild l => forall s, alookup str_eqb l wild = Some s -> nres C (Terminal a) Uc s
  end.
Proof.
  intros HU. pose proof (uo_shaped _ _ _ _ HU) as US.
  destruct a as [nm | y | | | l].
  - intros i E. split; [|intros _; pevx_unfold; rewrite E; reflexivity]. destruct WF.
    eapply in_ext; [eapply in_prop; eauto|].
    intros w Hu. simpl. rewrite <- index_of_prop_index. split.
    + intro Hv. exists i. auto.
    + intros [j [Hj Hv]]. congruence.
  - intros e E. split; [|intros _; pevx_unfold; rewrite E; reflexivity].
    destruct (var_id_of _ _ _ E) as [Ev Hk].
    eapply in_ext; [destruct WF; eapply in_var; eauto|].
    intros w _. symmetry. exact (var_of_ex G y e (fun e => copy_is_state G e w) Ev).
  - split; [apply in_unit, US | intros _; pevx_unfold; reflexivity].
  - split; [apply in_empty | intros _; pevx_unfold; reflexivity].
  - intros s E. split; [|intros _; pevx_unfold; rewrite E; reflexivity].
    destruct (wild_ok _ _ E) as [Ss Es]. split; [assumption|]. intros w _. simpl. apply Es.
Qed.

Lemma jump_stepX bound Uc (C : Prop) x d a A :
  unit_ok bound Uc -> var_of G x <> None -> nres C a Uc A ->
  exists e, hctl_var_id G x = Ok e /\ nres C (Hybrid Jump x d a) Uc (eval_jump G Uc A e).
Proof.
  intros HU Hx [SP EX].
  destruct (var_of G x) as [e|] eqn:Ev; [|congruence].
  pose proof (var_of_id G x e Ev) as E. destruct (var_id_of _ _ _ E) as [_ Hk].
  exists e. split; [exact E|]. split.
  - eapply in_ext; [destruct HU as [US USt USub UC]; destruct WF; eapply in_jump; eauto|].
    intros w _. symmetry. exact (var_of_ex G x e _ Ev).
  - intro HC. pevx_unfold. rewrite (EX HC). cbn [bind]. rewrite E. reflexivity.
Qed.

(** a quantifier without domain *)
Lemma quant_stepX bound Uc (C : Prop) o x a A e :
  o <> Jump -> unit_ok bound Uc -> var_of G x = Some e -> ~ In e bound ->
  use_patterns sw && is_attractor_pattern (Hybrid o x None a) = false ->
  use_patterns sw && is_fixed_point_pattern (Hybrid o x None a) = false ->
  nres C a Uc A ->
  exists R, eval_hybrid_quantifier G Uc Uc o e A = Ok R /\ nres C (Hybrid o x None a) Uc R.
Proof.
  intros Ho HU Ev Hnb PA PF [SP EX].
  pose proof (var_of_id G x e Ev) as E. destruct (var_id_of _ _ _ E) as [_ Hk].
  assert (exists R, eval_hybrid_quantifier G Uc Uc o e A = Ok R) as [R ER]
    by (destruct o; try congruence; eexists; reflexivity).
  exists R. split; [exact ER|]. split.
  - apply (in_sat_hybrid G names Utop WF Gamma bound Uc o x e a A R HU Ev Hk
             (fun _ => uo_copy _ _ _ _ HU e Hnb) SP).
    destruct o; try congruence; exact ER.
  - intro HC. rewrite peval_ext_eq, PA, PF, peval_ext_body_quant by exact Ho.
    rewrite (EX HC). cbn [bind]. rewrite E. exact ER.
Qed.

(** the pattern shortcuts *)
Lemma attractor_stepX bound Uc (C : Prop) o x d a :
  unit_ok bound Uc -> scoped bound (Hybrid o x d a) ->
  use_patterns sw && is_attractor_pattern (Hybrid o x d a) = true ->
  exists e R, hctl_var_id G (pattern_var (Hybrid o x d a)) = Ok e /\ attractors G Uc e = Ok R
              /\ nres C (Hybrid o x d a) Uc R.
Proof.
  intros HU Hsc PA. pose proof PA as PA'. apply andb_true_iff in PA'. destruct PA' as [_ PA'].
  destruct (attractor_pattern_inv _ PA') as [y Ey]. injection Ey as -> -> -> ->.
  destruct Hsc as [e [Ev [Hnb _]]]. pose proof (var_of_id G y e Ev) as E.
  destruct (var_id_of _ _ _ E) as [_ Hk].
  destruct (total_attractors G Uc (wf_nodup _ _ _ WF) (wf_upd_shaped _ _ _ WF) (uo_shaped _ _ _ _ HU) e)
    as (R & ER & _).
  exists e, R. cbn [pattern_var]. split; [exact E|]. split; [exact ER|]. split.
  - eapply attractor_pattern_in; eauto. apply (uo_copy _ _ _ _ HU). exact Hnb.
  - intros _. rewrite peval_ext_eq, PA. cbn [pattern_var]. rewrite E. cbn [bind]. exact ER.
Qed.

Lemma fixed_point_stepX bound Uc (C : Prop) o x d a :
  unit_ok bound Uc -> scoped bound (Hybrid o x d a) ->
  use_patterns sw && is_attractor_pattern (Hybrid o x d a) = false ->
  use_patterns sw && is_fixed_point_pattern (Hybrid o x d a) = true ->
  nres C (Hybrid o x d a) Uc st.
Proof.
  intros HU Hsc PA PF. pose proof PF as PF'. apply andb_true_iff in PF'. destruct PF' as [_ PF'].
  destruct (fixed_point_pattern_inv _ PF') as [y Ey]. injection Ey as -> -> -> ->.
  destruct Hsc as [e [Ev _]]. split.
  - eapply steady_pattern_in; eauto. congruence.
  - intros _. rewrite peval_ext_eq, PA, PF. reflexivity.
Qed.

(** a quantifier with a domain whose restricted unit is empty: the early return *)
Lemma dom_empty_stepX bound Uc (C : Prop) o x dl a dset e :
  o <> Jump -> unit_ok bound Uc -> var_of G x = Some e -> ~ In e bound ->
  alookup str_eqb dl doms = Some dset ->
  is_empty (tand Uc (compute_valid_domain_for_var G Uc dset e)) = true ->
  nres C (Hybrid o x (Some dl) a) Uc (match o with Forall => Uc | _ => empty G end).
Proof.
  intros Ho HU Ev Hnb ED Emp.
  pose proof (var_of_id G x e Ev) as E. destruct (var_id_of _ _ _ E) as [_ Hk].
  split; [|intros _; apply (peval_ext_early_return G names Utop sw wild doms o x dl a dset e Uc); assumption].
  exact (in_sat_empty_domain G names Utop WF Gamma doms doms_ok bound Uc o x dl e dset a HU Ev Hk Ho
           (uo_copy _ _ _ _ HU e Hnb) ED Emp).
Qed.

(** a quantifier with a domain: the body is only needed inside the restricted unit, and the
    result is EXACTLY that of the cache-free evaluator *)
Lemma dom_stepX bound Uc (C : Prop) o x dl a dset e A :
  o <> Jump -> unit_ok bound Uc -> var_of G x = Some e -> ~ In e bound ->
  alookup str_eqb dl doms = Some dset ->
  is_empty (tand Uc (compute_valid_domain_for_var G Uc dset e)) = false ->
  gx a -> scoped (e :: bound) a ->
  spec_in G (tand Uc (compute_valid_domain_for_var G Uc dset e)) A (Sat a) ->
  exists R, eval_hybrid_quantifier G Uc (tand Uc (compute_valid_domain_for_var G Uc dset e)) o e A = Ok R
            /\ nres C (Hybrid o x (Some dl) a) Uc R.
Proof.
  intros Ho HU Ev Hnb ED Emp (Wa & Ka & Sa) Hsa SP.
  pose proof (var_of_id G x e Ev) as E. destruct (var_id_of _ _ _ E) as [_ Hk].
  destruct (doms_ok _ _ ED) as [SD [XD GD]].
  destruct (ops_domain_in G names Utop WF bound Uc HU dset e A (Sat a) Hk Hnb SD XD) as (_ & HUr & _).
  set (Ur := tand Uc (compute_valid_domain_for_var G Uc dset e)) in *.
  assert (exists R, eval_hybrid_quantifier G Uc Ur o e A = Ok R) as [R ER]
    by (destruct o; try congruence; eexists; reflexivity).
  exists R. split; [exact ER|]. split.
  - exact (in_sat_domain G names Utop WF Gamma doms doms_ok bound Uc o x dl e dset a HU Ev Hk Ho
             (uo_copy _ _ _ _ HU e Hnb) ED A R SP ER).
  - (* the body agrees with the cache-free result inside [Ur], and the quantifier looks no further *)
    intros _.
    assert (shaped L Ur) as SUr by apply (uo_shaped _ _ _ _ HUr).
    destruct (peval_ext_total G names sw st wild doms (wf_nodup _ _ _ WF) (wf_upd_shaped _ _ _ WF)
                (wf_steady_shaped G names Utop WF) (fun l s0 H => proj1 (wild_ok l s0 H)) (fun l s0 H => proj1 (doms_ok l s0 H))
                a Ur SUr Ka Sa) as (A' & EA' & SA').
    pose proof (peval_ext_sound G names Utop WF Gamma sw wild doms wild_ok doms_ok a (e :: bound) Ur A' HUr Hsa EA')
      as [_ ES'].
    destruct SP as [SA ES].
    assert (use_patterns sw && is_attractor_pattern (Hybrid o x (Some dl) a) = false) as PA
      by (destruct o; cbn; apply andb_false_r).
    assert (use_patterns sw && is_fixed_point_pattern (Hybrid o x (Some dl) a) = false) as PF
      by (destruct o; cbn; apply andb_false_r).
    rewrite peval_ext_eq, PA, PF, peval_ext_body_quant by exact Ho.
    rewrite ED, E. cbn [bind]. fold Ur. rewrite Emp, EA'. cbn [bind]. rewrite <- ER.
    apply ehq_exact; try assumption. intros w Hw. apply eq_true_iff_eq.
    rewrite (ES' w Hw), (ES w Hw). reflexivity.
Qed.

(** ** opening and closing scopes *)

Lemma nres_mono (C C' : Prop) t Uc R : (C' -> C) -> nres C t Uc R -> nres C' t Uc R.
Proof. intros H [A B]. split; [exact A | intro HC; apply B, H, HC]. Qed.

Lemma ctxinv_frame c c1 bound Uc d : frame c c1 -> ctxinv c bound Uc d -> ctxinv c1 bound Uc d.
Proof.
  intros [F1 F2] (A & B & C0 & D & E). unfold ctxinv. rewrite F1, F2.
  exact (conj A (conj B (conj C0 (conj D E)))).
Qed.

Lemma clean_open_none fd x : alookup str_eqb x fd = None ->
  (clean (sinsert x None fd) <-> clean fd).
Proof.
  intro FX. split; intros CL y dy E.
  - destruct (str_eqb y x) eqn:Q; str_eq.
    + subst y. congruence.
    + apply (CL y). rewrite alookup_sinsert by exact Q. exact E.
  - destruct (str_eqb y x) eqn:Q; str_eq.
    + subst y. rewrite alookup_sinsert_same in E. congruence.
    + rewrite alookup_sinsert in E by exact Q. exact (CL y dy E).
Qed.

(** opening the scope of [x] adds the restriction of its domain, if it has one *)
Lemma restr_open fd x dm w : alookup str_eqb x fd = None ->
  (restr (sinsert x dm fd) w <->
   restr fd w /\ forall dl dset e, dm = Some dl -> alookup str_eqb dl doms = Some dset ->
                    var_of G x = Some e -> mem L dset (set_state e w) = true).
Proof.
  intro FX. split.
  - intro H. split.
    + intros y dl dset e FY. apply (H y dl dset e).
      rewrite alookup_sinsert; [exact FY|]. intros ->. congruence.
    + intros dl dset e ->. apply (H x dl dset e), alookup_sinsert_same.
  - intros [H1 H2] y dl dset e FY. rewrite alookup_sinsert_if in FY.
    destruct (str_eqb y x) eqn:Q.
    + str_eq. subst y. injection FY as ->. exact (H2 dl dset e eq_refl).
    + exact (H1 y dl dset e FY).
Qed.

Lemma ctxinv_open c bound Uc d x dm :
  ctxinv c bound Uc d -> x = xs (S d) ->
  let c0 := set_free c (sinsert x dm (free_doms c)) in
  domain_sets c0 = doms /\ NoDup (map fst (free_doms c0))
  /\ (forall j, S d <= j -> alookup str_eqb (xs (S j)) (free_doms c0) = None)
  /\ alookup str_eqb x (free_doms c) = None.
Proof.
  intros (A & _ & ND & FR & _) ->. cbn zeta. cbn [free_doms domain_sets set_free].
  assert (alookup str_eqb (xs (S d)) (free_doms c) = None) as FX by (apply FR; lia).
  split; [exact A|]. split; [apply sinsert_nodup_fresh; [exact ND | apply (alookup_None str_eqb str_eqb_eq), FX]|].
  split; [|exact FX]. intros j LE. rewrite alookup_sinsert; [apply FR; lia|].
  intro EQ. apply xs_inj in EQ. lia.
Qed.

Lemma ctxinv_open_none c bound Uc d x :
  ctxinv c bound Uc d -> x = xs (S d) ->
  ctxinv (set_free c (sinsert x None (free_doms c))) bound Uc (S d).
Proof.
  intros CI EX. destruct (ctxinv_open c bound Uc d x None CI EX) as (A & B & C0 & FX).
  destruct CI as (_ & HU & _ & _ & HR).
  split; [exact A|]. split; [exact HU|]. split; [exact B|]. split; [exact C0|].
  intro w. rewrite HR. cbn [free_doms set_free]. rewrite (restr_open _ x None w FX).
  split; [intros [H1 H2]; split; [exact H1 | split; [exact H2 | discriminate]] | tauto].
Qed.

Lemma ctxinv_open_some c bound Uc d x dl dset e :
  ctxinv c bound Uc d -> x = xs (S d) -> alookup str_eqb dl doms = Some dset ->
  var_of G x = Some e -> ~ In e bound ->
  ctxinv (set_free c (sinsert x (Some dl) (free_doms c))) (e :: bound)
         (tand Uc (compute_valid_domain_for_var G Uc dset e)) (S d).
Proof.
  intros CI EX ED Ev Hnb. destruct (ctxinv_open c bound Uc d x (Some dl) CI EX) as (A & B & C0 & FX).
  destruct CI as (_ & HU & _ & _ & HR).
  destruct (doms_ok _ _ ED) as [SD [XD _]].
  pose proof (var_of_id G x e Ev) as E. destruct (var_id_of _ _ _ E) as [_ Hk].
  destruct (ops_domain_in G names Utop WF bound Uc HU dset e Uc (fun _ => True) Hk Hnb SD XD) as (MU & HUr & _).
  split; [exact A|]. split; [exact HUr|]. split; [exact B|]. split; [exact C0|].
  intro w. rewrite MU, HR. cbn [free_doms set_free]. rewrite (restr_open _ x (Some dl) w FX). split.
  - intros [[H1 H2] H3]. split; [exact H1|]. split; [exact H2|]. intros dl' dset' e' X ED' VY.
    injection X as <-. assert (dset' = dset) by congruence. assert (e' = e) by congruence. subst. exact H3.
  - intros [H1 [H2 H3]]. split; [split; assumption|]. exact (H3 dl dset e eq_refl ED Ev).
Qed.

(** * 3. The main invariant *)

(** a node that is not a wild-card is a hit on a regular entry, or its own computation followed
    by [finish_at], which stores the result under the invariant *)
Lemma node_storeX t c bound Uc d :
  gx t -> depth_named d t -> scoped bound t -> is_wild_terminal t = false ->
  ctxinv c bound Uc d -> storeinv c ->
  (forall F,
     (forall R c1, nres (clean (free_doms c)) t Uc R -> storeinv c1 ->
        exists c', F (R, c1) = Ok (R, c') /\ nres (clean (free_doms c)) t Uc R /\ storeinv c') ->
     exists R c', eval_miss G names sw st F t Uc c = Ok (R, c')
                  /\ nres (clean (free_doms c)) t Uc R /\ storeinv c') ->
  exists R c', eval_node G names sw st t Uc c = Ok (R, c')
               /\ nres (clean (free_doms c)) t Uc R /\ storeinv c'.
Proof.
  intros GT DN SC NW CI SI MISS. pose proof (non_wild_text _ GT NW) as NK.
  apply (node_cases G names sw st t Uc c (fun R c' => nres (clean (free_doms c)) t Uc R /\ storeinv c')).
  - intros cached cren Hit.
    destruct (proj1 SI _ _ _ Hit) as [[r Hr] | RE]; [exfalso; exact (NK r Hr)|].
    destruct (hit_okX _ c bound Uc d _ _ cached cren GT DN CI (surjective_pairing _) RE) as (R1 & RB & NR).
    exists R1. split; [exact RB|]. split; [exact NR | exact (hit_ctx_okX t (key_of c t) c NK SI)].
  - apply MISS. intros R c1 NR SI1.
    destruct (finishX _ _ _ R c1
                (fun Hs => save_entry t c bound Uc d R GT DN NW SC CI NR (proj1 (proj2 SI)) Hs)
                NK SI1) as (c' & E' & SI').
    exists c'. split; [exact E'|]. split; assumption.
Qed.

Lemma eval_node_storeX : forall t c bound Uc d,
  gx t -> depth_named d t -> scoped bound t -> ctxinv c bound Uc d -> storeinv c ->
  exists R c', eval_node G names sw st t Uc c = Ok (R, c')
               /\ nres (clean (free_doms c)) t Uc R /\ storeinv c'.
Proof.
  (* Induction on the formula, with [ctxinv] (the unit is the top-level unit restricted by the open
     scopes) and [storeinv] as invariants.  A wild-card terminal is read from the store.  Every
     other node goes through [node_storeX]: only the miss is left, where the arguments are
     evaluated by the induction hypothesis, the step lemma of the constructor gives [nres] of the
     node, and [FIN] stores it.  A quantifier opens its scope ([ctxinv_open_none/_some]); with a
     domain only tier 1 of the body is used, in the restricted unit ([dom_stepX]). *)
  induction t as [a | o a IH | o a IHa b IHb | o x dm a IH]; intros c bound Uc d GT DN SC CI SI.
  1: destruct (is_wild_terminal (Terminal a)) eqn:NW.
  1: { (* a wild-card proposition: served from the entries of extend_context *)
    destruct a as [nm | y | | | p]; try discriminate NW. rewrite (eval_node_unfold G names sw).
    destruct GT as (W & Kn & _). cbn [knownx] in Kn.
    destruct (alookup str_eqb p wild) as [s|] eqn:Ep; [|congruence].
    assert (key_of c (Terminal (AWild p)) = wild_key p) as KE.
    { unfold key_of. cbn [render atom_str].
      pose proof (well_named_linkable ea true _ W) as LK. cbn [linkable] in LK. rewrite LK.
      cbn [fst snd]. rewrite canon_domains_nil. reflexivity. }
    rewrite KE. destruct (proj2 (proj2 SI) p s Ep) as [AM AL]. rewrite AM, AL.
    cbn [rename_back bind]. exists s, (hit_ctx (Terminal (AWild p)) (wild_key p) c).
    split; [reflexivity|]. unfold hit_ctx. cbn [is_wild_terminal].
    destruct CI as (_ & HU & _).
    split; [exact (terminal_stepX bound Uc _ (AWild p) HU s Ep) | exact SI]. }
  all: apply (node_storeX _ c bound Uc d GT DN SC); [first [exact NW | reflexivity] | exact CI | exact SI |];
    intros F FIN; pose proof CI as (DSE & HU & NDf & FR & HR).
  - unfold eval_miss. cbn [is_attractor_pattern is_fixed_point_pattern]. rewrite !andb_false_r.
    destruct GT as (W & Kn & Su).
    destruct a as [nm | y | | | p]; cbn [knownx supported] in *; try discriminate NW.
    + destruct (index_of nm names 0) as [i|] eqn:E; [|congruence].
      eexists. exact (FIN _ c (terminal_stepX bound Uc _ (AProp nm) HU i E) SI).
    + destruct (var_of G y) as [e|] eqn:Ev; [|congruence]. pose proof (var_of_id G y e Ev) as E.
      rewrite E. cbn [bind]. eexists. exact (FIN _ c (terminal_stepX bound Uc _ (AVar y) HU e E) SI).
    + eexists. exact (FIN _ c (terminal_stepX bound Uc _ ATrue HU) SI).
    + eexists. exact (FIN _ c (terminal_stepX bound Uc _ AFalse HU) SI).
  - cbn [depth_named scoped] in DN, SC.
    destruct (IH c bound Uc d (gx_unary _ _ GT) DN SC CI SI) as (A & c1 & EA & NA & SI1).
    destruct (unary_stepX bound Uc _ o a A HU NA) as (R & ER & NR).
    rewrite (eval_miss_unary G names sw st F o a Uc c A c1 EA), ER. exists R. exact (FIN R c1 NR SI1).
  - (* binary: the second argument starts from the context the first one leaves *)
    cbn [depth_named scoped] in DN, SC. destruct DN as [DNa DNb]. destruct SC as [SCa SCb].
    destruct (gx_binary _ _ _ GT) as [GA GB].
    destruct (IHa c bound Uc d GA DNa SCa CI SI) as (A & c1 & EA & NA & SI1).
    pose proof (eval_node_frame G names sw st _ _ _ _ _ _ DNa FR EA) as FR1.
    destruct (IHb c1 bound Uc d GB DNb SCb (ctxinv_frame _ _ _ _ _ FR1 CI) SI1) as (B & c2 & EB & NB & SI2).
    rewrite (proj1 FR1) in NB.
    destruct (binary_stepX bound Uc _ o a b A B HU NA NB) as (R & ER & NR).
    rewrite (eval_miss_binary G names sw st F o a b Uc c A c1 B c2 EA EB), ER. exists R. exact (FIN R c2 NR SI2).
  - pose proof (gx_hybrid _ _ _ _ GT) as GA.
    destruct (use_patterns sw && is_attractor_pattern (Hybrid o x dm a)) eqn:PA.
    { destruct (attractor_stepX bound Uc (clean (free_doms c)) o x dm a HU SC PA) as (e & R & E & ER & NR).
      unfold eval_miss. rewrite PA, E. cbn [bind]. rewrite ER. cbn [bind]. exists R. exact (FIN R c NR SI). }
    destruct (use_patterns sw && is_fixed_point_pattern (Hybrid o x dm a)) eqn:PF.
    { unfold eval_miss. rewrite PA, PF. exists st, c. split; [reflexivity|].
      split; [exact (fixed_point_stepX bound Uc _ o x dm a HU SC PA PF) | exact SI]. }
    destruct (jump_or_quantifier o) as [-> | [Ho IQ]].
    { cbn [depth_named is_quantifier scoped] in DN, SC. destruct DN as [_ DNa]. destruct SC as [Hx SCa].
      destruct (IH c bound Uc d GA DNa SCa CI SI) as (A & c1 & EA & NA & SI1).
      destruct (jump_stepX bound Uc _ x dm a A HU Hx NA) as (e & E & NR).
      unfold eval_miss. rewrite PA, PF, EA. cbn [bind]. rewrite E. cbn [bind].
      eexists. exact (FIN _ c1 NR SI1). }
    rewrite (eval_miss_quant G names sw st _ o x dm a Uc c Ho PA PF). cbn zeta.
    cbn [depth_named] in DN. rewrite IQ in DN. destruct DN as [EX DNa].
    assert (exists e, var_of G x = Some e /\ ~ In e bound
              /\ scoped (match dm with Some _ => e :: bound | None => bound end) a) as (e & Ev & Hnb & SCa)
      by (destruct o; try congruence; exact SC).
    pose proof (var_of_id G x e Ev) as E.
    destruct (ctxinv_open c bound Uc d x dm CI EX) as (_ & _ & _ & FX).
    destruct dm as [dl|].
    + cbn [domain_sets set_free]. rewrite DSE.
      destruct GT as (_ & Kn & _). cbn [knownx] in Kn.
      destruct (alookup str_eqb dl doms) as [dset|] eqn:ED;
        [|exfalso; destruct o; try congruence; apply (proj1 Kn); reflexivity].
      rewrite E. cbn [bind].
      destruct (is_empty (tand Uc (compute_valid_domain_for_var G Uc dset e))) eqn:Emp.
      * eexists. eexists. split; [reflexivity|].
        split; [exact (dom_empty_stepX bound Uc _ o x dl a dset e Ho HU Ev Hnb ED Emp) | exact SI].
      * destruct (IH _ (e :: bound) _ (S d) GA DNa SCa
                    (ctxinv_open_some c bound Uc d x dl dset e CI EX ED Ev Hnb) SI)
          as (A & c1 & EA & [SPA _] & SI1).
        destruct (dom_stepX bound Uc (clean (free_doms c)) o x dl a dset e A Ho HU Ev Hnb ED Emp GA SCa SPA)
          as (R & ER & NR).
        rewrite EA. cbn [bind]. rewrite ER. cbn [bind]. exists R. exact (FIN R (set_free c1 (aremove str_eqb x (free_doms c1))) NR SI1).
    + destruct (IH _ bound Uc (S d) GA DNa SCa (ctxinv_open_none c bound Uc d x CI EX) SI)
        as (A & c1 & EA & NA & SI1).
      cbn [free_doms set_free] in NA.
      apply (nres_mono _ (clean (free_doms c))) in NA; [|apply (clean_open_none _ x FX)].
      destruct (quant_stepX bound Uc _ o x a A e Ho HU Ev Hnb PA PF NA) as (R & ER & NR).
      rewrite EA. cbn [bind]. rewrite E. cbn [bind]. rewrite ER. cbn [bind]. exists R. exact (FIN R (set_free c1 (aremove str_eqb x (free_doms c1))) NR SI1).
Qed.

Theorem eval_node_cacheX : forall t c bound Uc d,
  gx t -> depth_named d t -> scoped bound t -> ctxinv c bound Uc d -> storeinv c ->
  exists R c', eval_node G names sw st t Uc c = Ok (R, c')
               /\ nres (clean (free_doms c)) t Uc R /\ storeinv c' /\ frame c c'.
Proof.
  intros t c bound Uc d GT DN SC CI SI.
  destruct (eval_node_storeX t c bound Uc d GT DN SC CI SI) as (R & c' & E & NR & SI').
  exists R, c'. split; [exact E|]. split; [exact NR|]. split; [exact SI'|].
  exact (eval_node_frame G names sw st t d Uc c R c' DN (proj1 (proj2 (proj2 (proj2 CI)))) E).
Qed.

End CacheX.

(** * 4. Batches of closed formulae at the top-level unit *)

Section BatchX.
Variable ea : N -> bool.
Variable G : genv.
Variable names : list str.
Variable Utop : tt.
Hypothesis WF : wf_env G names Utop.
Variable Gamma : str -> val -> Prop.
Hypothesis Gx : ctx_ignores_copies Gamma.
Variable sw : switches.
Variable wild doms : list (str * tt).
Hypothesis wild_ok : wild_sets_ok G Gamma wild.
Hypothesis doms_ok : dom_sets_ok G Gamma doms.

Local Notation st := (steady_of G Utop).
Local Notation pevx := (peval_ext G names sw st wild doms).
Local Notation storeinv := (storeinv ea G names Utop Gamma sw wild doms).

(** a closed formula as the extended entry points hand it to the evaluator *)
Definition topx (t : tree) : Prop :=
  gx ea G names wild doms t /\ depth_named 0 t /\ scoped G [] t.

(** no open scope, the domain sets of the context *)
Definition top_ctx (c : ectx) : Prop := free_doms c = [] /\ domain_sets c = doms.

Lemma top_ctxinv c : top_ctx c -> ctxinv G Utop doms c [] Utop 0.
Proof.
  intros [F D]. split; [exact D|]. split; [apply (top_unit_ok G names Utop WF)|]. rewrite F.
  split; [constructor|]. split; [reflexivity|]. intro w. split; [|tauto].
  intro H. split; [exact H|]. intros y dl dset e X. discriminate X.
Qed.

Theorem eval_all_cacheX : forall ts c,
  List.Forall topx ts -> top_ctx c -> storeinv c ->
  exists rs, eval_all G names sw st Utop ts c = Ok rs
             /\ List.Forall2 (fun t R => pevx t Utop = Ok R) ts rs.
Proof.
  intros ts c F TC SI.
  apply (eval_all_inv G names sw st Utop (fun c => top_ctx c /\ storeinv c) topx); [|exact F | split; assumption].
  intros t c0 (GT & DN & SC) [TC0 SI0].
  destruct (eval_node_cacheX ea G names Utop WF Gamma Gx sw wild doms wild_ok doms_ok
              t c0 [] Utop 0 GT DN SC (top_ctxinv c0 TC0) SI0) as (R & c' & E & [_ EX] & SI' & [F1 F2]).
  exists R, c'. split; [exact E|]. destruct TC0 as [A B]. split; [|split; [split; congruence | exact SI']].
  apply EX. rewrite A. intros y d0 X. discriminate X.
Qed.

End BatchX.

(** [extend_props] touches neither the open scopes nor any entry that is not a wild-card key *)
Lemma extend_props_inv : forall props c,
  free_doms (extend_props props c) = free_doms c
  /\ (forall k v, In (k, v) (cache (extend_props props c)) -> wild_key_like k \/ In (k, v) (cache c))
  /\ (forall k m, In (k, m) (duplicates (extend_props props c)) ->
        wild_key_like k \/ In (k, m) (duplicates c)).
Proof.
  induction props as [|[p s] rest IH]; intro c; [repeat split; auto|].
  cbn [extend_props].
  match goal with |- context [extend_props rest ?c2] => destruct (IH c2) as (F & C & D) end.
  assert (wild_key_like (wild_key p)) as W by (exists (p ++ [c_pct]); reflexivity).
  split; [rewrite F; reflexivity|]. split.
  - intros k v IN. destruct (C k v IN) as [X | [E | IN']]; [left; exact X | left; injection E as <- _; exact W|].
    right. eapply in_aremove; exact IN'.
  - intros k m IN. destruct (D k m IN) as [X | IN']; [left; exact X|].
    cbn [duplicates set_cache set_dups] in IN'. unfold incr_dup in IN'.
    destruct (alookup key_eqb (wild_key p) (duplicates c)); destruct IN' as [E | IN'];
      try (injection E as <- _; left; exact W); right; eapply in_aremove; exact IN'.
Qed.

Section InitX.
Variable ea : N -> bool.
Variable G : genv.
Variable names : list str.
Variable Utop : tt.
Variable Gamma : str -> val -> Prop.
Variable sw : switches.
Variable wprops dprops : list (str * tt).
Variable dups : list (key * nat).
Hypothesis dups_okH : dups_ok ea true (ctx_new dups).

Let c0 := extend_context wprops dprops (ctx_new dups).

Lemma init_top_ctx : top_ctx (domain_sets c0) c0.
Proof.
  split; [|reflexivity]. unfold c0, extend_context. cbn [free_doms set_domsets].
  apply extend_props_inv.
Qed.

Lemma init_storeinv : storeinv ea G names Utop Gamma sw (rev wprops) (domain_sets c0) c0.
Proof.
  unfold c0, extend_context. split; [|split].
  - intros k S rn IN. cbn [cache set_domsets] in IN.
    destruct (proj1 (proj2 (extend_props_inv _ _)) _ _ IN) as [W | []]. left. exact W.
  - intros k m IN. cbn [duplicates set_domsets] in IN.
    destruct (proj2 (proj2 (extend_props_inv _ _)) _ _ IN) as [W | IN']; [left; exact W | right].
    exact (dups_okH k m IN').
  - intros p s E. cbn [duplicates cache set_domsets].
    pose proof (extend_props_view wprops (ctx_new dups) p) as V. rewrite E in V. exact V.
Qed.

End InitX.

(** * 5. The extended entry point *)

Section WorldX.
Variable ea : N -> bool.
Variable w : world.
Variable k : nat.
Hypothesis upd_ok : List.Forall (shaped (Lpn (w_p w) (w_n w))) (w_upd w).
Hypothesis unit_ok : shaped (Lpn (w_p w) (w_n w)) (w_unit w).
Hypothesis unit_colour : forall v v', (forall j, v (TP j) = v' (TP j)) ->
  mem (Lpn (w_p w) (w_n w)) (w_unit w) v = mem (Lpn (w_p w) (w_n w)) (w_unit w) v'.
Hypothesis names_ok : length (w_names w) <= w_n w.

Local Notation G := (genv_of w k).
Local Notation U := (unit_of w k).

Variable cprops cdoms : list (str * tt).

(** the wild-card sets and the domain sets as the evaluator sees them *)
Definition wprops_of : list (str * tt) :=
  map (fun ps => (fst ps, lift w k (snd ps))) (dedup_labels cprops).
Definition dprops_of : list (str * tt) :=
  map (fun ps => (fst ps, lift w k (snd ps))) (dedup_labels cdoms).
Definition wild_of : list (str * tt) := rev wprops_of.
Definition doms_of : list (str * tt) :=
  domain_sets (extend_context wprops_of dprops_of (ctx_new [])).

Lemma doms_of_dups dups :
  domain_sets (extend_context wprops_of dprops_of (ctx_new dups)) = doms_of.
Proof.
  unfold doms_of, extend_context. cbn [domain_sets set_domsets]. rewrite !extend_props_domsets. reflexivity.
Qed.

Variable Gamma : str -> val -> Prop.
Hypothesis Gx : ctx_ignores_copies Gamma.
Hypothesis wild_ok : wild_sets_ok G Gamma wild_of.
Hypothesis doms_ok : dom_sets_ok G Gamma doms_of.

Local Notation topx := (topx ea G (w_names w) wild_of doms_of).

(** what the extended entry point returns for one formula *)
Definition singleX (m : mode) (t : tree) : res tt :=
  let* r := peval_ext G (w_names w) {| use_patterns := negb (m_nopatterns m) |} (steady_of G U)
                      wild_of doms_of t U in
  if m_sanitize m then sanitize G r else Ok r.

Theorem check_trees_mapX m ts :
  m_ext m = true -> m_unsafe_ex m = false -> List.Forall topx ts ->
  check_trees w k m ts cprops cdoms = mapM (singleX m) ts.
Proof.
  intros He Hu F. unfold check_trees. rewrite He, Hu.
  fold wprops_of dprops_of.
  pose proof (world_wf w k upd_ok unit_ok unit_colour names_ok) as WF.
  set (sw := {| use_patterns := negb (m_nopatterns m) |}).
  set (dups := if m_nocache m then [] else mark_duplicates ts).
  assert (dups_ok ea true (ctx_new dups)) as DO.
  { apply entry_dups_ok. eapply Forall_impl; [|exact F].
    intros t ((W & _) & DN & _). split; [exact W | exists 0; exact DN]. }
  pose proof (init_top_ctx wprops_of dprops_of dups) as TC. rewrite doms_of_dups in TC.
  pose proof (init_storeinv ea G (w_names w) U Gamma sw wprops_of dprops_of dups DO) as SI.
  rewrite doms_of_dups in SI. fold wild_of in SI.
  destruct (eval_all_cacheX ea G (w_names w) U WF Gamma Gx sw wild_of doms_of wild_ok doms_ok ts _ F TC SI)
    as (rs & E & F2).
  rewrite E. cbn [bind]. exact (post_map_gen _ _ (m_sanitize m) ts rs F2).
Qed.

Local Notation ctm := check_trees_mapX.

Theorem cache_mode_irrelevantX m m' ts :
  m_ext m = true -> m_unsafe_ex m = false -> m_ext m' = true -> m_unsafe_ex m' = false ->
  m_sanitize m = m_sanitize m' -> m_nopatterns m = m_nopatterns m' ->
  List.Forall topx ts ->
  check_trees w k m ts cprops cdoms = check_trees w k m' ts cprops cdoms.
Proof.
  intros He Hu He' Hu' Hs Hp F. rewrite (ctm m ts He Hu F), (ctm m' ts He' Hu' F).
  unfold singleX. rewrite Hs, Hp. reflexivity.
Qed.

Theorem batch_positionX m ts rs i dt dr :
  m_ext m = true -> m_unsafe_ex m = false -> List.Forall topx ts ->
  check_trees w k m ts cprops cdoms = Ok rs -> i < length ts ->
  check_trees w k m [nth i ts dt] cprops cdoms = Ok [nth i rs dr].
Proof. intros He Hu. exact (run_position _ _ _ (fun l => ctm m l He Hu) ts rs i dt dr). Qed.

Theorem batch_permutationX m ts ts' rs :
  m_ext m = true -> m_unsafe_ex m = false -> List.Forall topx ts -> Permutation ts ts' ->
  check_trees w k m ts cprops cdoms = Ok rs ->
  exists rs', check_trees w k m ts' cprops cdoms = Ok rs'
              /\ Permutation (combine ts rs) (combine ts' rs').
Proof. intros He Hu. exact (run_permutation _ _ _ (fun l => ctm m l He Hu) (Leaf false) ts ts' rs). Qed.

Theorem batch_repetitionX m t ts r1 r2 rs :
  m_ext m = true -> m_unsafe_ex m = false -> List.Forall topx (t :: t :: ts) ->
  check_trees w k m (t :: t :: ts) cprops cdoms = Ok (r1 :: r2 :: rs) ->
  r1 = r2 /\ check_trees w k m (t :: ts) cprops cdoms = Ok (r1 :: rs).
Proof. intros He Hu. exact (run_repetition _ _ _ (fun l => ctm m l He Hu) t ts r1 r2 rs). Qed.

End WorldX.
