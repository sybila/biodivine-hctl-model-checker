(** Top-level statements about [eval_node], assembled from the operator facts. *)
From HCTL Require Import Base Syntax Canon MarkDup TT Ops Eval Kripke HCTL.
From HCTL Require Import TTFacts OpsFacts FixFacts SemFacts HybridFacts EvalPure.

(** What the model assumes about a symbolic graph and its unit set (the library interface):
    the layout has no repeated variable, contains exactly the state bits and spare copies of
    the n variables, update functions are well-shaped sets that do not read the spare copies,
    proposition names resolve to variables, and the unit set only constrains the colour. *)
Record wf_env (G : genv) (names : list str) (U : tt) : Prop := {
  wf_nodup : NoDup (g_L G);
  wf_upd_shaped : forall i, shaped (g_L G) (upd_of G i);
  wf_TS_in : forall i, i < g_n G -> In (TS i) (g_L G);
  wf_TX_in : forall i e, i < g_n G -> e < g_k G -> In (TX i e) (g_L G);
  wf_TS_bound : forall i, In (TS i) (g_L G) -> i < g_n G;
  wf_TX_bound : forall i e, In (TX i e) (g_L G) -> i < g_n G;
  wf_names : forall nm i, index_of nm names 0 = Some i -> i < g_n G;
  wf_upd_extras : forall i v w, (forall g, is_extra_tag g = false -> v g = w g) ->
      mem (g_L G) (upd_of G i) v = mem (g_L G) (upd_of G i) w;
  wf_U_shaped : shaped (g_L G) U;
  wf_U_colour : forall v w, (forall j, v (TP j) = w (TP j)) -> mem (g_L G) U v = mem (g_L G) U w;
}.

Section Main.
Variable G : genv.
Variable names : list str.
Variable U : tt.
Hypothesis WF : wf_env G names U.
Variable Gamma : str -> val -> Prop.
Local Notation L := (g_L G).
Local Notation st := (steady_of G U).

Theorem peval_correct sw t R : plainf t -> supported G t ->
  peval G names sw st t U = Ok R -> spec_of G U R (sat G names Gamma t).
Proof.
  destruct WF. intros. eapply peval_sound; eauto.
Qed.

(** eval_node, driven with a context that marks no duplicates (pattern shortcuts on or off),
    returns exactly the valuations of the unit that satisfy the formula *)
Theorem eval_node_correct sw t c R c' : plainf t -> supported G t -> duplicates c = [] ->
  eval_node G names sw st t U c = Ok (R, c') ->
  shaped L R /\
  forall v, mem L R v = true <-> (mem L U v = true /\ sat G names Gamma t v).
Proof.
  intros Hpl Hsup Hd H.
  destruct (eval_node_nodup G names sw st t U c Hpl Hd) as [c1 [_ E]].
  rewrite E in H.
  destruct (peval G names sw st t U) as [r| | |] eqn:EP; simpl in H; try discriminate.
  injection H as <- <-.
  exact (peval_correct sw t r Hpl Hsup EP).
Qed.

Corollary eval_node_within_unit sw t c R c' : plainf t -> supported G t -> duplicates c = [] ->
  eval_node G names sw st t U c = Ok (R, c') ->
  forall v, mem L R v = true -> mem L U v = true.
Proof.
  intros Hpl Hsup Hd H v Hv.
  destruct (eval_node_correct sw t c R c' Hpl Hsup Hd H) as [_ E]. apply E in Hv. tauto.
Qed.

(** the pattern shortcuts do not change the result *)
Theorem shortcuts_agree t c1 c2 R1 R2 c1' c2' : plainf t -> supported G t ->
  duplicates c1 = [] -> duplicates c2 = [] ->
  eval_node G names {| use_patterns := true |} st t U c1 = Ok (R1, c1') ->
  eval_node G names {| use_patterns := false |} st t U c2 = Ok (R2, c2') ->
  R1 = R2.
Proof.
  intros Hpl Hsup Hd1 Hd2 H1 H2.
  destruct (eval_node_correct _ t c1 R1 c1' Hpl Hsup Hd1 H1) as [S1 E1].
  destruct (eval_node_correct _ t c2 R2 c2' Hpl Hsup Hd2 H2) as [S2 E2].
  apply (tt_ext L); try assumption; [apply (wf_nodup _ _ _ WF)|].
  intro v. destruct (mem L R1 v) eqn:A; destruct (mem L R2 v) eqn:B; try reflexivity.
  - apply E1 in A. apply E2 in A. congruence.
  - apply E2 in B. apply E1 in B. congruence.
Qed.

End Main.
