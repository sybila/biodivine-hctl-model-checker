(** The tokenizer of Model/Tokenizer.v, one iteration at a time (property C08: white space,
    spellings of the hybrid operators;
    the other files about the tokenizer read it through this one).
    [next] is the body of the loop without the recursive calls and [tok_next] says so; [class]
    is the decision taken on the head character and [next_class] gives [next] by cases on it,
    for the facts about all branches at once.  The equations [nexts_*] say what one
    iteration does on the text of each kind of token, [next_ok] what its outcomes can be.  From these: the fuel of [tokenize] suffices and its amount is
    irrelevant; a property of tokens that every iteration establishes holds of the result
    ([tok_inv]); white space between tokens, inside hybrid segments and at both ends of the
    text does not change the token list, and neither do the long spellings of the hybrid
    operators ([lsim]: the loop behaves on one text as on the other). *)
From HCTL Require Import Base Syntax Tokenizer.
From HCTL Require Import BaseFacts.

Section Lex.
Variable ext_alnum : N -> bool.
Variable ext : bool.

Notation is_name_char := (is_name_char ext_alnum).
Notation collect_name := (collect_name ext_alnum).
Notation peek_name_char := (peek_name_char ext_alnum).
Notation collect_var_dom := (collect_var_dom ext_alnum).
Notation tok := (tok ext_alnum).
Notation tokenize := (tokenize ext_alnum).

Inductive action :=
| ASkip (rest : str)                 (** a white-space character was dropped *)
| APush (tk : token) (rest : str)    (** a complete token was read *)
| AOpen (rest : str)                 (** an opening parenthesis was read *)
| AClose (rest : str).               (** a closing parenthesis was read *)

Definition arest (a : action) : str :=
  match a with ASkip r | APush _ r | AOpen r | AClose r => r end.

(** the body of [tok] on a non-empty input, without the recursive calls *)
Definition next (c : N) (rest : str) : res action :=
  if is_ws c then Ok (ASkip rest)
  else if N.eqb c c_tilde then Ok (APush (TUn Not) rest)
  else if N.eqb c c_amp then Ok (APush (TBin And) rest)
  else if N.eqb c c_bar then Ok (APush (TBin Or) rest)
  else if N.eqb c c_caret then Ok (APush (TBin Xor) rest)
  else if N.eqb c c_eq then
    let* rest := expect c_gt rest in Ok (APush (TBin Imp) rest)
  else if N.eqb c c_lt then
    let* rest := expect c_eq rest in
    let* rest := expect c_gt rest in Ok (APush (TBin Iff) rest)
  else if N.eqb c c_gt then Err ELex
  else if (N.eqb c c_E || N.eqb c c_A)
          && match rest with c2 :: _ => is_temp_op_char c2 | [] => false end then
    match rest with
    | c2 :: rest2 =>
        if peek_name_char rest2 then
          let (name, rest3) := collect_name rest2 in
          Ok (APush (TAtom (AProp (c :: c2 :: name))) rest3)
        else
          let* t := temporal_token c c2 in Ok (APush t rest2)
    | [] => Err ELex
    end
  else if N.eqb c c_bang then
    let* (nd, rest) := collect_var_dom rest ext in
    Ok (APush (THyb Bind (fst nd) (snd nd)) rest)
  else if N.eqb c c_three && negb (peek_name_char rest) then
    let* (nd, rest) := collect_var_dom rest ext in
    Ok (APush (THyb Exists (fst nd) (snd nd)) rest)
  else if N.eqb c c_V && negb (peek_name_char rest) then
    let* (nd, rest) := collect_var_dom rest ext in
    Ok (APush (THyb Forall (fst nd) (snd nd)) rest)
  else if N.eqb c c_at then
    let* (nd, rest) := collect_var_dom rest false in
    Ok (APush (THyb Jump (fst nd) None) rest)
  else if N.eqb c c_bslash then
    let (opname, rest) := collect_name rest in
    if str_eqb opname s_exists then
      let* (nd, rest) := collect_var_dom rest ext in
      Ok (APush (THyb Exists (fst nd) (snd nd)) rest)
    else if str_eqb opname s_forall then
      let* (nd, rest) := collect_var_dom rest ext in
      Ok (APush (THyb Forall (fst nd) (snd nd)) rest)
    else if str_eqb opname s_bind then
      let* (nd, rest) := collect_var_dom rest ext in
      Ok (APush (THyb Bind (fst nd) (snd nd)) rest)
    else if str_eqb opname s_jump then
      let* (nd, rest) := collect_var_dom rest false in
      Ok (APush (THyb Jump (fst nd) None) rest)
    else Err ELex
  else if N.eqb c c_rpar then Ok (AClose rest)
  else if N.eqb c c_lpar then Ok (AOpen rest)
  else if N.eqb c c_lbrace then
    let (name, rest) := collect_name rest in
    match name with
    | [] => Err ELex
    | _ => let* rest := expect c_rbrace rest in Ok (APush (TAtom (AVar name)) rest)
    end
  else if N.eqb c c_pct && ext then
    let (name, rest) := collect_name rest in
    match name with
    | [] => Err ELex
    | _ => let* rest := expect c_pct rest in Ok (APush (TAtom (AWild name)) rest)
    end
  else if is_name_char c then
    let (name, rest) := collect_name rest in
    Ok (APush (TAtom (AProp (c :: name))) rest)
  else Err ELex.

Definition nexts (cs : str) : res action :=
  match cs with
  | [] => Err ELex
  | c :: rest => next c rest
  end.

Definition continue (f : nat) (top : bool) (acc : list token) (a : action)
  : res (list token * str) :=
  match a with
  | ASkip rest => tok f rest top ext acc
  | APush tk rest => tok f rest top ext (tk :: acc)
  | AOpen rest =>
      let* (grp, rest) := tok f rest false ext [] in
      tok f rest top ext (TGroup grp :: acc)
  | AClose rest => if top then Err ELex else Ok (rev acc, rest)
  end.

Ltac case_res r :=
  destruct r as [? | ? | ? |]; cbn [bind]; try reflexivity.

(** the branches that read a hybrid segment: pushing the token and going on is going on
    with the token pushed *)
Lemma cvd_continue (m : res (str * option str * str)) (tk : str * option str -> token)
      (f : nat) (top : bool) (acc : list token) :
  (let* (nd, rest) := m in tok f rest top ext (tk nd :: acc))
  = let* a := (let* (nd, rest) := m in Ok (APush (tk nd) rest)) in continue f top acc a.
Proof. destruct m as [[nd r] | | |]; reflexivity. Qed.

Theorem tok_next (f : nat) (c : N) (rest : str) (top : bool) (acc : list token) :
  tok (S f) (c :: rest) top ext acc = let* a := next c rest in continue f top acc a.
Proof.
  unfold next. cbn [Tokenizer.tok].
  destruct (is_ws c); [reflexivity|].
  destruct (N.eqb c c_tilde); [reflexivity|].
  destruct (N.eqb c c_amp); [reflexivity|].
  destruct (N.eqb c c_bar); [reflexivity|].
  destruct (N.eqb c c_caret); [reflexivity|].
  destruct (N.eqb c c_eq); [case_res (expect c_gt rest)|].
  destruct (N.eqb c c_lt).
  { case_res (expect c_eq rest). case_res (expect c_gt a). }
  destruct (N.eqb c c_gt); [reflexivity|].
  destruct ((N.eqb c c_E || N.eqb c c_A)
            && match rest with c2 :: _ => is_temp_op_char c2 | [] => false end).
  { destruct rest as [|c2 rest2]; [reflexivity|].
    destruct (peek_name_char rest2).
    - destruct (collect_name rest2) as [name rest3]. reflexivity.
    - case_res (temporal_token c c2). }
  destruct (N.eqb c c_bang); [apply cvd_continue|].
  destruct (N.eqb c c_three && negb (peek_name_char rest)); [apply cvd_continue|].
  destruct (N.eqb c c_V && negb (peek_name_char rest)); [apply cvd_continue|].
  destruct (N.eqb c c_at); [apply (cvd_continue _ (fun nd => THyb Jump (fst nd) None))|].
  destruct (N.eqb c c_bslash).
  { destruct (collect_name rest) as [opname rest1].
    destruct (str_eqb opname s_exists); [apply cvd_continue|].
    destruct (str_eqb opname s_forall); [apply cvd_continue|].
    destruct (str_eqb opname s_bind); [apply cvd_continue|].
    destruct (str_eqb opname s_jump);
      [apply (cvd_continue _ (fun nd => THyb Jump (fst nd) None)) | reflexivity]. }
  destruct (N.eqb c c_rpar); [reflexivity|].
  destruct (N.eqb c c_lpar); [reflexivity|].
  destruct (N.eqb c c_lbrace).
  { destruct (collect_name rest) as [name rest1].
    destruct name as [|n0 name]; [reflexivity|]. case_res (expect c_rbrace rest1). }
  destruct (N.eqb c c_pct && ext).
  { destruct (collect_name rest) as [name rest1].
    destruct name as [|n0 name]; [reflexivity|]. case_res (expect c_pct rest1). }
  destruct (is_name_char c).
  { destruct (collect_name rest) as [name rest1]. reflexivity. }
  reflexivity.
Qed.

Lemma nexts_lpar (s : str) : nexts (c_lpar :: s) = Ok (AOpen s).
Proof. reflexivity. Qed.

Lemma nexts_rpar (s : str) : nexts (c_rpar :: s) = Ok (AClose s).
Proof. reflexivity. Qed.

Lemma nexts_ws (c : N) (s : str) : is_ws c = true -> nexts (c :: s) = Ok (ASkip s).
Proof. intro W. cbn [nexts]. unfold next. rewrite W. reflexivity. Qed.

(** The head character decides which branch of the loop is taken.  [class] is that decision
    alone; [next_class] gives [next] by cases on it, so that everything said about all
    branches is said by a case analysis on a small goal. *)
Inductive cclass :=
| CWs | CSym (tk : token) | CEq | CLt | CGt | CBang | CAt | CBslash | CRpar | CLpar | CLbrace
| CPct | CName | CBad.

Definition class (c : N) : cclass :=
  if is_ws c then CWs
  else if N.eqb c c_tilde then CSym (TUn Not)
  else if N.eqb c c_amp then CSym (TBin And)
  else if N.eqb c c_bar then CSym (TBin Or)
  else if N.eqb c c_caret then CSym (TBin Xor)
  else if N.eqb c c_eq then CEq
  else if N.eqb c c_lt then CLt
  else if N.eqb c c_gt then CGt
  else if N.eqb c c_bang then CBang
  else if N.eqb c c_at then CAt
  else if N.eqb c c_bslash then CBslash
  else if N.eqb c c_rpar then CRpar
  else if N.eqb c c_lpar then CLpar
  else if N.eqb c c_lbrace then CLbrace
  else if N.eqb c c_pct then CPct
  else if is_name_char c then CName
  else CBad.

(** a name character: a temporal operator, the quantifiers [3] and [V], or a proposition *)
Definition next_name (c : N) (rest : str) : res action :=
  if (N.eqb c c_E || N.eqb c c_A)
     && match rest with c2 :: _ => is_temp_op_char c2 | [] => false end then
    match rest with
    | c2 :: rest2 =>
        if peek_name_char rest2 then
          let (name, rest3) := collect_name rest2 in
          Ok (APush (TAtom (AProp (c :: c2 :: name))) rest3)
        else
          let* t := temporal_token c c2 in Ok (APush t rest2)
    | [] => Err ELex
    end
  else if N.eqb c c_three && negb (peek_name_char rest) then
    let* (nd, rest) := collect_var_dom rest ext in
    Ok (APush (THyb Exists (fst nd) (snd nd)) rest)
  else if N.eqb c c_V && negb (peek_name_char rest) then
    let* (nd, rest) := collect_var_dom rest ext in
    Ok (APush (THyb Forall (fst nd) (snd nd)) rest)
  else
    let (name, rest) := collect_name rest in
    Ok (APush (TAtom (AProp (c :: name))) rest).

(** after a backslash: the long name of a hybrid operator *)
Definition next_bslash (rest : str) : res action :=
  let (opname, rest) := collect_name rest in
  if str_eqb opname s_exists then
    let* (nd, rest) := collect_var_dom rest ext in
    Ok (APush (THyb Exists (fst nd) (snd nd)) rest)
  else if str_eqb opname s_forall then
    let* (nd, rest) := collect_var_dom rest ext in
    Ok (APush (THyb Forall (fst nd) (snd nd)) rest)
  else if str_eqb opname s_bind then
    let* (nd, rest) := collect_var_dom rest ext in
    Ok (APush (THyb Bind (fst nd) (snd nd)) rest)
  else if str_eqb opname s_jump then
    let* (nd, rest) := collect_var_dom rest false in
    Ok (APush (THyb Jump (fst nd) None) rest)
  else Err ELex.

Lemma not_name_neq (c k : N) :
  is_name_char c = false -> is_name_char k = true -> N.eqb c k = false.
Proof. intros Hc Hk. destruct (N.eqb_spec c k) as [->|]; [congruence | reflexivity]. Qed.

Definition next_of (k : cclass) (c : N) (rest : str) : res action :=
  match k with
  | CWs => Ok (ASkip rest)
  | CSym tk => Ok (APush tk rest)
  | CEq => let* rest := expect c_gt rest in Ok (APush (TBin Imp) rest)
  | CLt =>
      let* rest := expect c_eq rest in
      let* rest := expect c_gt rest in Ok (APush (TBin Iff) rest)
  | CGt => Err ELex
  | CBang =>
      let* (nd, rest) := collect_var_dom rest ext in
      Ok (APush (THyb Bind (fst nd) (snd nd)) rest)
  | CAt =>
      let* (nd, rest) := collect_var_dom rest false in
      Ok (APush (THyb Jump (fst nd) None) rest)
  | CBslash => next_bslash rest
  | CRpar => Ok (AClose rest)
  | CLpar => Ok (AOpen rest)
  | CLbrace =>
      let (name, rest) := collect_name rest in
      match name with
      | [] => Err ELex
      | _ => let* rest := expect c_rbrace rest in Ok (APush (TAtom (AVar name)) rest)
      end
  | CPct =>
      if ext then
        let (name, rest) := collect_name rest in
        match name with
        | [] => Err ELex
        | _ => let* rest := expect c_pct rest in Ok (APush (TAtom (AWild name)) rest)
        end
      else Err ELex
  | CName => next_name c rest
  | CBad => Err ELex
  end.

(** One walk through the tests of [class] gives what each class says about the character
    and the branch of [next] that is taken.  Facts about all branches of [next] go through
    [next_class]; the step equations [nexts_*] of single branches unfold [next] directly. *)
Lemma class_walk (c : N) (rest : str) :
  match class c with
  | CWs => is_ws c = true
  | CSym tk =>
      In (c, tk) [(c_tilde, TUn Not); (c_amp, TBin And); (c_bar, TBin Or); (c_caret, TBin Xor)]
  | CEq => c = c_eq | CLt => c = c_lt | CGt => c = c_gt | CBang => c = c_bang | CAt => c = c_at
  | CBslash => c = c_bslash | CRpar => c = c_rpar | CLpar => c = c_lpar
  | CLbrace => c = c_lbrace | CPct => c = c_pct
  | CName => is_ws c = false /\ is_name_char c = true
  | CBad => is_ws c = false /\ is_name_char c = false
  end
  /\ next c rest = next_of (class c) c rest.
Proof.
  unfold next, class.
  destruct (is_ws c); [split; reflexivity|].
  destruct (N.eqb_spec c c_tilde) as [->|_]; [split; [cbn [In]; auto | reflexivity]|].
  destruct (N.eqb_spec c c_amp) as [->|_]; [split; [cbn [In]; auto | reflexivity]|].
  destruct (N.eqb_spec c c_bar) as [->|_]; [split; [cbn [In]; auto | reflexivity]|].
  destruct (N.eqb_spec c c_caret) as [->|_]; [split; [cbn [In]; auto | reflexivity]|].
  destruct (N.eqb_spec c c_eq) as [->|_]; [split; reflexivity|].
  destruct (N.eqb_spec c c_lt) as [->|_]; [split; reflexivity|].
  destruct (N.eqb_spec c c_gt) as [->|_]; [split; reflexivity|].
  destruct (N.eqb_spec c c_bang) as [->|_]; [split; reflexivity|].
  destruct (N.eqb_spec c c_at) as [->|_]; [split; reflexivity|].
  destruct (N.eqb_spec c c_bslash) as [->|_]; [split; reflexivity|].
  destruct (N.eqb_spec c c_rpar) as [->|_]; [split; reflexivity|].
  destruct (N.eqb_spec c c_lpar) as [->|_]; [split; reflexivity|].
  destruct (N.eqb_spec c c_lbrace) as [->|_]; [split; reflexivity|].
  destruct (N.eqb_spec c c_pct) as [->|_];
    [split; [reflexivity | cbn [next_of]; destruct ext; reflexivity]|].
  destruct (is_name_char c) eqn:NC; [repeat split; reflexivity|].
  (* E, A, 3 and V are name characters *)
  rewrite (not_name_neq c c_E NC eq_refl), (not_name_neq c c_A NC eq_refl),
    (not_name_neq c c_three NC eq_refl), (not_name_neq c c_V NC eq_refl).
  repeat split; reflexivity.
Qed.

Definition class_spec (c : N) := proj1 (class_walk c []).

Lemma next_class (c : N) (rest : str) : next c rest = next_of (class c) c rest.
Proof. apply class_walk. Qed.

Lemma class_name (c : N) : is_ws c = false -> is_name_char c = true -> class c = CName.
Proof.
  (* the characters of the other classes are no name characters *)
  intros W NC. pose proof (class_spec c) as S.
  destruct (class c); try reflexivity; try (subst c; discriminate NC).
  - rewrite S in W. discriminate W.
  - cbn [In] in S. destruct S as [S|[S|[S|[S|[]]]]]; injection S as <- _; discriminate NC.
  - destruct S as [_ S]. rewrite S in NC. discriminate NC.
Qed.

Lemma tok_nil (f : nat) (top : bool) (acc : list token) :
  tok (S f) [] top ext acc = if top then Ok (rev acc, []) else Err ELex.
Proof. reflexivity. Qed.

Lemma tok_nexts (f : nat) (cs : str) (top : bool) (acc : list token) :
  cs <> [] ->
  tok (S f) cs top ext acc = let* a := nexts cs in continue f top acc a.
Proof. destruct cs as [|c rest]; [intro H; contradiction | intros _; apply tok_next]. Qed.

Lemma tok_step (f : nat) (s : str) (top : bool) (acc : list token) (a : action) :
  nexts s = Ok a -> tok (S f) s top ext acc = continue f top acc a.
Proof. intro N. rewrite tok_nexts, N by (intros ->; discriminate N). reflexivity. Qed.

(** the loop on the characters that are no token *)
Lemma tok_ws (f : nat) (c : N) (cs : str) (top : bool) (acc : list token) :
  is_ws c = true -> tok (S f) (c :: cs) top ext acc = tok f cs top ext acc.
Proof. intro W. apply (tok_step f _ top acc (ASkip cs)), nexts_ws, W. Qed.

Lemma tok_lpar (f : nat) (cs : str) (top : bool) (acc : list token) :
  tok (S f) (c_lpar :: cs) top ext acc =
  let* (grp, rest) := tok f cs false ext [] in tok f rest top ext (TGroup grp :: acc).
Proof. apply (tok_step f _ top acc (AOpen cs)), nexts_lpar. Qed.

Lemma tok_rpar (f : nat) (cs : str) (acc : list token) :
  tok (S f) (c_rpar :: cs) false ext acc = Ok (rev acc, cs).
Proof. apply (tok_step f _ false acc (AClose cs)), nexts_rpar. Qed.

(** an outcome is [Ok] with a remaining input no longer than [n], or a lexical error *)
Definition fine {A} (len : A -> nat) (r : res A) (n : nat) : Prop :=
  match r with
  | Ok a => len a <= n
  | Err e => e = ELex
  | _ => False
  end.

Lemma expect_fine (c : N) (cs : str) : fine (@length N) (expect c cs) (length cs).
Proof.
  destruct cs as [|x r]; cbn [expect fine]; [reflexivity|].
  destruct (N.eqb x c); cbn [fine length]; [lia | reflexivity].
Qed.

Lemma collect_name_len (cs : str) :
  forall n r, collect_name cs = (n, r) -> length r <= length cs.
Proof.
  induction cs as [|c cs IH]; intros n r H; cbn [Tokenizer.collect_name] in H.
  - injection H as <- <-. cbn [length]. lia.
  - destruct (is_name_char c).
    + destruct (collect_name cs) as [n' r'] eqn:E. injection H as <- <-.
      specialize (IH n' r' eq_refl). cbn [length]. lia.
    + injection H as <- <-. lia.
Qed.

Lemma skip_ws_len (cs : str) : length (skip_ws cs) <= length cs.
Proof.
  induction cs as [|c cs IH]; cbn [skip_ws length]; [lia|].
  destruct (is_ws c); cbn [length]; lia.
Qed.

(** [expect c s] at the head of a [bind]: its [fine] fact is posed and the call is
    destructed; the error and impossible cases are closed, the [Ok r] case is left *)
Ltac fine_expect c s r :=
  let F := fresh "F" in
  pose proof (expect_fine c s) as F;
  destruct (expect c s) as [r | ? | ? |]; cbn [bind fine] in F |- *;
  [| exact F | contradiction | contradiction].

Lemma cvd_fine (cs : str) (pd : bool) :
  fine (fun p : str * option str * str => length (snd p)) (collect_var_dom cs pd) (length cs).
Proof.
  unfold Tokenizer.collect_var_dom.
  pose proof (skip_ws_len cs) as L0.
  fine_expect c_lbrace (skip_ws cs) cs1.
  destruct (collect_name cs1) as [name cs2] eqn:CN. apply collect_name_len in CN.
  destruct name as [|n0 name]; [reflexivity|].
  fine_expect c_rbrace cs2 cs3.
  pose proof (skip_ws_len cs3) as L3.
  destruct (pd && peek_is c_i (skip_ws cs3)).
  - pose proof (tl_len (skip_ws cs3)) as L4.
    fine_expect c_n (tl (skip_ws cs3)) cs5.
    pose proof (skip_ws_len cs5) as L5.
    fine_expect c_pct (skip_ws cs5) cs7.
    destruct (collect_name cs7) as [dname cs8] eqn:CN2. apply collect_name_len in CN2.
    destruct dname as [|d0 dname]; [reflexivity|].
    fine_expect c_pct cs8 cs9.
    pose proof (skip_ws_len cs9) as L9.
    fine_expect c_colon (skip_ws cs9) cs10.
    cbn [snd]. lia.
  - cbn [bind].
    fine_expect c_colon (skip_ws cs3) cs10.
    cbn [snd]. lia.
Qed.

Lemma cvd_false_dom (seg : str) (nd : str * option str) (r : str) :
  collect_var_dom seg false = Ok (nd, r) -> snd nd = None.
Proof.
  unfold Tokenizer.collect_var_dom.
  destruct (expect c_lbrace (skip_ws seg)) as [cs1 | | |]; cbn [bind]; try discriminate.
  destruct (collect_name cs1) as [name cs2]. destruct name as [|n0 name]; [discriminate|].
  destruct (expect c_rbrace cs2) as [cs3 | | |]; cbn [bind andb]; try discriminate.
  destruct (expect c_colon (skip_ws cs3)) as [cs4 | | |]; cbn [bind]; try discriminate.
  intro H. injection H as <- _. reflexivity.
Qed.

(** no domain, no wild card (and no group: groups are assembled by the loop) *)
Definition plain_act (a : action) : Prop :=
  match a with
  | APush tk _ =>
      match tk with
      | THyb _ _ (Some _) | TAtom (AWild _) | TGroup _ => False
      | _ => True
      end
  | _ => True
  end.

(** the outcomes of one iteration on a rest of length at most [n]: an action whose rest is no
    longer, plain in the plain syntax, or a lexical error *)
Definition step_ok (r : res action) (n : nat) : Prop :=
  match r with
  | Ok a => length (arest a) <= n /\ (ext = false -> plain_act a)
  | Err e => e = ELex
  | _ => False
  end.

Lemma step_ok_intro (a : action) (n : nat) :
  length (arest a) <= n -> plain_act a -> step_ok (Ok a) n.
Proof. intros L P. split; [exact L | intros _; exact P]. Qed.

Lemma step_ok_expect (k : N) (s : str) (n : nat) (K : str -> res action) :
  (forall r, length r < length s -> step_ok (K r) n) ->
  step_ok (let* r := expect k s in K r) n.
Proof.
  intro H. destruct s as [|x r]; cbn [expect]; [reflexivity|].
  destruct (N.eqb x k); [|reflexivity]. apply H. cbn [length]. lia.
Qed.

Lemma step_ok_hyb (o : hybop) (s : str) (pd : bool) (n : nat) :
  length s <= n -> (ext = false -> pd = false) ->
  step_ok (let* (nd, rest) := collect_var_dom s pd in
           Ok (APush (THyb o (fst nd) (snd nd)) rest)) n.
Proof.
  intros L PD. pose proof (cvd_fine s pd) as F.
  destruct (collect_var_dom s pd) as [[nd r] | | |] eqn:D; cbn [bind fine snd] in F |- *;
    [|exact F|contradiction|contradiction].
  split; [cbn [arest]; lia|]. intro E. rewrite (PD E) in D.
  cbn [plain_act]. rewrite (cvd_false_dom s nd r D). exact I.
Qed.

(** a jump stores no domain, and reads none *)
Lemma jump_no_dom (s : str) :
  (let* (nd, rest) := collect_var_dom s false in Ok (APush (THyb Jump (fst nd) None) rest))
  = let* (nd, rest) := collect_var_dom s false in
    Ok (APush (THyb Jump (fst nd) (snd nd)) rest).
Proof.
  destruct (collect_var_dom s false) as [[nd r] | | |] eqn:E; try reflexivity.
  cbn [bind]. rewrite (cvd_false_dom s nd r E). reflexivity.
Qed.

Lemma step_ok_jump (s : str) (n : nat) :
  length s <= n ->
  step_ok (let* (nd, rest) := collect_var_dom s false in
           Ok (APush (THyb Jump (fst nd) None) rest)) n.
Proof. intro L. rewrite jump_no_dom. apply step_ok_hyb; auto. Qed.

Lemma next_name_ok (c : N) (rest : str) : step_ok (next_name c rest) (length rest).
Proof.
  unfold next_name.
  destruct ((N.eqb c c_E || N.eqb c c_A)
            && match rest with c2 :: _ => is_temp_op_char c2 | [] => false end).
  { destruct rest as [|c2 rest2]; [reflexivity|].
    destruct (peek_name_char rest2).
    - destruct (collect_name rest2) as [name rest3] eqn:CN. apply collect_name_len in CN.
      apply step_ok_intro; [cbn [arest length]; lia | exact I].
    - unfold temporal_token.
      destruct (N.eqb c2 c_X); [apply step_ok_intro; [cbn [arest length]; lia | exact I]|].
      destruct (N.eqb c2 c_F); [apply step_ok_intro; [cbn [arest length]; lia | exact I]|].
      destruct (N.eqb c2 c_G); [apply step_ok_intro; [cbn [arest length]; lia | exact I]|].
      destruct (N.eqb c2 c_U); [apply step_ok_intro; [cbn [arest length]; lia | exact I]|].
      destruct (N.eqb c2 c_W); [apply step_ok_intro; [cbn [arest length]; lia | exact I]|].
      reflexivity. }
  destruct (N.eqb c c_three && negb (peek_name_char rest)); [apply step_ok_hyb; auto|].
  destruct (N.eqb c c_V && negb (peek_name_char rest)); [apply step_ok_hyb; auto|].
  destruct (collect_name rest) as [name rest1] eqn:CN. apply collect_name_len in CN.
  apply step_ok_intro; [exact CN | exact I].
Qed.

Lemma next_bslash_ok (rest : str) : step_ok (next_bslash rest) (length rest).
Proof.
  unfold next_bslash.
  destruct (collect_name rest) as [opname rest1] eqn:CN. apply collect_name_len in CN.
  destruct (str_eqb opname s_exists); [apply step_ok_hyb; auto|].
  destruct (str_eqb opname s_forall); [apply step_ok_hyb; auto|].
  destruct (str_eqb opname s_bind); [apply step_ok_hyb; auto|].
  destruct (str_eqb opname s_jump); [apply step_ok_jump, CN | reflexivity].
Qed.

Theorem next_ok (c : N) (rest : str) : step_ok (next c rest) (length rest).
Proof.
  pose proof (class_spec c) as S. rewrite next_class.
  destruct (class c); cbn [next_of]; try reflexivity;
    try (apply step_ok_intro; [apply le_n | exact I]).
  - apply step_ok_intro; [apply le_n|]. cbn [In] in S.
    destruct S as [S|[S|[S|[S|[]]]]]; injection S as _ <-; exact I.
  - apply step_ok_expect. intros r1 L1. apply step_ok_intro; [cbn [arest]; lia | exact I].
  - apply step_ok_expect. intros r1 L1. apply step_ok_expect. intros r2 L2.
    apply step_ok_intro; [cbn [arest]; lia | exact I].
  - apply step_ok_hyb; auto.
  - apply step_ok_jump, le_n.
  - apply next_bslash_ok.
  - destruct (collect_name rest) as [name rest1] eqn:CN. apply collect_name_len in CN.
    destruct name as [|n0 name]; [reflexivity|].
    apply step_ok_expect. intros r1 L1. apply step_ok_intro; [cbn [arest]; lia | exact I].
  - destruct ext eqn:E; [|reflexivity].
    destruct (collect_name rest) as [name rest1] eqn:CN. apply collect_name_len in CN.
    destruct name as [|n0 name]; [reflexivity|].
    apply step_ok_expect. intros r1 L1. split; [cbn [arest]; lia | intro H; rewrite H in E; discriminate E].
  - apply next_name_ok.
Qed.

Lemma next_cases (c : N) (rest : str) :
  (exists a, next c rest = Ok a /\ length (arest a) <= length rest)
  \/ next c rest = Err ELex.
Proof.
  pose proof (next_ok c rest) as F.
  destruct (next c rest) as [a | e | p |]; cbn [step_ok] in F; try contradiction.
  - left. exists a. split; [reflexivity | apply F].
  - right. rewrite F. reflexivity.
Qed.

Lemma next_plain (c : N) (rest : str) (tk : token) (r : str) :
  ext = false -> next c rest = Ok (APush tk r) ->
  match tk with
  | THyb _ _ (Some _) | TAtom (AWild _) | TGroup _ => False
  | _ => True
  end.
Proof.
  intros E N. pose proof (next_ok c rest) as F. rewrite N in F. exact (proj2 F E).
Qed.

(** the outcomes of the loop on an input of length at most [n]: tokens that all satisfy [P]
    and an unread rest no longer than the input, or a lexical error *)
Definition loop_ok (P : token -> bool) (r : res (list token * str)) (n : nat) : Prop :=
  match r with
  | Ok (ts, rest) => length rest <= n /\ forallb P ts = true
  | Err e => e = ELex
  | _ => False
  end.

(** Every iteration consumes a character, so more fuel than characters is enough.  A property
    of tokens that every token read by [next] has, and that a group has when its members
    have it, holds of everything the loop returns. *)
Lemma tok_inv (P : token -> bool) :
  (forall g, forallb P g = true -> P (TGroup g) = true) ->
  (forall c rest tk r, next c rest = Ok (APush tk r) -> P tk = true) ->
  forall f cs top acc, length cs < f -> forallb P acc = true ->
    loop_ok P (tok f cs top ext acc) (length cs).
Proof.
  intros PG PN. induction f as [|f IH]; intros cs top acc LT A; [lia|].
  destruct cs as [|c rest].
  - rewrite tok_nil. destruct top; [|reflexivity].
    split; [lia | rewrite forallb_rev; exact A].
  - cbn [length] in LT |- *. rewrite tok_next.
    destruct (next_cases c rest) as [[a [N LE]] | ->]; [|reflexivity].
    rewrite N. cbn [bind].
    (* the recursive calls are on inputs no longer than [rest] *)
    assert (REC : forall r top' acc', length r <= length rest -> forallb P acc' = true ->
              loop_ok P (tok f r top' ext acc') (S (length rest))).
    { intros r top' acc' L A'. pose proof (IH r top' acc' ltac:(lia) A') as F.
      destruct (tok f r top' ext acc') as [[ts r']| | |]; cbn [loop_ok] in *; auto.
      split; [lia | apply F]. }
    destruct a as [r | tk r | r | r]; cbn [continue arest] in LE |- *.
    + apply REC; assumption.
    + apply REC; [exact LE|]. cbn [forallb]. rewrite (PN _ _ _ _ N), A. reflexivity.
    + pose proof (IH r false [] ltac:(lia) eq_refl) as F.
      destruct (tok f r false ext []) as [[g r1]|e| |]; cbn [loop_ok bind] in *;
        [|exact F|contradiction|contradiction].
      destruct F as [L1 Pg]. apply REC; [lia|]. cbn [forallb]. rewrite (PG g Pg), A. reflexivity.
    + destruct top; [reflexivity|]. split; [lia | rewrite forallb_rev; exact A].
Qed.

(** with the trivial property: the outcomes of the loop under enough fuel *)
Lemma tok_outcome (f : nat) (cs : str) (top : bool) (acc : list token) :
  length cs < f -> loop_ok (fun _ => true) (tok f cs top ext acc) (length cs).
Proof.
  intro LT.
  exact (tok_inv (fun _ => true) (fun _ _ => eq_refl) (fun _ _ _ _ _ => eq_refl)
           f cs top acc LT (forallb_const_true acc)).
Qed.

Lemma tok_fuel_enough (f : nat) :
  forall cs top acc, length cs < f ->
    tok f cs top ext acc <> OutOfFuel
    /\ forall ts r, tok f cs top ext acc = Ok (ts, r) -> length r <= length cs.
Proof.
  intros cs top acc LT. pose proof (tok_outcome f cs top acc LT) as F.
  destruct (tok f cs top ext acc) as [[ts' r']| | |]; cbn [loop_ok] in F;
    [|split; [discriminate | intros ts r H; discriminate H]|contradiction|contradiction].
  split; [discriminate|]. intros ts r H. injection H as _ <-. apply F.
Qed.

Lemma tok_fuel_mono (f : nat) :
  forall cs top acc f', f <= f' ->
    tok f cs top ext acc <> OutOfFuel ->
    tok f' cs top ext acc = tok f cs top ext acc.
Proof.
  induction f as [|f IH]; intros cs top acc f' LE NO; [exfalso; apply NO; reflexivity|].
  destruct f' as [|f']; [lia|]. assert (f <= f') as LE' by lia.
  destruct cs as [|c rest]; [reflexivity|].
  rewrite !tok_next in *.
  destruct (next c rest) as [a | e | p |]; cbn [bind] in *; try reflexivity.
  destruct a as [r0 | tk r0 | r0 | r0]; cbn [continue] in *.
  - apply IH; assumption.
  - apply IH; assumption.
  - destruct (tok f r0 false ext []) as [[grp r1] | e | p |] eqn:E; cbn [bind] in NO;
      try (exfalso; apply NO; reflexivity);
      rewrite (IH r0 false [] f' LE') by (rewrite E; discriminate); rewrite E; cbn [bind];
      try reflexivity.
    apply IH; assumption.
  - reflexivity.
Qed.

Theorem tok_fuel_irrelevant (f f' : nat) (cs : str) (top : bool) (acc : list token) :
  length cs < f -> length cs < f' ->
  tok f cs top ext acc = tok f' cs top ext acc.
Proof.
  intros LT LT'.
  destruct (tok_fuel_enough (S (length cs)) cs top acc ltac:(lia)) as [NO _].
  rewrite (tok_fuel_mono (S (length cs)) cs top acc f ltac:(lia) NO).
  rewrite (tok_fuel_mono (S (length cs)) cs top acc f' ltac:(lia) NO).
  reflexivity.
Qed.

Theorem tokenize_fuel (f : nat) (cs : str) :
  length cs < f ->
  tokenize ext cs = let* (ts, _) := tok f cs true ext [] in Ok ts.
Proof.
  intro LT. unfold Tokenizer.tokenize.
  rewrite (tok_fuel_irrelevant (S (length cs)) f cs true []) by lia. reflexivity.
Qed.

(** Simulation of one input by another.

    [lsim s s']: the loop of the tokenizer behaves on [s'] as on [s], except that it may
    drop additional white space when it is at the start of an iteration.  [lsim_fail] asks
    for non-empty inputs because [tok] decides on the empty input by [top], before [nexts]
    is looked at. *)
Inductive lsim : str -> str -> Prop :=
| lsim_refl : forall s, lsim s s
| lsim_ins : forall c s s', is_ws c = true -> lsim s s' -> lsim s (c :: s')
| lsim_skip : forall s s' r r',
    nexts s = Ok (ASkip r) -> nexts s' = Ok (ASkip r') -> lsim r r' -> lsim s s'
| lsim_push : forall s s' tk r r',
    nexts s = Ok (APush tk r) -> nexts s' = Ok (APush tk r') -> lsim r r' -> lsim s s'
| lsim_open : forall s s' r r',
    nexts s = Ok (AOpen r) -> nexts s' = Ok (AOpen r') -> lsim r r' -> lsim s s'
| lsim_close : forall s s' r r',
    nexts s = Ok (AClose r) -> nexts s' = Ok (AClose r') -> lsim r r' -> lsim s s'
| lsim_fail : forall s s' e,
    s <> [] -> s' <> [] -> nexts s = Err e -> nexts s' = Err e -> lsim s s'.

(** outcomes related by the simulation: the same tokens, related remaining inputs *)
Definition rrel (r r' : res (list token * str)) : Prop :=
  match r with
  | Ok (ts, rest) => exists rest', r' = Ok (ts, rest') /\ lsim rest rest'
  | _ => r' = r
  end.

Lemma rrel_refl (r : res (list token * str)) : rrel r r.
Proof.
  destruct r as [[ts rest] | e | p |]; cbn [rrel]; try reflexivity.
  exists rest. split; [reflexivity | apply lsim_refl].
Qed.

Lemma nexts_ok (s : str) (a : action) :
  nexts s = Ok a -> s <> [] /\ length (arest a) < length s.
Proof.
  destruct s as [|c rest]; cbn [nexts]; intro H; [discriminate H|].
  split; [discriminate|].
  destruct (next_cases c rest) as [[a' [E LE]] | E]; rewrite E in H; [|discriminate H].
  injection H as <-. cbn [length]. lia.
Qed.

Lemma tok_lsim (f : nat) :
  forall cs cs', lsim cs cs' ->
  forall f' top acc, length cs < f -> length cs' < f' ->
    rrel (tok f cs top ext acc) (tok f' cs' top ext acc).
Proof.
  induction f as [|f IHf]; [intros; lia|].
  intros cs cs' H.
  induction H as [s | c s s' WS H IH
                  | s s' r r' N N' H _ | s s' tk r r' N N' H _
                  | s s' r r' N N' H _ | s s' r r' N N' H _
                  | s s' e NE NE' N N'];
    intros f' top acc LT LT'.
  (* the four cases in which both inputs take the same step *)
  3-6: destruct (nexts_ok s _ N) as [_ LEN]; destruct (nexts_ok s' _ N') as [_ LEN'];
    cbn [arest] in LEN, LEN'; (destruct f' as [|f']; [lia|]);
    rewrite (tok_step f s top acc _ N), (tok_step f' s' top acc _ N'); cbn [continue].
  - rewrite (tok_fuel_irrelevant f' (S f) s top acc) by lia. apply rrel_refl.
  - destruct f' as [|f']; [lia|]. cbn [length] in LT'.
    rewrite (tok_step f' (c :: s') top acc _ (nexts_ws c s' WS)). apply IH; lia.
  - apply IHf; [exact H | lia | lia].
  - apply IHf; [exact H | lia | lia].
  - pose proof (IHf r r' H f' false [] ltac:(lia) ltac:(lia)) as R.
    destruct (tok_fuel_enough f r false [] ltac:(lia)) as [_ LR].
    destruct (tok_fuel_enough f' r' false [] ltac:(lia)) as [_ LR'].
    destruct (tok f r false ext []) as [[grp r1] | e | p |] eqn:E; cbn [rrel] in R;
      [|rewrite R; reflexivity..].
    destruct R as [r1' [E' H1]]. rewrite E' in *. cbn [bind].
    specialize (LR grp r1 eq_refl). specialize (LR' grp r1' eq_refl).
    apply IHf; [exact H1 | lia | lia].
  - destruct top; cbn [rrel]; [reflexivity|].
    exists r'. split; [reflexivity | exact H].
  - destruct f' as [|f']; [lia|].
    rewrite (tok_nexts f s top acc NE), (tok_nexts f' s' top acc NE'), N, N'.
    reflexivity.
Qed.

Theorem tokenize_lsim (s s' : str) : lsim s s' -> tokenize ext s' = tokenize ext s.
Proof.
  intro H. unfold Tokenizer.tokenize.
  pose proof (tok_lsim (S (length s)) s s' H (S (length s')) true []
                       ltac:(lia) ltac:(lia)) as R.
  destruct (tok (S (length s)) s true ext []) as [[ts r] | e | p |]; cbn [rrel] in R.
  - destruct R as [r' [-> _]]. reflexivity.
  - rewrite R. reflexivity.
  - rewrite R. reflexivity.
  - rewrite R. reflexivity.
Qed.

Lemma lsim_same_next (s s' : str) :
  s <> [] -> s' <> [] -> nexts s = nexts s' -> lsim s s'.
Proof.
  intros NE NE' E.
  destruct s as [|c rest]; [contradiction|].
  destruct (next_cases c rest) as [[a [N _]] | N]; cbn [nexts] in E; rewrite N in E.
  - destruct a as [r | tk r | r | r].
    + eapply lsim_skip; [exact N | symmetry; exact E | apply lsim_refl].
    + eapply lsim_push; [exact N | symmetry; exact E | apply lsim_refl].
    + eapply lsim_open; [exact N | symmetry; exact E | apply lsim_refl].
    + eapply lsim_close; [exact N | symmetry; exact E | apply lsim_refl].
  - eapply lsim_fail; [exact NE | exact NE' | exact N | symmetry; exact E].
Qed.

(** white space that is not a name character.  Below 128 every white-space character is
    one; above, [ext_alnum] is arbitrary in this development, whereas in Unicode no
    white-space character is alphanumeric ([is_sep_ws_unicode]).  White space inserted behind a
    token or at the end of the text has to be a separator, since [collect_name] takes a
    white-space character that is also a name character into the name; leading white space
    need not be, since [is_ws] is the first test of an iteration. *)
Definition is_sep (c : N) : bool := is_ws c && negb (is_name_char c).

Definition ws_str (w : str) : Prop := forallb is_ws w = true.
Definition sep_str (w : str) : Prop := forallb is_sep w = true.
Definition name_str (n : str) : Prop := n <> [] /\ forallb is_name_char n = true.

Lemma is_sep_ws (c : N) : is_sep c = true -> is_ws c = true.
Proof. unfold is_sep. intro H. apply andb_true_iff in H. apply H. Qed.

Lemma is_sep_not_name (c : N) : is_sep c = true -> is_name_char c = false.
Proof.
  unfold is_sep. intro H. apply andb_true_iff in H. destruct H as [_ H].
  apply negb_true_iff in H. exact H.
Qed.

Lemma ws_ascii_not_name (c : N) : is_ws c = true -> (c < 128)%N -> is_name_char c = false.
Proof.
  intros W LT.
  (* a table of 128 entries; below 128 [is_name_char] does not consult [ext_alnum] *)
  assert (T : forallb (fun n => negb (is_ws (N.of_nat n)) || negb (is_name_char (N.of_nat n)))
                (seq 0 128) = true) by (vm_compute; reflexivity).
  rewrite forallb_forall in T. specialize (T (N.to_nat c)).
  rewrite N2Nat.id, W in T. apply negb_true_iff, T, in_seq. lia.
Qed.

Lemma is_sep_ws_unicode (c : N) :
  (forall x, is_ws x = true -> ext_alnum x = false) -> is_sep c = is_ws c.
Proof.
  intro U. unfold is_sep. destruct (is_ws c) eqn:W; [|reflexivity]. cbn [andb].
  destruct (N.ltb_spec c 128) as [LT | GE].
  - rewrite (ws_ascii_not_name c W LT). reflexivity.
  - unfold Tokenizer.is_name_char, is_alnum.
    rewrite (proj2 (N.ltb_ge c 128) GE), (U c W). cbn [orb negb].
    destruct (N.eqb_spec c c_underscore) as [E|]; [|reflexivity].
    subst c. unfold c_underscore in GE. lia.
Qed.

Lemma sep_str_ws (w : str) : sep_str w -> ws_str w.
Proof.
  unfold sep_str, ws_str. induction w as [|c w IH]; cbn [forallb]; [reflexivity|].
  intro H. apply andb_true_iff in H. destruct H as [H1 H2].
  rewrite (is_sep_ws c H1), (IH H2). reflexivity.
Qed.

Lemma ws_neq (c k : N) : is_ws c = true -> is_ws k = false -> N.eqb c k = false.
Proof.
  intros Hc Hk. destruct (N.eqb c k) eqn:E; [|reflexivity].
  apply N.eqb_eq in E. subst k. rewrite Hc in Hk. discriminate Hk.
Qed.

Lemma temp_op_name_char (c : N) : is_temp_op_char c = true -> is_name_char c = true.
Proof.
  unfold is_temp_op_char. intro H.
  repeat (apply orb_true_iff in H; destruct H as [H | H]);
    apply N.eqb_eq in H; subst c; reflexivity.
Qed.

Lemma peek_sep_str (w s : str) :
  sep_str w -> peek_name_char s = false -> peek_name_char (w ++ s) = false.
Proof.
  intros W P. destruct w as [|c w]; [exact P|]. cbn [app Tokenizer.peek_name_char].
  unfold sep_str in W. cbn [forallb] in W. apply andb_true_iff in W.
  apply is_sep_not_name, W.
Qed.

Lemma collect_name_stop (s : str) : peek_name_char s = false -> collect_name s = ([], s).
Proof.
  destruct s as [|c s]; cbn [Tokenizer.peek_name_char Tokenizer.collect_name]; [reflexivity|].
  intros ->. reflexivity.
Qed.

Lemma collect_name_name (n s : str) :
  forallb is_name_char n = true -> peek_name_char s = false -> collect_name (n ++ s) = (n, s).
Proof.
  intros NM P. induction n as [|c n IH]; cbn [app]; [apply collect_name_stop, P|].
  cbn [forallb] in NM. apply andb_true_iff in NM. destruct NM as [NC NM].
  cbn [Tokenizer.collect_name]. rewrite NC, (IH NM). reflexivity.
Qed.

Definition peek_ws (s : str) : bool := match s with c :: _ => is_ws c | [] => false end.

Lemma skip_ws_stop (s : str) : peek_ws s = false -> skip_ws s = s.
Proof. destruct s as [|c s]; cbn [peek_ws skip_ws]; [reflexivity|]. intros ->. reflexivity. Qed.

Lemma skip_ws_ws (w s : str) : ws_str w -> peek_ws s = false -> skip_ws (w ++ s) = s.
Proof.
  unfold ws_str. intros W P. induction w as [|c w IH]; cbn [app]; [apply skip_ws_stop, P|].
  cbn [forallb] in W. apply andb_true_iff in W. destruct W as [Wc W].
  cbn [skip_ws]. rewrite Wc. apply IH, W.
Qed.

Lemma skip_ws_all (w : str) : ws_str w -> skip_ws w = [].
Proof. intro W. rewrite <- (app_nil_r w). apply skip_ws_ws; [exact W | reflexivity]. Qed.

(** the text of the optional domain of a hybrid operator, followed by [tail] *)
Definition dom_txt (d : option str) (w3 w4 tail : str) : str :=
  match d with
  | None => tail
  | Some dn => c_i :: c_n :: w3 ++ c_pct :: dn ++ c_pct :: w4 ++ tail
  end.

(** the text of a hybrid segment: [{x}], optionally [in %d%], then [:], with white space
    [w1] .. [w4] at the four places where the tokenizer skips it *)
Definition seg_txt (x : str) (d : option str) (w1 w2 w3 w4 s : str) : str :=
  w1 ++ c_lbrace :: x ++ c_rbrace :: w2 ++ dom_txt d w3 w4 (c_colon :: s).

(** a domain can only be written where domains are parsed *)
Definition dom_ok (pd : bool) (d : option str) : Prop :=
  match d with
  | None => True
  | Some dn => pd = true /\ name_str dn
  end.

Lemma cvd_seg (pd : bool) (x : str) (d : option str) (w1 w2 w3 w4 s : str) :
  ws_str w1 -> ws_str w2 -> ws_str w3 -> ws_str w4 -> name_str x -> dom_ok pd d ->
  collect_var_dom (seg_txt x d w1 w2 w3 w4 s) pd = Ok (x, d, s).
Proof.
  intros W1 W2 W3 W4 [XN X] D. unfold seg_txt, Tokenizer.collect_var_dom.
  rewrite (skip_ws_ws w1 _ W1) by reflexivity.
  change (expect c_lbrace (c_lbrace :: ?r)) with (Ok r). cbn [bind].
  rewrite (collect_name_name x _ X) by reflexivity.
  destruct x as [|x0 x]; [contradiction|].
  change (expect c_rbrace (c_rbrace :: ?r)) with (Ok r). cbn [bind].
  destruct d as [dn|]; cbn [dom_txt dom_ok] in *.
  - destruct D as [-> [DN D]].
    rewrite (skip_ws_ws w2 _ W2) by reflexivity.
    change (true && peek_is c_i (c_i :: ?r)) with true. cbv iota. cbn [tl].
    change (expect c_n (c_n :: ?r)) with (Ok r). cbn [bind].
    rewrite (skip_ws_ws w3 _ W3) by reflexivity.
    change (expect c_pct (c_pct :: ?r)) with (Ok r). cbn [bind].
    rewrite (collect_name_name dn _ D) by reflexivity.
    destruct dn as [|d0 dn]; [contradiction|].
    change (expect c_pct (c_pct :: ?r)) with (Ok r). cbn [bind].
    rewrite (skip_ws_ws w4 _ W4) by reflexivity.
    reflexivity.
  - rewrite (skip_ws_ws w2 _ W2) by reflexivity.
    change (peek_is c_i (c_colon :: s)) with false. rewrite andb_false_r. cbn [bind].
    reflexivity.
Qed.

Lemma peek_seg (x : str) (d : option str) (w1 w2 w3 w4 s : str) :
  sep_str w1 -> peek_name_char (seg_txt x d w1 w2 w3 w4 s) = false.
Proof. intro W. unfold seg_txt. apply peek_sep_str; [exact W | reflexivity]. Qed.

Definition simple_ops : list (str * token) :=
  [ ([c_tilde], TUn Not); ([c_amp], TBin And); ([c_bar], TBin Or); ([c_caret], TBin Xor);
    ([c_eq; c_gt], TBin Imp); ([c_lt; c_eq; c_gt], TBin Iff) ].

Lemma nexts_simple_op (txt : str) (tk : token) (s : str) :
  In (txt, tk) simple_ops -> nexts (txt ++ s) = Ok (APush tk s).
Proof.
  intro H. cbn [simple_ops In] in H.
  repeat (destruct H as [H | H]; [injection H as <- <-; reflexivity|]). contradiction.
Qed.

Lemma temporal_token_ok (c c2 : N) (tk : token) :
  temporal_token c c2 = Ok tk -> is_temp_op_char c2 = true.
Proof.
  unfold temporal_token, is_temp_op_char.
  destruct (N.eqb c2 c_X); [reflexivity|]. destruct (N.eqb c2 c_F); [reflexivity|].
  destruct (N.eqb c2 c_G); [reflexivity|]. destruct (N.eqb c2 c_U); [reflexivity|].
  destruct (N.eqb c2 c_W); [reflexivity|]. intro H. discriminate H.
Qed.

Lemma nexts_temporal (c c2 : N) (tk : token) (s : str) :
  c = c_E \/ c = c_A -> temporal_token c c2 = Ok tk -> peek_name_char s = false ->
  nexts (c :: c2 :: s) = Ok (APush tk s).
Proof.
  intros C T P. pose proof (temporal_token_ok c c2 tk T) as T2.
  cbn [nexts]. unfold next. rewrite T2, P, T. destruct C as [-> | ->]; reflexivity.
Qed.

(** names that the tokenizer does not read as a proposition when a non-name character
    follows: [3], [V] and the temporal operators *)
Definition reserved (n : str) : bool :=
  match n with
  | [c] => N.eqb c c_three || N.eqb c c_V
  | [c; c2] => (N.eqb c c_E || N.eqb c c_A) && is_temp_op_char c2
  | _ => false
  end.

Definition prop_text (n : str) : Prop :=
  name_str n /\ peek_ws n = false /\ reserved n = false.

Lemma nexts_prop (n s : str) :
  prop_text n -> peek_name_char s = false ->
  nexts (n ++ s) = Ok (APush (TAtom (AProp n)) s).
Proof.
  (* a name that is not [reserved] falls through the tests for E/A, 3 and V *)
  intros [[NE NM] [WS RS]] PK. destruct n as [|c n]; [contradiction|]. clear NE.
  cbn [peek_ws] in WS. cbn [forallb] in NM. apply andb_true_iff in NM. destruct NM as [NC NM].
  cbn [app nexts]. rewrite next_class, (class_name c WS NC). cbn [next_of]. unfold next_name.
  destruct ((N.eqb c c_E || N.eqb c c_A)
            && match n ++ s with c2 :: _ => is_temp_op_char c2 | [] => false end) eqn:EA.
  { apply andb_true_iff in EA. destruct EA as [EA T].
    destruct n as [|c2 n]; cbn [app] in *.
    - destruct s as [|c2 s]; [discriminate T|]. cbn [Tokenizer.peek_name_char] in PK.
      rewrite (temp_op_name_char c2 T) in PK. discriminate PK.
    - destruct n as [|c3 n]; cbn [app].
      + cbn [reserved] in RS. rewrite EA, T in RS. discriminate RS.
      + cbn [forallb] in NM. apply andb_true_iff in NM. destruct NM as [_ NM].
        pose proof NM as NM3. cbn [forallb] in NM3. apply andb_true_iff in NM3.
        destruct NM3 as [NC3 _]. cbn [Tokenizer.peek_name_char]. rewrite NC3.
        change (c3 :: n ++ s) with ((c3 :: n) ++ s).
        rewrite (collect_name_name (c3 :: n) s NM PK). reflexivity. }
  destruct (N.eqb c c_three && negb (peek_name_char (n ++ s))) eqn:E3.
  { apply andb_true_iff in E3. destruct E3 as [E3 P3]. destruct n as [|c2 n].
    - cbn [reserved] in RS. rewrite E3 in RS. discriminate RS.
    - cbn [app Tokenizer.peek_name_char] in P3. cbn [forallb] in NM.
      apply andb_true_iff in NM. destruct NM as [NC2 _]. rewrite NC2 in P3. discriminate P3. }
  destruct (N.eqb c c_V && negb (peek_name_char (n ++ s))) eqn:EV.
  { apply andb_true_iff in EV. destruct EV as [EV PV]. destruct n as [|c2 n].
    - cbn [reserved] in RS. rewrite EV, orb_true_r in RS. discriminate RS.
    - cbn [app Tokenizer.peek_name_char] in PV. cbn [forallb] in NM.
      apply andb_true_iff in NM. destruct NM as [NC2 _]. rewrite NC2 in PV. discriminate PV. }
  rewrite (collect_name_name n s NM PK). reflexivity.
Qed.

Lemma nexts_var (x s : str) :
  name_str x -> nexts (c_lbrace :: x ++ c_rbrace :: s) = Ok (APush (TAtom (AVar x)) s).
Proof.
  intros [NE NM]. cbn [nexts]. unfold next.
  rewrite (collect_name_name x _ NM) by reflexivity.
  destruct x as [|x0 x]; [contradiction | reflexivity].
Qed.

Lemma nexts_wild (x s : str) :
  ext = true -> name_str x ->
  nexts (c_pct :: x ++ c_pct :: s) = Ok (APush (TAtom (AWild x)) s).
Proof.
  intros E [NE NM]. cbn [nexts]. unfold next. rewrite E.
  rewrite (collect_name_name x _ NM) by reflexivity.
  destruct x as [|x0 x]; [contradiction | reflexivity].
Qed.

Definition hyb_heads : list (str * hybop) :=
  [ ([c_bang], Bind); ([c_three], Exists); ([c_V], Forall); ([c_at], Jump);
    (c_bslash :: s_bind, Bind); (c_bslash :: s_exists, Exists);
    (c_bslash :: s_forall, Forall); (c_bslash :: s_jump, Jump) ].

(** where the tokenizer parses domains: after bind / exists / forall of the extended syntax *)
Definition hyb_pd (o : hybop) : bool := match o with Jump => false | _ => ext end.

(** every spelling of a hybrid operator starts the same iteration: read the segment *)
Lemma nexts_hyb_head (pre : str) (o : hybop) (seg : str) :
  In (pre, o) hyb_heads -> peek_name_char seg = false ->
  nexts (pre ++ seg)
  = let* (nd, rest) := collect_var_dom seg (hyb_pd o) in
    Ok (APush (THyb o (fst nd) (snd nd)) rest).
Proof.
  intros H P. cbn [hyb_heads In] in H.
  repeat (destruct H as [H | H]; [injection H as <- <-|]); [..|contradiction];
    cbn [app nexts hyb_pd]; unfold next.
  - reflexivity.
  - rewrite P. reflexivity.
  - rewrite P. reflexivity.
  - apply jump_no_dom.
  - rewrite (collect_name_name s_bind seg eq_refl P). reflexivity.
  - rewrite (collect_name_name s_exists seg eq_refl P). reflexivity.
  - rewrite (collect_name_name s_forall seg eq_refl P). reflexivity.
  - rewrite (collect_name_name s_jump seg eq_refl P). apply jump_no_dom.
Qed.

Lemma nexts_hyb (pre : str) (o : hybop) (x : str) (d : option str) (w1 w2 w3 w4 s : str) :
  In (pre, o) hyb_heads ->
  sep_str w1 -> ws_str w2 -> ws_str w3 -> ws_str w4 -> name_str x -> dom_ok (hyb_pd o) d ->
  nexts (pre ++ seg_txt x d w1 w2 w3 w4 s) = Ok (APush (THyb o x d) s).
Proof.
  intros H W1 W2 W3 W4 X D.
  rewrite (nexts_hyb_head pre o _ H (peek_seg x d w1 w2 w3 w4 s W1)).
  rewrite (cvd_seg (hyb_pd o) x d w1 w2 w3 w4 s (sep_str_ws w1 W1) W2 W3 W4 X D).
  reflexivity.
Qed.

Lemma hyb_head_nonempty (pre : str) (o : hybop) : In (pre, o) hyb_heads -> pre <> [].
Proof.
  intro H. cbn [hyb_heads In] in H.
  repeat (destruct H as [H | H]; [injection H as <- <-; discriminate|]). contradiction.
Qed.

Theorem nexts_spelling (pre pre' : str) (o : hybop) (seg : str) :
  In (pre, o) hyb_heads -> In (pre', o) hyb_heads -> peek_name_char seg = false ->
  nexts (pre ++ seg) = nexts (pre' ++ seg).
Proof.
  intros H H' P. rewrite (nexts_hyb_head pre o seg H P), (nexts_hyb_head pre' o seg H' P).
  reflexivity.
Qed.

Theorem tok_spelling (pre pre' : str) (o : hybop) (seg : str)
        (f : nat) (top : bool) (acc : list token) :
  In (pre, o) hyb_heads -> In (pre', o) hyb_heads -> peek_name_char seg = false ->
  tok (S f) (pre ++ seg) top ext acc = tok (S f) (pre' ++ seg) top ext acc.
Proof.
  intros H H' P.
  rewrite (tok_nexts f (pre ++ seg)) by (apply app_nonempty, (hyb_head_nonempty pre o H)).
  rewrite (tok_nexts f (pre' ++ seg)) by (apply app_nonempty, (hyb_head_nonempty pre' o H')).
  rewrite (nexts_spelling pre pre' o seg H H' P). reflexivity.
Qed.

Theorem tokenize_spelling (pre pre' : str) (o : hybop) (seg : str) :
  In (pre, o) hyb_heads -> In (pre', o) hyb_heads -> peek_name_char seg = false ->
  tokenize ext (pre ++ seg) = tokenize ext (pre' ++ seg).
Proof.
  intros H H' P. symmetry. apply tokenize_lsim, lsim_same_next.
  - apply app_nonempty, (hyb_head_nonempty pre o H).
  - apply app_nonempty, (hyb_head_nonempty pre' o H').
  - apply (nexts_spelling pre pre' o seg H H' P).
Qed.

Theorem tok_spelling_bind (rest : str) (f : nat) (top : bool) (acc : list token) :
  peek_name_char rest = false ->
  tok (S f) (c_bslash :: s_bind ++ rest) top ext acc = tok (S f) (c_bang :: rest) top ext acc.
Proof.
  intro P. apply (tok_spelling (c_bslash :: s_bind) [c_bang] Bind rest);
    [cbn [hyb_heads In]; auto 10 .. | exact P].
Qed.

Theorem tok_spelling_exists (rest : str) (f : nat) (top : bool) (acc : list token) :
  peek_name_char rest = false ->
  tok (S f) (c_bslash :: s_exists ++ rest) top ext acc
  = tok (S f) (c_three :: rest) top ext acc.
Proof.
  intro P. apply (tok_spelling (c_bslash :: s_exists) [c_three] Exists rest);
    [cbn [hyb_heads In]; auto 10 .. | exact P].
Qed.

Theorem tok_spelling_forall (rest : str) (f : nat) (top : bool) (acc : list token) :
  peek_name_char rest = false ->
  tok (S f) (c_bslash :: s_forall ++ rest) top ext acc = tok (S f) (c_V :: rest) top ext acc.
Proof.
  intro P. apply (tok_spelling (c_bslash :: s_forall) [c_V] Forall rest);
    [cbn [hyb_heads In]; auto 10 .. | exact P].
Qed.

Theorem tok_spelling_jump (rest : str) (f : nat) (top : bool) (acc : list token) :
  peek_name_char rest = false ->
  tok (S f) (c_bslash :: s_jump ++ rest) top ext acc = tok (S f) (c_at :: rest) top ext acc.
Proof.
  intro P. apply (tok_spelling (c_bslash :: s_jump) [c_at] Jump rest);
    [cbn [hyb_heads In]; auto 10 .. | exact P].
Qed.

(** the side condition is needed: before a name character [3] and [V] are the first
    letter of a proposition name, and a long spelling is another (unknown) operator name *)
Lemma spelling_side_condition_needed :
  tokenize ext (c_three :: [c_x]) = Ok [TAtom (AProp [c_three; c_x])]
  /\ tokenize ext (c_bslash :: s_exists ++ [c_x]) = Err ELex.
Proof. split; reflexivity. Qed.

Lemma lsim_leading (w s : str) : ws_str w -> lsim s (w ++ s).
Proof.
  unfold ws_str. intro W. induction w as [|c w IH]; cbn [app]; [apply lsim_refl|].
  cbn [forallb] in W. apply andb_true_iff in W. destruct W as [Wc W].
  apply lsim_ins; [exact Wc | apply IH, W].
Qed.

Lemma lsim_after_op (txt : str) (tk : token) (w s : str) :
  In (txt, tk) simple_ops -> ws_str w -> lsim (txt ++ s) (txt ++ w ++ s).
Proof.
  intros I W.
  eapply lsim_push; [apply nexts_simple_op, I | apply nexts_simple_op, I | apply lsim_leading, W].
Qed.

Lemma lsim_after_lpar (w s : str) : ws_str w -> lsim (c_lpar :: s) (c_lpar :: w ++ s).
Proof.
  intro W. eapply lsim_open; [apply nexts_lpar | apply nexts_lpar | apply lsim_leading, W].
Qed.

Lemma lsim_after_rpar (w s : str) : ws_str w -> lsim (c_rpar :: s) (c_rpar :: w ++ s).
Proof.
  intro W. eapply lsim_close; [apply nexts_rpar | apply nexts_rpar | apply lsim_leading, W].
Qed.

Lemma lsim_after_var (x w s : str) :
  name_str x -> ws_str w ->
  lsim (c_lbrace :: x ++ c_rbrace :: s) (c_lbrace :: x ++ c_rbrace :: w ++ s).
Proof.
  intros X W.
  eapply lsim_push; [apply nexts_var, X | apply nexts_var, X | apply lsim_leading, W].
Qed.

(** The syntactic relation: more white space between tokens, other spellings.

    [respaced s s']: [s'] is [s] with additional separators at token boundaries, with any
    white space at the places of a hybrid segment where the tokenizer skips it (a separator
    where a name follows), and
    with hybrid operators possibly spelled differently.  The text is followed token by
    token from the left; it may end with an arbitrary unchanged rest ([rs_refl]). *)
Inductive respaced : str -> str -> Prop :=
| rs_refl : forall s, respaced s s
| rs_ins : forall c s s', is_sep c = true -> respaced s s' -> respaced s (c :: s')
| rs_ws : forall c s s', is_ws c = true -> respaced s s' -> respaced (c :: s) (c :: s')
| rs_op : forall txt tk s s',
    In (txt, tk) simple_ops -> respaced s s' -> respaced (txt ++ s) (txt ++ s')
| rs_temporal : forall c c2 tk s s',
    c = c_E \/ c = c_A -> temporal_token c c2 = Ok tk -> peek_name_char s = false ->
    respaced s s' -> respaced (c :: c2 :: s) (c :: c2 :: s')
| rs_prop : forall n s s',
    prop_text n -> peek_name_char s = false -> respaced s s' -> respaced (n ++ s) (n ++ s')
| rs_var : forall x s s',
    name_str x -> respaced s s' ->
    respaced (c_lbrace :: x ++ c_rbrace :: s) (c_lbrace :: x ++ c_rbrace :: s')
| rs_wild : forall x s s',
    ext = true -> name_str x -> respaced s s' ->
    respaced (c_pct :: x ++ c_pct :: s) (c_pct :: x ++ c_pct :: s')
| rs_lpar : forall s s', respaced s s' -> respaced (c_lpar :: s) (c_lpar :: s')
| rs_rpar : forall s s', respaced s s' -> respaced (c_rpar :: s) (c_rpar :: s')
| rs_hyb : forall pre pre' o x d w1 w2 w3 w4 w1' w2' w3' w4' s s',
    In (pre, o) hyb_heads -> In (pre', o) hyb_heads ->
    pre' = pre \/ peek_name_char pre' = false ->
    sep_str w1 -> ws_str w2 -> ws_str w3 -> ws_str w4 ->
    sep_str w1' -> ws_str w2' -> ws_str w3' -> ws_str w4' ->
    name_str x -> dom_ok (hyb_pd o) d -> respaced s s' ->
    respaced (pre ++ seg_txt x d w1 w2 w3 w4 s) (pre' ++ seg_txt x d w1' w2' w3' w4' s').

Lemma peek_app_nonempty (l r : str) : l <> [] -> peek_name_char (l ++ r) = peek_name_char l.
Proof. destruct l; [intro H; contradiction | reflexivity]. Qed.

Lemma respaced_peek (s s' : str) :
  respaced s s' -> peek_name_char s = false -> peek_name_char s' = false.
Proof.
  intros H P.
  destruct H as [s | c s s' C H | c s s' C H | txt tk s s' I H | c c2 tk s s' C T PS H
                 | n s s' [[NE _] _] PS H | x s s' X H | x s s' E X H | s s' H | s s' H
                 | pre pre' o x d w1 w2 w3 w4 w1' w2' w3' w4' s s' I I' PP]; try exact P.
  - cbn [Tokenizer.peek_name_char]. apply is_sep_not_name, C.
  - cbn [simple_ops In] in I.
    repeat (destruct I as [I | I]; [injection I as <- <-; exact P|]). contradiction.
  - destruct n as [|c n]; [contradiction | exact P].
  - pose proof (hyb_head_nonempty pre o I) as NE.
    pose proof (hyb_head_nonempty pre' o I') as NE'.
    rewrite (peek_app_nonempty pre _ NE) in P. rewrite (peek_app_nonempty pre' _ NE').
    destruct PP as [-> | PP]; [exact P | exact PP].
Qed.

Theorem respaced_lsim (s s' : str) : respaced s s' -> lsim s s'.
Proof.
  intro H.
  induction H as [s | c s s' C H IH | c s s' C H IH | txt tk s s' I H IH
                  | c c2 tk s s' C T PS H IH | n s s' N PS H IH | x s s' X H IH
                  | x s s' E X H IH | s s' H IH | s s' H IH
                  | pre pre' o x d w1 w2 w3 w4 w1' w2' w3' w4' s s' I I' PP
                      W1 W2 W3 W4 W1' W2' W3' W4' X D H IH].
  - apply lsim_refl.
  - apply lsim_ins; [apply is_sep_ws, C | exact IH].
  - eapply lsim_skip; [apply nexts_ws, C | apply nexts_ws, C | exact IH].
  - eapply lsim_push; [apply nexts_simple_op, I | apply nexts_simple_op, I | exact IH].
  - eapply lsim_push; [apply nexts_temporal; eassumption | | exact IH].
    apply nexts_temporal; try assumption. apply (respaced_peek s s' H PS).
  - eapply lsim_push; [apply nexts_prop; assumption | | exact IH].
    apply nexts_prop; [exact N | apply (respaced_peek s s' H PS)].
  - eapply lsim_push; [apply nexts_var, X | apply nexts_var, X | exact IH].
  - eapply lsim_push; [apply nexts_wild; assumption | apply nexts_wild; assumption | exact IH].
  - eapply lsim_open; [apply nexts_lpar | apply nexts_lpar | exact IH].
  - eapply lsim_close; [apply nexts_rpar | apply nexts_rpar | exact IH].
  - eapply lsim_push; [apply nexts_hyb; eassumption | apply nexts_hyb; eassumption | exact IH].
Qed.

Theorem tokenize_respaced (s s' : str) : respaced s s' -> tokenize ext s' = tokenize ext s.
Proof. intro H. apply tokenize_lsim, respaced_lsim, H. Qed.

Lemma respaced_ins_str (w s s' : str) : sep_str w -> respaced s s' -> respaced s (w ++ s').
Proof.
  unfold sep_str. intros W H. induction w as [|c w IH]; cbn [app]; [exact H|].
  cbn [forallb] in W. apply andb_true_iff in W. destruct W as [Wc W].
  apply rs_ins; [exact Wc | apply IH, W].
Qed.

Lemma respaced_leading (w s : str) : sep_str w -> respaced s (w ++ s).
Proof. intro W. apply respaced_ins_str; [exact W | apply rs_refl]. Qed.

Lemma respaced_after_op (txt : str) (tk : token) (w s : str) :
  In (txt, tk) simple_ops -> sep_str w -> respaced (txt ++ s) (txt ++ w ++ s).
Proof. intros I W. eapply rs_op; [exact I | apply respaced_leading, W]. Qed.

Lemma respaced_after_temporal (c c2 : N) (tk : token) (w s : str) :
  c = c_E \/ c = c_A -> temporal_token c c2 = Ok tk -> peek_name_char s = false ->
  sep_str w -> respaced (c :: c2 :: s) (c :: c2 :: w ++ s).
Proof. intros C T P W. eapply rs_temporal; try eassumption. apply respaced_leading, W. Qed.

Lemma respaced_around_lpar (w w' s : str) :
  sep_str w -> sep_str w' -> respaced (c_lpar :: s) (w ++ c_lpar :: w' ++ s).
Proof. intros W W'. apply respaced_ins_str; [exact W | apply rs_lpar, respaced_leading, W']. Qed.

Lemma respaced_around_rpar (w w' s : str) :
  sep_str w -> sep_str w' -> respaced (c_rpar :: s) (w ++ c_rpar :: w' ++ s).
Proof. intros W W'. apply respaced_ins_str; [exact W | apply rs_rpar, respaced_leading, W']. Qed.

Lemma respaced_after_var (x w s : str) :
  name_str x -> sep_str w ->
  respaced (c_lbrace :: x ++ c_rbrace :: s) (c_lbrace :: x ++ c_rbrace :: w ++ s).
Proof. intros X W. apply rs_var; [exact X | apply respaced_leading, W]. Qed.

Lemma respaced_after_prop (n w s : str) :
  prop_text n -> peek_name_char s = false -> sep_str w -> respaced (n ++ s) (n ++ w ++ s).
Proof. intros N P W. apply rs_prop; [exact N | exact P | apply respaced_leading, W]. Qed.

Lemma respaced_after_wild (x w s : str) :
  ext = true -> name_str x -> sep_str w ->
  respaced (c_pct :: x ++ c_pct :: s) (c_pct :: x ++ c_pct :: w ++ s).
Proof. intros E X W. apply rs_wild; [exact E | exact X | apply respaced_leading, W]. Qed.

Lemma respaced_hybrid (pre pre' : str) (o : hybop) (x : str) (d : option str)
      (w1 w2 w3 w4 w5 s : str) :
  In (pre, o) hyb_heads -> In (pre', o) hyb_heads ->
  pre' = pre \/ peek_name_char pre' = false ->
  sep_str w1 -> ws_str w2 -> ws_str w3 -> ws_str w4 -> sep_str w5 ->
  name_str x -> dom_ok (hyb_pd o) d ->
  respaced (pre ++ seg_txt x d [] [] [] [] s) (pre' ++ seg_txt x d w1 w2 w3 w4 (w5 ++ s)).
Proof.
  intros I I' PP W1 W2 W3 W4 W5 X D.
  eapply rs_hyb; try eassumption; try reflexivity. apply respaced_leading, W5.
Qed.

Theorem tokenize_leading_ws (w s : str) : ws_str w -> tokenize ext (w ++ s) = tokenize ext s.
Proof. intro W. apply tokenize_lsim, lsim_leading, W. Qed.

(** White space [w] behind the text: every function of the tokenizer gives on [cs ++ w] the
    outcome it gives on [cs], with [w] appended to what is left unread. *)
Section Trailing.
Variable w : str.
Hypothesis W : ws_str w.
Hypothesis PW : peek_name_char w = false.

(** [r'] is [r] with [g] applied to its value; nothing is asked when [r] is a panic or out
    of fuel *)
Definition app_rel {A} (g : A -> A) (r r' : res A) : Prop :=
  match r with
  | Ok a => r' = Ok (g a)
  | Err e => r' = Err e
  | _ => True
  end.

Lemma expect_app (c : N) (cs : str) :
  is_ws c = false -> app_rel (fun r => r ++ w) (expect c cs) (expect c (cs ++ w)).
Proof.
  intro C. destruct cs as [|x r]; cbn [app expect app_rel].
  - destruct w as [|x w']; cbn [expect]; [reflexivity|].
    unfold ws_str in W. cbn [forallb] in W. apply andb_true_iff in W. destruct W as [Wx _].
    rewrite (ws_neq x c Wx C). reflexivity.
  - destruct (N.eqb x c); reflexivity.
Qed.

Lemma expect_skip_app (c : N) (cs : str) :
  is_ws c = false ->
  app_rel (fun r => r ++ w) (expect c (skip_ws cs)) (expect c (skip_ws (cs ++ w))).
Proof.
  intro C. induction cs as [|a cs IH]; cbn [app skip_ws].
  - rewrite (skip_ws_all w W). reflexivity.
  - destruct (is_ws a); [exact IH|]. apply (expect_app c (a :: cs) C).
Qed.

Lemma collect_name_app (cs : str) :
  collect_name (cs ++ w) = (fst (collect_name cs), snd (collect_name cs) ++ w).
Proof.
  induction cs as [|a cs IH]; cbn [app Tokenizer.collect_name].
  - apply collect_name_stop, PW.
  - destruct (is_name_char a); [|reflexivity].
    rewrite IH. destruct (collect_name cs) as [n r]. reflexivity.
Qed.

Lemma peek_name_app (cs : str) : peek_name_char (cs ++ w) = peek_name_char cs.
Proof. destruct cs; [exact PW | reflexivity]. Qed.

Lemma peek_is_skip_app (c : N) (cs : str) :
  is_ws c = false -> peek_is c (skip_ws (cs ++ w)) = peek_is c (skip_ws cs).
Proof.
  intro C. induction cs as [|a cs IH]; cbn [app skip_ws].
  - rewrite (skip_ws_all w W). reflexivity.
  - destruct (is_ws a); [exact IH | reflexivity].
Qed.

Lemma skip_ws_app_ne (cs : str) : skip_ws cs <> [] -> skip_ws (cs ++ w) = skip_ws cs ++ w.
Proof.
  induction cs as [|a cs IH]; cbn [app skip_ws]; [intro H; contradiction|].
  destruct (is_ws a); [exact IH | reflexivity].
Qed.

Lemma tl_skip_app (cs : str) :
  skip_ws cs <> [] -> tl (skip_ws (cs ++ w)) = tl (skip_ws cs) ++ w.
Proof.
  intro NE. rewrite (skip_ws_app_ne cs NE). destruct (skip_ws cs); [contradiction | reflexivity].
Qed.

Lemma temp_peek_app (cs : str) :
  match cs ++ w with c2 :: _ => is_temp_op_char c2 | [] => false end
  = match cs with c2 :: _ => is_temp_op_char c2 | [] => false end.
Proof.
  destruct cs as [|a cs]; [|reflexivity]. cbn [app].
  destruct w as [|x w']; [reflexivity|]. cbn [Tokenizer.peek_name_char] in PW.
  destruct (is_temp_op_char x) eqn:T; [|reflexivity].
  rewrite (temp_op_name_char x T) in PW. discriminate PW.
Qed.

(** [L : app_rel g r r'] with [r] at the head of a [bind] on the left and [r'] on the right:
    [r] is destructed and [r'] rewritten; the [Ok x] case is left with both binds reduced,
    the other three cases are closed *)
Ltac app_step L x :=
  let E := fresh "E" in
  pose proof L as E;
  match type of E with
  | app_rel _ ?r _ => destruct r as [x | ? | ? |]
  end; cbn [app_rel] in E;
  [ rewrite E; cbn [bind]
  | rewrite E; cbn [bind app_rel]; reflexivity
  | cbn [bind app_rel]; exact I
  | cbn [bind app_rel]; exact I ].

Lemma cvd_app (cs : str) (pd : bool) :
  app_rel (fun p : str * option str * str => (fst p, snd p ++ w))
          (collect_var_dom cs pd) (collect_var_dom (cs ++ w) pd).
Proof.
  unfold Tokenizer.collect_var_dom.
  app_step (expect_skip_app c_lbrace cs eq_refl) cs1.
  rewrite (collect_name_app cs1). destruct (collect_name cs1) as [name cs2]. cbn [fst snd].
  destruct name as [|n0 name]; [reflexivity|].
  app_step (expect_app c_rbrace cs2 eq_refl) cs3.
  rewrite (peek_is_skip_app c_i cs3 eq_refl).
  destruct (pd && peek_is c_i (skip_ws cs3)) eqn:PI.
  - assert (skip_ws cs3 <> []) as NE.
    { destruct (skip_ws cs3); [|discriminate]. rewrite andb_false_r in PI. discriminate PI. }
    rewrite (tl_skip_app cs3 NE).
    app_step (expect_app c_n (tl (skip_ws cs3)) eq_refl) cs5.
    app_step (expect_skip_app c_pct cs5 eq_refl) cs7.
    rewrite (collect_name_app cs7). destruct (collect_name cs7) as [dname cs8]. cbn [fst snd].
    destruct dname as [|d0 dname]; [reflexivity|].
    app_step (expect_app c_pct cs8 eq_refl) cs9.
    app_step (expect_skip_app c_colon cs9 eq_refl) cs10.
    reflexivity.
  - cbn [bind].
    app_step (expect_skip_app c_colon cs3 eq_refl) cs10.
    reflexivity.
Qed.

Definition amap (a : action) : action :=
  match a with
  | ASkip r => ASkip (r ++ w)
  | APush tk r => APush tk (r ++ w)
  | AOpen r => AOpen (r ++ w)
  | AClose r => AClose (r ++ w)
  end.

(** [app_step] for a final call of [collect_var_dom] *)
Ltac cvd_step s pd :=
  let p := fresh "p" in
  app_step (cvd_app s pd) p; destruct p as [? ?]; reflexivity.

Lemma next_name_app (c : N) (rest : str) :
  app_rel amap (next_name c rest) (next_name c (rest ++ w)).
Proof.
  unfold next_name.
  rewrite (temp_peek_app rest), (peek_name_app rest), (collect_name_app rest).
  destruct ((N.eqb c c_E || N.eqb c c_A)
            && match rest with c2 :: _ => is_temp_op_char c2 | [] => false end) eqn:EA.
  { destruct rest as [|c2 rest2]; [rewrite andb_false_r in EA; discriminate EA|]. cbn [app].
    rewrite (peek_name_app rest2). destruct (peek_name_char rest2).
    - rewrite (collect_name_app rest2). destruct (collect_name rest2) as [name rest3].
      reflexivity.
    - destruct (temporal_token c c2); reflexivity. }
  destruct (N.eqb c c_three && negb (peek_name_char rest)); [cvd_step rest ext|].
  destruct (N.eqb c c_V && negb (peek_name_char rest)); [cvd_step rest ext|].
  destruct (collect_name rest) as [name rest1]. reflexivity.
Qed.

Lemma next_bslash_app (rest : str) : app_rel amap (next_bslash rest) (next_bslash (rest ++ w)).
Proof.
  unfold next_bslash. rewrite (collect_name_app rest).
  destruct (collect_name rest) as [name rest1]. cbn [fst snd].
  destruct (str_eqb name s_exists); [cvd_step rest1 ext|].
  destruct (str_eqb name s_forall); [cvd_step rest1 ext|].
  destruct (str_eqb name s_bind); [cvd_step rest1 ext|].
  destruct (str_eqb name s_jump); [cvd_step rest1 false | reflexivity].
Qed.

Lemma next_app (c : N) (rest : str) : app_rel amap (next c rest) (next c (rest ++ w)).
Proof.
  rewrite !next_class. destruct (class c); cbn [next_of]; try reflexivity.
  - app_step (expect_app c_gt rest eq_refl) r1. reflexivity.
  - app_step (expect_app c_eq rest eq_refl) r1.
    app_step (expect_app c_gt r1 eq_refl) r2. reflexivity.
  - cvd_step rest ext.
  - cvd_step rest false.
  - apply next_bslash_app.
  - rewrite (collect_name_app rest). destruct (collect_name rest) as [name rest1]. cbn [fst snd].
    destruct name as [|n0 name]; [reflexivity|].
    app_step (expect_app c_rbrace rest1 eq_refl) r1. reflexivity.
  - destruct ext; [|reflexivity].
    rewrite (collect_name_app rest). destruct (collect_name rest) as [name rest1]. cbn [fst snd].
    destruct name as [|n0 name]; [reflexivity|].
    app_step (expect_app c_pct rest1 eq_refl) r1. reflexivity.
  - apply next_name_app.
Qed.

Lemma lsim_nil_ws : lsim [] w.
Proof. rewrite <- (app_nil_r w). apply lsim_leading, W. Qed.

Lemma lsim_trailing_aux (n : nat) : forall s, length s <= n -> lsim s (s ++ w).
Proof.
  induction n as [|n IH]; intros s LE.
  - destruct s as [|c rest]; [exact lsim_nil_ws | cbn [length] in LE; lia].
  - destruct s as [|c rest]; [exact lsim_nil_ws|].
    cbn [length] in LE. pose proof (next_app c rest) as E.
    destruct (next_cases c rest) as [[a [N LEN]] | N]; rewrite N in E; cbn [app_rel] in E.
    + destruct a as [r | tk r | r | r]; cbn [amap arest] in E, LEN.
      * eapply lsim_skip; [exact N | exact E | apply IH; lia].
      * eapply lsim_push; [exact N | exact E | apply IH; lia].
      * eapply lsim_open; [exact N | exact E | apply IH; lia].
      * eapply lsim_close; [exact N | exact E | apply IH; lia].
    + eapply lsim_fail; [discriminate | discriminate | exact N | exact E].
Qed.

Lemma lsim_trailing (s : str) : lsim s (s ++ w).
Proof. apply (lsim_trailing_aux (length s)). lia. Qed.

End Trailing.

Theorem tokenize_trailing_ws (s w : str) :
  ws_str w -> peek_name_char w = false -> tokenize ext (s ++ w) = tokenize ext s.
Proof. intros W PW. apply tokenize_lsim, lsim_trailing; assumption. Qed.

Theorem tokenize_trailing_sep (s w : str) :
  sep_str w -> tokenize ext (s ++ w) = tokenize ext s.
Proof.
  intro W. apply tokenize_trailing_ws; [apply sep_str_ws, W|].
  rewrite <- (app_nil_r w). apply peek_sep_str; [exact W | reflexivity].
Qed.

End Lex.
