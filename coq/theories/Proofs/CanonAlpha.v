(** Equal canonical texts = equality up to a consistent renaming of the state variables
    (property C09, the statements about alpha-equivalence).

    The renaming-independent normal form is the "open de Bruijn form" [open_db]: a bound
    variable is the number of quantifiers between the occurrence and its binder, a free
    variable is the rank of its first occurrence in reading order; everything else is literal.

    For sub-formulae of preprocessed formulae ([depth_named]):
    - [ctree_cto]:   the canonical tree is a function ([cto]) of the open de Bruijn form,
    - [odb_cto]:     the open de Bruijn form of the canonical tree is the one of the tree,
    hence two canonical trees (texts) are equal iff the open de Bruijn forms are. *)
From HCTL Require Import Base Syntax Preprocess Canon.
From HCTL Require Import PrepFacts RoundTrip CanonFacts.
From HCTL Require Import BaseFacts.

(** * Open de Bruijn forms *)

Inductive ovar :=
| OBound (i : nat)    (** bound by the [i]-th enclosing quantifier, counted from the inside *)
| OFree (k : nat).    (** the [k]-th distinct free variable in reading order *)

Inductive otree :=
| OVar (v : ovar)
| OProp (p : str)
| OTrue
| OFalse
| OWild (w : str)
| OUnary (o : unop) (c : otree)
| OBinary (o : binop) (l r : otree)
| OQuant (o : hybop) (d : option str) (c : otree)
| OJump (v : ovar) (d : option str) (c : otree).

(** [env]: names of the enclosing quantifiers, innermost first;
    [fv]: the free variables met so far, in order of first occurrence *)
Definition oref (env fv : list str) (x : str) : ovar * list str :=
  match index x env with
  | Some i => (OBound i, fv)
  | None =>
      match index x fv with
      | Some k => (OFree k, fv)
      | None => (OFree (length fv), fv ++ [x])
      end
  end.

(** reading order: left before right, the target of a jump before its body *)
Fixpoint odb (env : list str) (t : tree) (fv : list str) : otree * list str :=
  match t with
  | Terminal (AVar x) => let (v, fv') := oref env fv x in (OVar v, fv')
  | Terminal (AProp p) => (OProp p, fv)
  | Terminal ATrue => (OTrue, fv)
  | Terminal AFalse => (OFalse, fv)
  | Terminal (AWild w) => (OWild w, fv)
  | Unary o c => let (c', fv') := odb env c fv in (OUnary o c', fv')
  | Binary o l r =>
      let (l', fv1) := odb env l fv in
      let (r', fv2) := odb env r fv1 in
      (OBinary o l' r', fv2)
  | Hybrid o x d c =>
      if is_quantifier o then
        let (c', fv') := odb (x :: env) c fv in (OQuant o d c', fv')
      else
        let (v, fv1) := oref env fv x in
        let (c', fv2) := odb env c fv1 in
        (OJump v d c', fv2)
  end.

Definition open_db (t : tree) : otree := fst (odb [] t []).

(** equality up to a consistent renaming of bound and free state variables *)
Definition alpha_eq (t1 t2 : tree) : Prop := open_db t1 = open_db t2.

(** * The canonical tree as a function of the open de Bruijn form *)

(** counter, and the numbers given to the free variables (by rank) *)
Definition ostate := (N * list N)%type.

(** [benv]: the numbers given to the enclosing quantifiers, innermost first *)
Definition oname (benv : list N) (v : ovar) (s : ostate) : str * ostate :=
  match v with
  | OBound i => (canon_name (nth i benv 0%N), s)
  | OFree k =>
      match nth_error (snd s) k with
      | Some c => (canon_name c, s)
      | None => (canon_name (fst s), ((fst s + 1)%N, snd s ++ [fst s]))
      end
  end.

Fixpoint cto (benv : list N) (o : otree) (s : ostate) : tree * ostate :=
  match o with
  | OVar v => let (cn, s') := oname benv v s in (Terminal (AVar cn), s')
  | OProp p => (Terminal (AProp p), s)
  | OTrue => (Terminal ATrue, s)
  | OFalse => (Terminal AFalse, s)
  | OWild w => (Terminal (AWild w), s)
  | OUnary o c => let (c', s') := cto benv c s in (Unary o c', s')
  | OBinary o l r =>
      let (l', s1) := cto benv l s in
      let (r', s2) := cto benv r s1 in
      (Binary o l' r', s2)
  | OQuant o d c =>
      let (c', s') := cto (fst s :: benv) c ((fst s + 1)%N, snd s) in
      (Hybrid o (canon_name (fst s)) d c', s')
  | OJump v d c =>
      let (cn, s1) := oname benv v s in
      let (c', s2) := cto benv c s1 in
      (Hybrid Jump cn d c', s2)
  end.

(** ** the simulation invariant between the map of [ctree] and the state of [cto] *)

(** [d]: the number of quantifiers that enclose the sub-formula (their names [xs (S m)],
    [m < d], are free in it); [benv]/[fenv]: the numbers [cto] has given to the binders entered
    and to the free variables [fv] met so far.  The clauses: one number per free variable;
    the binder entered [i] steps ago, named [xs (length benv + d - i)] by preprocessing, is
    mapped to its number; so is each free variable met; the free variables are enclosing
    names; an enclosing name not met yet has no entry ([cocc] issues a fresh number exactly
    when [oref] appends) *)
Definition map_sim (d : nat) (fv : list str) (ren : list (str * str)) (benv fenv : list N) : Prop :=
  length fenv = length fv
  /\ (forall i c, nth_error benv i = Some c ->
        alookup str_eqb (xs (length benv + d - i)) ren = Some (canon_name c))
  /\ (forall k x c, nth_error fv k = Some x -> nth_error fenv k = Some c ->
        alookup str_eqb x ren = Some (canon_name c))
  /\ (forall x, In x fv -> exists m, m < d /\ x = xs (S m))
  /\ (forall m, m < d -> ~ In (xs (S m)) fv -> alookup str_eqb (xs (S m)) ren = None).

Lemma map_sim_init (d : nat) : map_sim d [] [] [] [].
Proof.
  split; [reflexivity|]. split; [intros [|i] c H; discriminate H|].
  split; [intros [|k] x c H; discriminate H|]. split; [intros x []|]. reflexivity.
Qed.

(** a quantifier is entered ... *)
Lemma map_sim_push d fv ren benv fenv cnt :
  map_sim d fv ren benv fenv ->
  map_sim d fv (ainsert str_eqb (xs (S (length benv + d))) (canon_name cnt) ren) (cnt :: benv) fenv.
Proof.
  intros (LEN & BE & FE & FN & UN).
  split; [exact LEN|]. split; [|split; [|split; [exact FN|]]].
  - intros i c NB. rewrite alookup_ainsert. cbn [length]. destruct i as [|i].
    + injection NB as <-. rewrite Nat.sub_0_r, str_eqb_refl. reflexivity.
    + cbn [nth_error] in NB. pose proof (nth_error_lt _ _ _ NB) as LT.
      rewrite xs_eqb_neq by lia. apply BE, NB.
  - intros k x c NX NC. rewrite alookup_ainsert.
    destruct (FN x (nth_error_In _ _ NX)) as (m & LT & ->).
    rewrite xs_eqb_neq by lia. eapply FE; eassumption.
  - intros m LT NIN. rewrite alookup_ainsert. rewrite xs_eqb_neq by lia. apply UN; assumption.
Qed.

(** ... and left: its map entry stays, nothing refers to it any more *)
Lemma map_sim_pop d fv ren benv fenv cnt :
  map_sim d fv ren (cnt :: benv) fenv -> map_sim d fv ren benv fenv.
Proof.
  intros (LEN & BE & FE & FN & UN).
  split; [exact LEN|]. split; [|split; [exact FE | split; [exact FN | exact UN]]].
  intros i c NB. exact (BE (S i) c NB).
Qed.

(** a free variable is met for the first time *)
Lemma map_sim_snoc d fv ren benv fenv cnt k :
  k < d -> ~ In (xs (S k)) fv -> map_sim d fv ren benv fenv ->
  map_sim d (fv ++ [xs (S k)]) (ainsert str_eqb (xs (S k)) (canon_name cnt) ren)
          benv (fenv ++ [cnt]).
Proof.
  intros FREE NIN (LEN & BE & FE & FN & UN).
  split; [rewrite !app_length; cbn [length]; lia|]. split; [|split; [|split]].
  - intros i c NB. pose proof (nth_error_lt _ _ _ NB) as LTi.
    rewrite alookup_ainsert. rewrite xs_eqb_neq by lia. apply BE, NB.
  - intros k' y c NY NC. rewrite alookup_ainsert.
    destruct (Nat.lt_ge_cases k' (length fv)) as [IN|OUT].
    + rewrite nth_error_app1 in NY by lia. rewrite nth_error_app1 in NC by lia.
      assert (y <> xs (S k)) as NE
        by (intro E; subst y; apply NIN; eapply nth_error_In; exact NY).
      apply str_eqb_neq in NE. rewrite NE. eapply FE; eassumption.
    + rewrite nth_error_app2 in NY by lia. rewrite nth_error_app2 in NC by lia.
      rewrite LEN in NC. destruct (k' - length fv) as [|[|n]]; try discriminate NY.
      injection NY as <-. injection NC as <-. rewrite str_eqb_refl. reflexivity.
  - intros y IN. apply in_app_or in IN. destruct IN as [IN | [<- | []]]; [apply FN, IN|].
    exists k. split; [exact FREE | reflexivity].
  - intros m LTm NINm. rewrite alookup_ainsert.
    assert (m <> k) as NE
      by (intro E; subst m; apply NINm, in_or_app; right; left; reflexivity).
    rewrite xs_eqb_neq by lia. apply UN; [exact LTm|].
    intro IN. apply NINm, in_or_app. left. exact IN.
Qed.

(** at a name [xs (S k)], [oname] after [oref] gives the name [cocc] gives: the number of its
    binder if that has been entered ([d <= k]), else the number of the free variable if it was
    met before, else the counter, which both record *)
Lemma map_sim_occ d x benv fv ren fenv cnt :
  (exists k, k < length benv + d /\ x = xs (S k)) ->
  map_sim d fv ren benv fenv ->
  exists fenv',
    oname benv (fst (oref (bscope d (length benv)) fv x)) (cnt, fenv)
    = (fst (cocc x (cnt, ren)), (fst (snd (cocc x (cnt, ren))), fenv'))
    /\ map_sim d (snd (oref (bscope d (length benv)) fv x)) (snd (snd (cocc x (cnt, ren))))
           benv fenv'.
Proof.
  intros (k & LT & ->) SIM. pose proof SIM as (LEN & BE & FE & FN & UN).
  unfold oref, cocc. cbn [snd]. destruct (Nat.lt_ge_cases k d) as [FREE|BOUND].
  - rewrite index_bscope_out by (left; exact FREE).
    destruct (index (xs (S k)) fv) as [k'|] eqn:I.
    + destruct (index_nth _ _ _ I) as [NTH _]. destruct (index_some _ _ _ I) as [LTk _].
      destruct (nth_error fenv k') as [c|] eqn:NF; [|apply nth_error_None in NF; lia].
      rewrite (FE k' _ c NTH NF). cbn [fst snd oname]. rewrite NF.
      exists fenv. split; [reflexivity | exact SIM].
    + pose proof (index_none _ _ I) as NIN. rewrite (UN k FREE NIN).
      unfold cbind. cbn [fst snd oname].
      assert (nth_error fenv (length fv) = None) as -> by (apply nth_error_None; lia).
      exists (fenv ++ [cnt]). split; [reflexivity | apply map_sim_snoc; assumption].
  - rewrite index_bscope_bound by lia. cbn [fst snd oname].
    destruct (nth_error benv (length benv + d - S k)) as [c|] eqn:NB;
      [|apply nth_error_None in NB; lia].
    pose proof (BE _ c NB) as L.
    replace (length benv + d - (length benv + d - S k)) with (S k) in L by lia.
    rewrite L, (nth_error_nth _ _ _ NB). exists fenv. split; [reflexivity | exact SIM].
Qed.

Lemma ctree_cto (d : nat) (t : tree) :
  forall benv fv ren fenv cnt,
    depth_named (length benv + d) t ->
    map_sim d fv ren benv fenv ->
    exists fenv',
      cto benv (fst (odb (bscope d (length benv)) t fv)) (cnt, fenv)
      = (fst (ctree t (cnt, ren)), (fst (snd (ctree t (cnt, ren))), fenv'))
      /\ map_sim d (snd (odb (bscope d (length benv)) t fv)) (snd (snd (ctree t (cnt, ren))))
             benv fenv'.
Proof.
  intros benv fv ren fenv cnt. revert benv fv fenv.
  refine (ctree_graph (fun t s t' s' => forall benv fv fenv,
            depth_named (length benv + d) t -> map_sim d fv (snd s) benv fenv ->
            exists fenv',
              cto benv (fst (odb (bscope d (length benv)) t fv)) (fst s, fenv)
              = (t', (fst s', fenv'))
              /\ map_sim d (snd (odb (bscope d (length benv)) t fv)) (snd s') benv fenv')
            _ _ _ _ _ t (cnt, ren)); clear; cbn [depth_named odb].
  - intros a s NV benv fv fenv _ SIM. exists fenv.
    destruct a; try (split; [reflexivity | exact SIM]). destruct (NV _ eq_refl).
  - intros x [cnt ren] benv fv fenv DN SIM. rewrite let_pair. cbn [fst snd cto]. rewrite let_pair.
    destruct (map_sim_occ d x benv fv ren fenv cnt DN SIM) as (fenv' & E & SIM').
    exists fenv'. rewrite E. auto.
  - intros o c s c' s' IH benv fv fenv DN SIM.
    rewrite let_pair. cbn [fst snd cto]. rewrite let_pair.
    destruct (IH benv fv fenv DN SIM) as (fenv' & E & SIM'). exists fenv'. rewrite E. auto.
  - intros o l r s l' s1 r' s2 IHl IHr benv fv fenv [DNl DNr] SIM.
    rewrite !let_pair. cbn [fst snd cto]. rewrite !let_pair.
    destruct (IHl benv fv fenv DNl SIM) as (fenv1 & El & SIM1). rewrite El. cbn [fst snd].
    destruct (IHr benv _ fenv1 DNr SIM1) as (fenv2 & Er & SIM2). exists fenv2. rewrite Er. auto.
  - intros o x dm c [cnt ren] c' s2 IH benv fv fenv DN SIM.
    destruct (is_quantifier o) eqn:Q; rewrite !let_pair; cbn [fst snd cto cstep cbind] in *;
      rewrite !let_pair.
    + destruct DN as [-> DN].
      destruct (IH (cnt :: benv) fv fenv DN (map_sim_push _ _ _ _ _ cnt SIM)) as (fenv' & E & SIM').
      exists fenv'. cbn [length bscope] in E, SIM'. rewrite E.
      split; [reflexivity | eapply map_sim_pop; exact SIM'].
    + destruct DN as [DNx DN]. apply not_quantifier_jump in Q. subst o.
      destruct (map_sim_occ d x benv fv ren fenv cnt DNx SIM) as (fenv1 & Ex & SIM1).
      rewrite Ex. cbn [fst snd].
      destruct (cocc x (cnt, ren)) as [cn [cnt1 ren1]]. cbn [fst snd] in *.
      destruct (IH benv _ fenv1 DN SIM1) as (fenv2 & Ec & SIM2). exists fenv2. rewrite Ec. auto.
Qed.

(** the canonical tree of a sub-formula of a preprocessed formula is determined by its open
    de Bruijn form *)
Theorem canon_tree_of_open_db (d : nat) (t : tree) :
  depth_named d t -> canon_tree t = fst (cto [] (open_db t) (0%N, [])).
Proof.
  intro DN. unfold canon_tree, open_db.
  destruct (ctree_cto d t [] [] [] [] 0%N DN (map_sim_init d)) as (fenv' & E & _).
  cbn [length bscope] in E. rewrite E. reflexivity.
Qed.

(** * The open de Bruijn form of the canonical tree *)

(** the numbers given to the enclosing quantifiers [env] and to the free variables [fv]:
    one for each (the two length equations), pairwise distinct, all below the counter *)
Definition numbered (cnt : N) (benv fenv : list N) (env fv : list str) : Prop :=
  length benv = length env /\ length fenv = length fv
  /\ NoDup (benv ++ fenv) /\ forall c, In c (benv ++ fenv) -> (c < cnt)%N.

Lemma index_canon_notin (c : N) (l : list N) :
  ~ In c l -> index (canon_name c) (map canon_name l) = None.
Proof.
  intro NIN. apply index_not_in. intro IN. apply in_map_iff in IN.
  destruct IN as (c' & E & IN). apply canon_name_inj in E. subst c'. exact (NIN IN).
Qed.

Lemma index_canon_nth (l : list N) :
  forall i c, NoDup l -> nth_error l i = Some c ->
              index (canon_name c) (map canon_name l) = Some i.
Proof.
  induction l as [|a l IH]; intros i c ND NTH; [destruct i; discriminate NTH|].
  inversion ND as [|a' l' NIN ND' E]; subst. cbn [map index]. destruct i as [|i].
  - injection NTH as <-. rewrite str_eqb_refl. reflexivity.
  - cbn [nth_error] in NTH.
    assert (canon_name c <> canon_name a) as NE.
    { intro E. apply canon_name_inj in E. subst c. apply NIN. eapply nth_error_In; exact NTH. }
    apply str_eqb_neq in NE. rewrite NE. rewrite (IH i c ND' NTH). reflexivity.
Qed.

Lemma numbered_snoc cnt benv fenv env fv x :
  numbered cnt benv fenv env fv -> numbered (cnt + 1) benv (fenv ++ [cnt]) env (fv ++ [x]).
Proof.
  intros (LB & LF & ND & LT). split; [exact LB|]. split; [rewrite !app_length, LF; reflexivity|].
  split.
  - rewrite app_assoc. apply NoDup_app_iff. split; [exact ND|].
    split; [constructor; [intros [] | constructor]|].
    intros c IN [<- | []]. specialize (LT _ IN). lia.
  - intros c IN. rewrite app_assoc in IN. apply in_app_or in IN.
    destruct IN as [IN | [<- | []]]; [specialize (LT _ IN)|]; lia.
Qed.

Lemma numbered_push cnt benv fenv env fv x :
  numbered cnt benv fenv env fv -> numbered (cnt + 1) (cnt :: benv) fenv (x :: env) fv.
Proof.
  intros (LB & LF & ND & LT). split; [cbn [length]; rewrite LB; reflexivity|].
  split; [exact LF|]. split.
  - cbn [app]. constructor; [|exact ND]. intro IN. specialize (LT _ IN). lia.
  - intros c IN. cbn [app In] in IN. destruct IN as [<- | IN]; [|specialize (LT _ IN)]; lia.
Qed.

Lemma numbered_pop cnt cnt' benv fenv env fv x :
  numbered cnt' (cnt :: benv) fenv (x :: env) fv -> numbered cnt' benv fenv env fv.
Proof.
  intros (LB & LF & ND & LT). split; [injection LB as LB; exact LB|]. split; [exact LF|]. split.
  - cbn [app] in ND. inversion ND; assumption.
  - intros c IN. apply LT. cbn [app In]. right. exact IN.
Qed.

(** a variable: reading back the name given by [oname] *)
Lemma oref_oname env fv x benv s v fv' cn s' :
  oref env fv x = (v, fv') -> oname benv v s = (cn, s') ->
  numbered (fst s) benv (snd s) env fv ->
  oref (map canon_name benv) (map canon_name (snd s)) cn = (v, map canon_name (snd s'))
  /\ numbered (fst s') benv (snd s') env fv'.
Proof.
  destruct s as [cnt fenv]. cbn [fst snd]. intros Ho Hn FR. pose proof FR as (LB & LF & ND & LT).
  apply NoDup_app_iff in ND as (NDb & NDf & DISJ). unfold oref in *.
  destruct (index x env) as [i|] eqn:IE.
  - injection Ho as <- <-. cbn [oname] in Hn. injection Hn as <- <-.
    destruct (index_some _ _ _ IE) as [LTi _].
    assert (nth_error benv i = Some (nth i benv 0%N)) as NB by (apply nth_error_nth'; lia).
    rewrite (index_canon_nth benv i _ NDb NB). split; [reflexivity | exact FR].
  - destruct (index x fv) as [k|] eqn:IF; injection Ho as <- <-; cbn [oname fst snd] in Hn.
    + destruct (index_some _ _ _ IF) as [LTk _].
      destruct (nth_error fenv k) as [c|] eqn:NF; [|apply nth_error_None in NF; lia].
      injection Hn as <- <-. cbn [snd]. split; [|exact FR].
      rewrite index_canon_notin by (intro IN; exact (DISJ c IN (nth_error_In _ _ NF))).
      rewrite (index_canon_nth fenv k c NDf NF). reflexivity.
    + assert (nth_error fenv (length fv) = None) as NF by (apply nth_error_None; lia).
      rewrite NF in Hn. injection Hn as <- <-. cbn [fst snd]. split; [|apply numbered_snoc, FR].
      rewrite !index_canon_notin
        by (intro IN; assert (cnt < cnt)%N by (apply LT, in_or_app; auto); lia).
      rewrite map_length, LF, map_app. reflexivity.
Qed.

(* stated over the results of the two traversals, named, so that no step of the proof
   carries the traversals themselves *)
Lemma odb_cto (t : tree) :
  forall env fv benv s o fv' t' s',
    odb env t fv = (o, fv') -> cto benv o s = (t', s') ->
    numbered (fst s) benv (snd s) env fv ->
    odb (map canon_name benv) t' (map canon_name (snd s)) = (o, map canon_name (snd s'))
    /\ numbered (fst s') benv (snd s') env fv'.
Proof.
  induction t as [a | o c IH | o l IHl r IHr | o x dm c IH];
    intros env fv benv s ot fv' t' s' Ho Hc FR; cbn [odb] in Ho.
  - destruct a as [p | x | | | w];
      try (injection Ho as <- <-; cbn [cto] in Hc; injection Hc as <- <-;
           split; [reflexivity | exact FR]).
    destruct (oref env fv x) as [v fv1] eqn:Ev. injection Ho as <- <-. cbn [cto] in Hc.
    destruct (oname benv v s) as [cn s1] eqn:En. injection Hc as <- <-.
    destruct (oref_oname _ _ _ _ _ _ _ _ _ Ev En FR) as [E FR']. cbn [odb]. rewrite E. auto.
  - destruct (odb env c fv) as [c' fv1] eqn:Ec. injection Ho as <- <-. cbn [cto] in Hc.
    destruct (cto benv c' s) as [tc s1] eqn:Cc. injection Hc as <- <-.
    destruct (IH _ _ _ _ _ _ _ _ Ec Cc FR) as [E FR']. cbn [odb]. rewrite E. auto.
  - destruct (odb env l fv) as [l' fv1] eqn:El. destruct (odb env r fv1) as [r' fv2] eqn:Er.
    injection Ho as <- <-. cbn [cto] in Hc.
    destruct (cto benv l' s) as [tl s1] eqn:Cl. destruct (cto benv r' s1) as [tr s2] eqn:Cr.
    injection Hc as <- <-.
    destruct (IHl _ _ _ _ _ _ _ _ El Cl FR) as [E1 FR1].
    destruct (IHr _ _ _ _ _ _ _ _ Er Cr FR1) as [E2 FR2]. cbn [odb]. rewrite E1, E2. auto.
  - destruct (is_quantifier o) eqn:Q.
    + destruct (odb (x :: env) c fv) as [c' fv1] eqn:Ec. injection Ho as <- <-. cbn [cto] in Hc.
      destruct (cto (fst s :: benv) c' ((fst s + 1)%N, snd s)) as [tc s1] eqn:Cc.
      injection Hc as <- <-.
      destruct (IH _ _ _ _ _ _ _ _ Ec Cc (numbered_push _ _ _ _ _ x FR)) as [E FR'].
      cbn [odb map fst snd] in *. rewrite Q, E.
      split; [reflexivity | eapply numbered_pop; exact FR'].
    + destruct (oref env fv x) as [v fv1] eqn:Ev. destruct (odb env c fv1) as [c' fv2] eqn:Ec.
      injection Ho as <- <-. cbn [cto] in Hc.
      destruct (oname benv v s) as [cn s1] eqn:En. destruct (cto benv c' s1) as [tc s2] eqn:Cc.
      injection Hc as <- <-.
      destruct (oref_oname _ _ _ _ _ _ _ _ _ Ev En FR) as [E1 FR1].
      destruct (IH _ _ _ _ _ _ _ _ Ec Cc FR1) as [E2 FR2].
      cbn [odb is_quantifier]. rewrite E1, E2. auto.
Qed.

(** canonisation does not change the open de Bruijn form *)
Theorem open_db_canon_tree (d : nat) (t : tree) :
  depth_named d t -> open_db (canon_tree t) = open_db t.
Proof.
  intro DN. rewrite (canon_tree_of_open_db d t DN). unfold open_db.
  destruct (odb [] t []) as [o fv] eqn:Eo. cbn [fst].
  destruct (cto [] o (0%N, [])) as [t' s'] eqn:Ec.
  destruct (odb_cto t [] [] [] (0%N, []) o fv t' s' Eo Ec) as (E & _).
  { repeat split; [constructor | intros c []]. }
  cbn [map fst snd] in *. rewrite E. reflexivity.
Qed.

Theorem canon_tree_iff_alpha (d1 d2 : nat) (t1 t2 : tree) :
  depth_named d1 t1 -> depth_named d2 t2 ->
  (canon_tree t1 = canon_tree t2 <-> alpha_eq t1 t2).
Proof.
  intros DN1 DN2. unfold alpha_eq. split.
  - intro E. rewrite <- (open_db_canon_tree d1 t1 DN1), <- (open_db_canon_tree d2 t2 DN2), E.
    reflexivity.
  - intro E. rewrite (canon_tree_of_open_db d1 t1 DN1), (canon_tree_of_open_db d2 t2 DN2), E.
    reflexivity.
Qed.

(** * Canonical texts *)

(** equal canonical texts: the sub-formulae are equal up to renaming (what caching relies on) *)
Theorem canon_text_alpha (ext_alnum : N -> bool) (ext : bool) (d1 d2 : nat) (t1 t2 : tree) :
  well_named ext_alnum ext t1 -> well_named ext_alnum ext t2 ->
  depth_named d1 t1 -> depth_named d2 t2 ->
  fst (canonize (render t1)) = fst (canonize (render t2)) -> alpha_eq t1 t2.
Proof.
  intros W1 W2 DN1 DN2 E.
  apply (canon_tree_iff_alpha d1 d2 t1 t2 DN1 DN2), (canon_text_tree ext_alnum ext); assumption.
Qed.

(** sub-formulae equal up to renaming have the same canonical text *)
Theorem alpha_canon_text (d1 d2 : nat) (t1 t2 : tree) :
  canon_ok t1 -> canon_ok t2 -> depth_named d1 t1 -> depth_named d2 t2 ->
  alpha_eq t1 t2 -> fst (canonize (render t1)) = fst (canonize (render t2)).
Proof.
  intros OK1 OK2 DN1 DN2 E.
  rewrite (canon_commutes t1 OK1), (canon_commutes t2 OK2). cbn [fst]. f_equal.
  apply (canon_tree_iff_alpha d1 d2 t1 t2 DN1 DN2), E.
Qed.

Theorem canon_iff_alpha (ext_alnum : N -> bool) (ext : bool) (d1 d2 : nat) (t1 t2 : tree) :
  well_named ext_alnum ext t1 -> well_named ext_alnum ext t2 ->
  depth_named d1 t1 -> depth_named d2 t2 ->
  (fst (canonize (render t1)) = fst (canonize (render t2)) <-> alpha_eq t1 t2).
Proof.
  intros W1 W2 DN1 DN2. split.
  - apply (canon_text_alpha ext_alnum ext d1 d2); assumption.
  - apply (alpha_canon_text d1 d2); try assumption;
      eapply well_named_canon_ok; eassumption.
Qed.

(** * Relation with the de Bruijn form of PrepFacts (free variables keep their name there) *)

Definition o_of_dvar (fv : list str) (v : dvar) : ovar * list str :=
  match v with
  | DBound i => (OBound i, fv)
  | DFree x =>
      match index x fv with
      | Some k => (OFree k, fv)
      | None => (OFree (length fv), fv ++ [x])
      end
  end.

Fixpoint o_of_d (t : dtree) (fv : list str) : otree * list str :=
  match t with
  | DVar v => let (v', fv') := o_of_dvar fv v in (OVar v', fv')
  | DProp p => (OProp p, fv)
  | DTrue => (OTrue, fv)
  | DFalse => (OFalse, fv)
  | DWild w => (OWild w, fv)
  | DUnary o c => let (c', fv') := o_of_d c fv in (OUnary o c', fv')
  | DBinary o l r =>
      let (l', fv1) := o_of_d l fv in
      let (r', fv2) := o_of_d r fv1 in
      (OBinary o l' r', fv2)
  | DQuant o d c => let (c', fv') := o_of_d c fv in (OQuant o d c', fv')
  | DJump v d c =>
      let (v', fv1) := o_of_dvar fv v in
      let (c', fv2) := o_of_d c fv1 in
      (OJump v' d c', fv2)
  end.

Lemma oref_of_dref env fv x : oref env fv x = o_of_dvar fv (dref env x).
Proof. unfold oref, dref. destruct (index x env); reflexivity. Qed.

Lemma odb_of_db (t : tree) : forall env fv, odb env t fv = o_of_d (db env t) fv.
Proof.
  induction t as [a | o c IH | o l IHl r IHr | o x d c IH]; intros env fv; cbn [odb db].
  - destruct a; cbn [o_of_d]; try reflexivity. rewrite oref_of_dref. reflexivity.
  - cbn [o_of_d]. rewrite IH. reflexivity.
  - cbn [o_of_d]. rewrite !let_pair, IHl, IHr. reflexivity.
  - destruct (is_quantifier o); cbn [o_of_d]; rewrite !let_pair, ?oref_of_dref, IH; reflexivity.
Qed.

(** formulae with the same de Bruijn form (same free names) are equal up to renaming *)
Theorem db_alpha_eq (t1 t2 : tree) : db [] t1 = db [] t2 -> alpha_eq t1 t2.
Proof. intro E. unfold alpha_eq, open_db. rewrite !odb_of_db, E. reflexivity. Qed.

(** * The open de Bruijn form is invariant under injective renamings of all variables *)

Fixpoint vmap (sigma : str -> str) (t : tree) : tree :=
  match t with
  | Terminal (AVar x) => Terminal (AVar (sigma x))
  | Terminal _ => t
  | Unary o c => Unary o (vmap sigma c)
  | Binary o l r => Binary o (vmap sigma l) (vmap sigma r)
  | Hybrid o x d c => Hybrid o (sigma x) d (vmap sigma c)
  end.

Section Renaming.
Variable sigma : str -> str.
Hypothesis sigma_inj : forall x y, sigma x = sigma y -> x = y.

Lemma index_map_inj (x : str) (l : list str) : index (sigma x) (map sigma l) = index x l.
Proof.
  induction l as [|y l IH]; [reflexivity|]. cbn [map index]. rewrite IH.
  destruct (str_eqb x y) eqn:E; str_eq.
  - subst y. rewrite str_eqb_refl. reflexivity.
  - assert (sigma x <> sigma y) as NE by (intro H; apply E, sigma_inj, H).
    apply str_eqb_neq in NE. rewrite NE. reflexivity.
Qed.

Lemma oref_vmap (env fv : list str) (x : str) :
  oref (map sigma env) (map sigma fv) (sigma x)
  = (fst (oref env fv x), map sigma (snd (oref env fv x))).
Proof.
  unfold oref. rewrite !index_map_inj.
  destruct (index x env); [reflexivity|]. destruct (index x fv); [reflexivity|].
  cbn [fst snd]. rewrite map_length, map_app. reflexivity.
Qed.

Lemma odb_vmap (t : tree) :
  forall env fv,
    odb (map sigma env) (vmap sigma t) (map sigma fv)
    = (fst (odb env t fv), map sigma (snd (odb env t fv))).
Proof.
  induction t as [a | o c IH | o l IHl r IHr | o x d c IH]; intros env fv; cbn [vmap odb].
  - destruct a as [p | x | | | w]; cbn [vmap odb]; try reflexivity.
    rewrite !let_pair, oref_vmap. reflexivity.
  - rewrite !let_pair, IH. reflexivity.
  - rewrite !let_pair, IHl. cbn [fst snd]. rewrite IHr. reflexivity.
  - destruct (is_quantifier o); rewrite !let_pair.
    + change (sigma x :: map sigma env) with (map sigma (x :: env)). rewrite IH. reflexivity.
    + rewrite oref_vmap. cbn [fst snd]. rewrite IH. reflexivity.
Qed.

Theorem alpha_eq_vmap (t : tree) : alpha_eq (vmap sigma t) t.
Proof.
  unfold alpha_eq, open_db.
  change (@nil str) with (map sigma []) at 1 2. rewrite odb_vmap. reflexivity.
Qed.

End Renaming.
