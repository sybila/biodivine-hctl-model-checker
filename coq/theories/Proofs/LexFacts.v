(** The lexical half of property C05: a declarative reading [Lex ext s ts] of a text as a
    token list, by cases on the head of the input, and the proof that [tokenize] answers
    [Ok ts] exactly for the readings.  The tokenizer is looked at only through its step
    function [next] (SpacingFacts.v): [next_sound] says that every iteration follows a rule
    of [LexR], the step equations say that every rule is an iteration.  Consequences: the
    extended syntax is conservative over the plain one; a reading without wild cards and
    domains is a reading in either syntax; the plain syntax rejects every text containing
    '%', and on texts without '%' the two syntaxes coincide.

    All statements hold for an arbitrary classification [ext_alnum] of the code points
    >= 128.  The only place where this generality shows: a code point that is classified as
    white space AND as alphanumeric (none exists in Unicode) is skipped when it stands at the
    head of the input, but is part of an identifier when it follows a name character.  The
    specification says so explicitly ([head_not_ws] in [ident]). *)
From HCTL Require Import Base Syntax Tokenizer Parser Preprocess Pipeline.
From HCTL Require Import SpacingFacts.
From HCTL Require Import EvalPure PrepFacts ParserFacts NoPanic RoundTrip.
From HCTL Require Import BaseFacts.

Definition symbol_tokens : list (N * token) :=
  [(c_tilde, TUn Not); (c_amp, TBin And); (c_bar, TBin Or); (c_caret, TBin Xor)].

(** identifiers that are operators (iff the identifier is exactly that word) *)
Definition keyword_tokens : list (str * token) :=
  [(unop_str EX, TUn EX); (unop_str AX, TUn AX); (unop_str EF, TUn EF); (unop_str AF, TUn AF);
   (unop_str EG, TUn EG); (unop_str AG, TUn AG);
   (binop_str EU, TBin EU); (binop_str AU, TBin AU); (binop_str EW, TBin EW);
   (binop_str AW, TBin AW)].

(** identifiers that start a hybrid segment: "3" and "V" *)
Definition quantifier_words : list (str * hybop) :=
  [(hybop_str Exists, Exists); (hybop_str Forall, Forall)].

(** the other starts of a hybrid segment: '!' '@', and after a backslash the long names *)
Definition hybrid_symbols : list (N * hybop) := [(c_bang, Bind); (c_at, Jump)].
Definition hybrid_words : list (str * hybop) :=
  [(s_exists, Exists); (s_forall, Forall); (s_bind, Bind); (s_jump, Jump)].

(** a domain may follow the variable of a hybrid operator only in the extended syntax and
    never after a jump *)
Definition dom_allowed (ext : bool) (o : hybop) : bool :=
  match o with Jump => false | _ => ext end.

Lemma dom_allowed_pd (ext : bool) (o : hybop) : dom_allowed ext o = hyb_pd ext o.
Proof. reflexivity. Qed.

Definition ws_run (w : str) : Prop := List.Forall (fun c => is_ws c = true) w.

Lemma ws_run_str (w : str) : ws_run w -> ws_str w.
Proof. intro W. apply forallb_forall. apply Forall_forall, W. Qed.

(** a fact about every entry of a table holds of what a lookup finds *)
Lemma alookup_table {K V} (eqb : K -> K -> bool) (eqb_eq : forall a b, eqb a b = true <-> a = b)
      (P : K -> V -> Prop) (l : list (K * V)) :
  List.Forall (fun kv => P (fst kv) (snd kv)) l ->
  forall k v, alookup eqb k l = Some v -> P k v.
Proof.
  intros F k v H. apply (alookup_in eqb eqb_eq) in H.
  rewrite Forall_forall in F. exact (F _ H).
Qed.

(** the operator words and the quantifier words are the [reserved] names; the quantifier
    words and the long names are spellings of [hyb_heads] *)
Lemma keyword_reserved : forall w t, alookup str_eqb w keyword_tokens = Some t -> reserved w = true.
Proof. apply (alookup_table str_eqb str_eqb_eq). repeat constructor. Qed.

Lemma quantifier_head : forall w o, alookup str_eqb w quantifier_words = Some o ->
  reserved w = true /\ In (w, o) hyb_heads /\ forall ext, dom_allowed ext o = ext.
Proof.
  apply (alookup_table str_eqb str_eqb_eq).
  repeat (apply Forall_cons; [cbn [fst snd hyb_heads In]; auto 10|]). apply Forall_nil.
Qed.

Lemma hybrid_word_head : forall w o,
  alookup str_eqb w hybrid_words = Some o -> In (c_bslash :: w, o) hyb_heads.
Proof.
  apply (alookup_table str_eqb str_eqb_eq).
  repeat (apply Forall_cons; [cbn [fst snd hyb_heads In]; auto 10|]). apply Forall_nil.
Qed.

Definition op_tok (t : token) : Prop := match t with TUn _ | TBin _ => True | _ => False end.

Lemma op_tokens :
  List.Forall (fun kt => op_tok (snd kt)) symbol_tokens
  /\ List.Forall (fun kt => op_tok (snd kt)) keyword_tokens.
Proof. split; repeat constructor. Qed.

Section Lex.
Variable ext_alnum : N -> bool.

Local Notation nchar := (is_name_char ext_alnum).
Local Notation cname := (collect_name ext_alnum).
Local Notation pnc := (peek_name_char ext_alnum).
Local Notation cvd := (collect_var_dom ext_alnum).
Local Notation tk := (tok ext_alnum).
Local Notation name_ok := (name_ok ext_alnum).
Local Notation name_chars := (List.Forall (fun c => nchar c = true)).

(** [w] is an IDENTIFIER at the head of [w ++ r]: a maximal non-empty run of name characters
    ([name_ok]: non-empty, name characters only), not starting with white space *)
Definition ident (w r : str) : Prop := name_ok w /\ head_not_ws w /\ pnc r = false.

(** the rest of a hybrid segment, after the operator:
      ws* '{' name '}' ws* ':'                          or, if [dom] (domains allowed),
      ws* '{' name '}' ws* 'i' 'n' ws* '%' name '%' ws* ':'
    [HybSeg dom cs x d r]: [cs] starts with such a segment naming the variable [x] and the
    domain [d]; [r] is what follows the colon *)
Inductive HybSeg (dom : bool) : str -> str -> option str -> str -> Prop :=
| HS_plain : forall w1 x w2 r,
    ws_run w1 -> name_ok x -> ws_run w2 ->
    HybSeg dom (w1 ++ c_lbrace :: x ++ c_rbrace :: w2 ++ c_colon :: r) x None r
| HS_dom : forall w1 x w2 w3 d w4 r,
    dom = true ->
    ws_run w1 -> name_ok x -> ws_run w2 -> ws_run w3 -> name_ok d -> ws_run w4 ->
    HybSeg dom (w1 ++ c_lbrace :: x ++ c_rbrace :: w2 ++ c_i :: c_n :: w3
                   ++ c_pct :: d ++ c_pct :: w4 ++ c_colon :: r) x (Some d) r.

(** [LexR ext top cs ts out]: the input [cs] consists of the tokens [ts], followed
    - at top level ([top = true]) by the end of the input ([out = []]),
    - inside parentheses ([top = false]) by the closing ')' and the rest [out]. *)
Inductive LexR (ext : bool) : bool -> str -> list token -> str -> Prop :=
| LR_end : LexR ext true [] [] []
| LR_close : forall out, LexR ext false (c_rpar :: out) [] out
| LR_ws : forall top c cs ts out,
    is_ws c = true -> LexR ext top cs ts out -> LexR ext top (c :: cs) ts out
| LR_symbol : forall top c t cs ts out,
    alookup N.eqb c symbol_tokens = Some t ->
    LexR ext top cs ts out -> LexR ext top (c :: cs) (t :: ts) out
| LR_imp : forall top cs ts out,
    LexR ext top cs ts out -> LexR ext top (c_eq :: c_gt :: cs) (TBin Imp :: ts) out
| LR_iff : forall top cs ts out,
    LexR ext top cs ts out -> LexR ext top (c_lt :: c_eq :: c_gt :: cs) (TBin Iff :: ts) out
| LR_keyword : forall top w r t ts out,
    ident w r -> alookup str_eqb w keyword_tokens = Some t ->
    LexR ext top r ts out -> LexR ext top (w ++ r) (t :: ts) out
| LR_quantifier : forall top w r o x d r' ts out,
    ident w r -> alookup str_eqb w quantifier_words = Some o ->
    HybSeg (dom_allowed ext o) r x d r' ->
    LexR ext top r' ts out -> LexR ext top (w ++ r) (THyb o x d :: ts) out
| LR_prop : forall top w r ts out,
    ident w r ->
    alookup str_eqb w keyword_tokens = None -> alookup str_eqb w quantifier_words = None ->
    LexR ext top r ts out -> LexR ext top (w ++ r) (TAtom (AProp w) :: ts) out
| LR_hybrid_symbol : forall top c o cs x d r' ts out,
    alookup N.eqb c hybrid_symbols = Some o ->
    HybSeg (dom_allowed ext o) cs x d r' ->
    LexR ext top r' ts out -> LexR ext top (c :: cs) (THyb o x d :: ts) out
| LR_hybrid_word : forall top w r o x d r' ts out,
    name_chars w -> pnc r = false ->            (* the maximal name after the backslash *)
    alookup str_eqb w hybrid_words = Some o ->
    HybSeg (dom_allowed ext o) r x d r' ->
    LexR ext top r' ts out -> LexR ext top (c_bslash :: w ++ r) (THyb o x d :: ts) out
| LR_var : forall top x cs ts out,
    name_ok x ->
    LexR ext top cs ts out ->
    LexR ext top (c_lbrace :: x ++ c_rbrace :: cs) (TAtom (AVar x) :: ts) out
| LR_wild : forall top x cs ts out,
    ext = true -> name_ok x ->
    LexR ext top cs ts out ->
    LexR ext top (c_pct :: x ++ c_pct :: cs) (TAtom (AWild x) :: ts) out
| LR_group : forall top cs grp r ts out,
    LexR ext false cs grp r -> LexR ext top r ts out ->
    LexR ext top (c_lpar :: cs) (TGroup grp :: ts) out.

Definition Lex (ext : bool) (s : str) (ts : list token) : Prop := LexR ext true s ts [].

(** [Reads ext cs t r]: [cs] starts with the text of the token [t], which is no group, and
    [r] follows: the ten rules of [LexR] that read a token, without the rest of the reading *)
Inductive Reads (ext : bool) : str -> token -> str -> Prop :=
| RD_symbol : forall c t cs,
    alookup N.eqb c symbol_tokens = Some t -> Reads ext (c :: cs) t cs
| RD_imp : forall cs, Reads ext (c_eq :: c_gt :: cs) (TBin Imp) cs
| RD_iff : forall cs, Reads ext (c_lt :: c_eq :: c_gt :: cs) (TBin Iff) cs
| RD_keyword : forall w r t,
    ident w r -> alookup str_eqb w keyword_tokens = Some t -> Reads ext (w ++ r) t r
| RD_quantifier : forall w r o x d r',
    ident w r -> alookup str_eqb w quantifier_words = Some o ->
    HybSeg (dom_allowed ext o) r x d r' -> Reads ext (w ++ r) (THyb o x d) r'
| RD_prop : forall w r,
    ident w r ->
    alookup str_eqb w keyword_tokens = None -> alookup str_eqb w quantifier_words = None ->
    Reads ext (w ++ r) (TAtom (AProp w)) r
| RD_hybrid_symbol : forall c o cs x d r',
    alookup N.eqb c hybrid_symbols = Some o ->
    HybSeg (dom_allowed ext o) cs x d r' -> Reads ext (c :: cs) (THyb o x d) r'
| RD_hybrid_word : forall w r o x d r',
    name_chars w -> pnc r = false -> alookup str_eqb w hybrid_words = Some o ->
    HybSeg (dom_allowed ext o) r x d r' -> Reads ext (c_bslash :: w ++ r) (THyb o x d) r'
| RD_var : forall x cs,
    name_ok x -> Reads ext (c_lbrace :: x ++ c_rbrace :: cs) (TAtom (AVar x)) cs
| RD_wild : forall x cs,
    ext = true -> name_ok x -> Reads ext (c_pct :: x ++ c_pct :: cs) (TAtom (AWild x)) cs.

Lemma LR_token : forall ext top cs t r ts out,
  Reads ext cs t r -> LexR ext top r ts out -> LexR ext top cs (t :: ts) out.
Proof.
  intros ext top cs t r ts out R L.
  destruct R; [eapply LR_symbol | apply LR_imp | apply LR_iff | eapply LR_keyword
              | eapply LR_quantifier | eapply LR_prop | eapply LR_hybrid_symbol
              | eapply LR_hybrid_word | apply LR_var | apply LR_wild]; eassumption.
Qed.

(** induction on a reading with the ten rules that read a token taken together *)
Lemma LexR_token_ind : forall ext (P : bool -> str -> list token -> str -> Prop),
  P true [] [] [] ->
  (forall out, P false (c_rpar :: out) [] out) ->
  (forall top c cs ts out,
     is_ws c = true -> LexR ext top cs ts out -> P top cs ts out -> P top (c :: cs) ts out) ->
  (forall top cs t r ts out,
     Reads ext cs t r -> LexR ext top r ts out -> P top r ts out -> P top cs (t :: ts) out) ->
  (forall top cs grp r ts out,
     LexR ext false cs grp r -> P false cs grp r -> LexR ext top r ts out -> P top r ts out ->
     P top (c_lpar :: cs) (TGroup grp :: ts) out) ->
  forall top cs ts out, LexR ext top cs ts out -> P top cs ts out.
Proof.
  intros ext P PE PC PW PT PG top cs ts out H.
  induction H;
    [ exact PE | apply PC | apply PW; assumption
    | (eapply PT; [econstructor; eassumption | assumption | assumption]) ..
    | eapply PG; eassumption ].
Qed.

(** the cases of [Reads] and of the induction on a reading, with the names the proofs use:
    [SY], [K], [Q], [HW] the lookups, [ID] the identifier, [HS] the segment, [NW], [NX] the
    names, [PR] the look-ahead; [WS], [R] the step, [L], [LG] the readings, [IH], [IHG] *)
Ltac reads_cases R :=
  destruct R as [c t cs SY | cs | cs | w r t ID K | w r o x d r' ID Q HS | w r ID K Q
                 | c o cs x d r' SY HS | w r o x d r' NW PR HW HS | x cs NX | x cs EXT NX].
Ltac reading_induction H :=
  induction H as [ | out | top c cs ts out WS L IH | top cs t r ts out R L IH
                   | top cs grp r ts out LG IHG L IH ] using LexR_token_ind.

Lemma skip_ws_split : forall cs, exists w s, cs = w ++ s /\ skip_ws cs = s /\ ws_run w.
Proof.
  induction cs as [|c cs IH].
  - exists [], []. repeat split. constructor.
  - cbn [skip_ws]. destruct (is_ws c) eqn:WS.
    + destruct IH as (w & s & E & S & W). exists (c :: w), s. subst cs.
      repeat split; [exact S | constructor; assumption].
    + exists [], (c :: cs). repeat split. constructor.
Qed.

Lemma expect_ok : forall c cs r, expect c cs = Ok r -> cs = c :: r.
Proof.
  intros c cs r H. destruct cs as [|x cs]; [discriminate H|]. cbn [expect] in H.
  destruct (N.eqb_spec x c) as [->|]; [|discriminate H]. injection H as <-. reflexivity.
Qed.

Lemma bind_expect {A} : forall k s (K : str -> res A) a,
  (let* r := expect k s in K r) = Ok a -> exists r, s = k :: r /\ K r = Ok a.
Proof.
  intros k s K a H. destruct (expect k s) as [r| | |] eqn:X; try discriminate H.
  exists r. split; [apply expect_ok, X | exact H].
Qed.

Lemma collect_name_split : forall cs n r,
  cname cs = (n, r) -> cs = n ++ r /\ name_chars n /\ pnc r = false.
Proof.
  induction cs as [|c cs IH]; intros n r H.
  - injection H as <- <-. repeat split. constructor.
  - cbn [collect_name] in H. destruct (nchar c) eqn:C.
    + destruct (cname cs) as [n' r'] eqn:CN. injection H as <- <-.
      destruct (IH _ _ eq_refl) as (-> & N' & P). repeat split; [|exact P].
      constructor; assumption.
    + injection H as <- <-. repeat split; [constructor|]. cbn [peek_name_char]. exact C.
Qed.

Lemma peek_is_cons : forall c cs, peek_is c cs = true -> exists r, cs = c :: r.
Proof.
  intros c cs H. destruct cs as [|x r]; [discriminate H|]. cbn [peek_is] in H.
  apply N.eqb_eq in H. subst x. exists r. reflexivity.
Qed.

(** [collect_var_dom] reads exactly the rest of a hybrid segment *)
Lemma cvd_sound : forall cs pd x d r, cvd cs pd = Ok (x, d, r) -> HybSeg pd cs x d r.
Proof.
  intros cs pd x d r H. unfold collect_var_dom in H.
  destruct (skip_ws_split cs) as (w1 & s1 & -> & S1 & W1). rewrite S1 in H. clear S1.
  destruct (expect c_lbrace s1) as [r1| | |] eqn:X1; cbn [bind] in H; try discriminate H.
  apply expect_ok in X1. subst s1.
  destruct (cname r1) as [nm r2] eqn:CN. apply collect_name_split in CN.
  destruct CN as (-> & N1 & _).
  destruct nm as [|c0 nm]; [discriminate H|].
  assert (NM : name_ok (c0 :: nm)) by (split; [discriminate | exact N1]).
  destruct (expect c_rbrace r2) as [r3| | |] eqn:X3; cbn [bind] in H; try discriminate H.
  apply expect_ok in X3. subst r2.
  destruct (skip_ws_split r3) as (w2 & s3 & -> & S3 & W2). rewrite S3 in H. clear S3.
  destruct (pd && peek_is c_i s3) eqn:PD.
  - apply andb_true_iff in PD. destruct PD as (-> & PI).
    apply peek_is_cons in PI. destruct PI as (t3 & ->). cbn [tl] in H.
    destruct (expect c_n t3) as [r4| | |] eqn:X4; cbn [bind] in H; try discriminate H.
    apply expect_ok in X4. subst t3.
    destruct (skip_ws_split r4) as (w3 & s4 & -> & S4 & W3). rewrite S4 in H. clear S4.
    destruct (expect c_pct s4) as [r5| | |] eqn:X5; cbn [bind] in H; try discriminate H.
    apply expect_ok in X5. subst s4.
    destruct (cname r5) as [dn r6] eqn:CN2. apply collect_name_split in CN2.
    destruct CN2 as (-> & N2 & _).
    destruct dn as [|d0 dn]; [discriminate H|].
    assert (DN : name_ok (d0 :: dn)) by (split; [discriminate | exact N2]).
    destruct (expect c_pct r6) as [r7| | |] eqn:X7; cbn [bind] in H; try discriminate H.
    apply expect_ok in X7. subst r6.
    destruct (skip_ws_split r7) as (w4 & s7 & -> & S7 & W4). rewrite S7 in H. clear S7.
    destruct (expect c_colon s7) as [r8| | |] eqn:X8; cbn [bind] in H; try discriminate H.
    apply expect_ok in X8. subst s7.
    injection H as <- <- <-. apply HS_dom; auto.
  - cbn [bind] in H.
    destruct (expect c_colon s3) as [r8| | |] eqn:X8; cbn [bind] in H; try discriminate H.
    apply expect_ok in X8. subst s3.
    injection H as <- <- <-. apply HS_plain; auto.
Qed.

Lemma cvd_complete : forall cs pd x d r, HybSeg pd cs x d r -> cvd cs pd = Ok (x, d, r).
Proof.
  intros cs pd x d r H.
  destruct H as [w1 x w2 r W1 NX W2 | w1 x w2 w3 d w4 r -> W1 NX W2 W3 ND W4].
  - exact (cvd_seg ext_alnum pd x None w1 w2 [] [] r (ws_run_str _ W1) (ws_run_str _ W2)
             eq_refl eq_refl (proj1 (name_ok_str ext_alnum x) NX) I).
  - exact (cvd_seg ext_alnum true x (Some d) w1 w2 w3 w4 r (ws_run_str _ W1) (ws_run_str _ W2)
             (ws_run_str _ W3) (ws_run_str _ W4) (proj1 (name_ok_str ext_alnum x) NX)
             (conj eq_refl (proj1 (name_ok_str ext_alnum d) ND))).
Qed.

Lemma HybSeg_no_dom : forall cs x d r, HybSeg false cs x d r -> d = None.
Proof. intros cs x d r H. destruct H as [| ? ? ? ? ? ? ? D]; [reflexivity | discriminate D]. Qed.

Lemma HybSeg_none : forall pd pd' cs x d r,
  HybSeg pd cs x d r -> d = None -> HybSeg pd' cs x None r.
Proof.
  intros pd pd' cs x d r H E. destruct H; [apply HS_plain; assumption | discriminate E].
Qed.

(** One iteration on a maximal run [c :: w] of name characters (not starting with white
    space): it classifies the WHOLE run.  This is where "maximal munch, keyword iff exact
    match" is checked against the character-by-character look-ahead of the code; the three
    cases are the step equations [nexts_temporal], [nexts_hyb_head] and [nexts_prop]. *)
Lemma nexts_word : forall ext c w r,
  is_ws c = false -> name_chars (c :: w) -> pnc r = false ->
  nexts ext_alnum ext (c :: w ++ r) =
  match alookup str_eqb (c :: w) keyword_tokens with
  | Some t => Ok (APush t r)
  | None =>
      match alookup str_eqb (c :: w) quantifier_words with
      | Some o =>
          let* (nd, rest) := cvd r ext in Ok (APush (THyb o (fst nd) (snd nd)) rest)
      | None => Ok (APush (TAtom (AProp (c :: w))) r)
      end
  end.
Proof.
  intros ext c w r WS NW PR.
  destruct (reserved (c :: w)) eqn:R.
  - destruct w as [|c2 [|c3 w]]; cbn [reserved app] in R |- *; [| |discriminate R].
    + rewrite orb_true_iff, !N.eqb_eq in R. destruct R as [-> | ->].
      * exact (nexts_hyb_head ext_alnum ext [c_three] Exists r
                 (or_intror (or_introl eq_refl)) PR).
      * exact (nexts_hyb_head ext_alnum ext [c_V] Forall r
                 (or_intror (or_intror (or_introl eq_refl))) PR).
    + apply andb_prop in R. destruct R as [C T]. apply orb_prop in C. unfold is_temp_op_char in T.
      repeat (apply orb_prop in T; destruct T as [T | T]); apply N.eqb_eq in T; subst c2;
        (destruct C as [C | C]; apply N.eqb_eq in C; subst c);
        (etransitivity;
         [apply (nexts_temporal ext_alnum ext); [auto | reflexivity | exact PR] | reflexivity]).
  - destruct (alookup str_eqb (c :: w) keyword_tokens) as [t|] eqn:K;
      [apply keyword_reserved in K; congruence|].
    destruct (alookup str_eqb (c :: w) quantifier_words) as [o|] eqn:Q;
      [destruct (quantifier_head _ _ Q) as [Q' _]; congruence|].
    apply (nexts_prop ext_alnum ext (c :: w) r); [|exact PR].
    split; [split; [discriminate|] | split; [exact WS | exact R]].
    apply name_chars_forallb, NW.
Qed.

Lemma tok_word : forall f c w r top ext acc,
  is_ws c = false -> name_chars (c :: w) -> pnc r = false ->
  tk (S f) (c :: w ++ r) top ext acc =
  match alookup str_eqb (c :: w) keyword_tokens with
  | Some t => tk f r top ext (t :: acc)
  | None =>
      match alookup str_eqb (c :: w) quantifier_words with
      | Some o =>
          let* (nd, rest) := cvd r ext in tk f rest top ext (THyb o (fst nd) (snd nd) :: acc)
      | None => tk f r top ext (TAtom (AProp (c :: w)) :: acc)
      end
  end.
Proof.
  intros f c w r top ext acc WS NW PR.
  rewrite tok_nexts by discriminate. rewrite nexts_word by assumption.
  destruct (alookup str_eqb (c :: w) keyword_tokens); [reflexivity|].
  destruct (alookup str_eqb (c :: w) quantifier_words); [|reflexivity].
  destruct (cvd r ext) as [[nd rest]| | |]; reflexivity.
Qed.

(** after a backslash the tokenizer compares the name with the four long names in turn: a
    lookup in [hybrid_words] *)
Lemma next_bslash_lookup : forall ext rest,
  next_bslash ext_alnum ext rest
  = let (w, r) := cname rest in
    match alookup str_eqb w hybrid_words with
    | Some o =>
        let* (nd, rest) := cvd r (dom_allowed ext o) in
        Ok (APush (THyb o (fst nd) (snd nd)) rest)
    | None => Err ELex
    end.
Proof.
  intros ext rest. unfold next_bslash, hybrid_words. destruct (cname rest) as [w r].
  cbn [alookup].
  destruct (str_eqb w s_exists); [reflexivity|]. destruct (str_eqb w s_forall); [reflexivity|].
  destruct (str_eqb w s_bind); [reflexivity|].
  destruct (str_eqb w s_jump); [apply jump_no_dom | reflexivity].
Qed.

(** one iteration: what [next] reads is a white-space character, a parenthesis, or the text
    of one token *)
Lemma next_sound : forall ext c rest a,
  next ext_alnum ext c rest = Ok a ->
  match a with
  | ASkip r => r = rest /\ is_ws c = true
  | APush t r => Reads ext (c :: rest) t r
  | AOpen r => r = rest /\ c = c_lpar
  | AClose r => r = rest /\ c = c_rpar
  end.
Proof.
  intros ext c rest a H.
  assert (HYB : forall seg o pd,
            (let* (nd, r) := cvd seg pd in Ok (APush (THyb o (fst nd) (snd nd)) r)) = Ok a ->
            exists x d r, HybSeg pd seg x d r /\ a = APush (THyb o x d) r).
  { intros seg o pd R. destruct (cvd seg pd) as [[[x d] r]| | |] eqn:CV; try discriminate R.
    cbn [bind fst snd] in R. injection R as <-. apply cvd_sound in CV. eauto. }
  assert (HYBJ : forall seg,
            (let* (nd, r) := cvd seg false in Ok (APush (THyb Jump (fst nd) None) r)) = Ok a ->
            exists x d r, HybSeg false seg x d r /\ a = APush (THyb Jump x d) r).
  { intros seg R. rewrite jump_no_dom in R. exact (HYB seg Jump false R). }
  (* by [class c], one bullet per class in the order of [cclass] *)
  pose proof H as H0. rewrite next_class in H.
  pose proof (class_spec ext_alnum ext c) as S.
  destruct (class ext_alnum c); cbn [next_of] in H; try discriminate H; try subst c.
  - injection H as <-. split; [reflexivity | exact S].
  - injection H as <-. apply RD_symbol.
    cbn [In] in S. destruct S as [S|[S|[S|[S|[]]]]]; injection S as <- <-; reflexivity.
  - apply bind_expect in H. destruct H as (r1 & -> & H). injection H as <-. apply RD_imp.
  - apply bind_expect in H. destruct H as (r1 & -> & H).
    apply bind_expect in H. destruct H as (r2 & -> & H). injection H as <-. apply RD_iff.
  - apply HYB in H. destruct H as (x & d & r' & HS & ->).
    eapply RD_hybrid_symbol; [reflexivity | exact HS].
  - apply HYBJ in H. destruct H as (x & d & r' & HS & ->).
    eapply RD_hybrid_symbol; [reflexivity | exact HS].
  - rewrite next_bslash_lookup in H.
    destruct (cname rest) as [w r] eqn:CN. apply collect_name_split in CN.
    destruct CN as (-> & NW & PR).
    destruct (alookup str_eqb w hybrid_words) as [o|] eqn:HW; [|discriminate H].
    apply HYB in H. destruct H as (x & d & r' & HS & ->). apply RD_hybrid_word; assumption.
  - injection H as <-. split; reflexivity.
  - injection H as <-. split; reflexivity.
  - destruct (cname rest) as [w r] eqn:CN. apply collect_name_split in CN.
    destruct CN as (-> & NW & PR).
    destruct w as [|c0 w]; [discriminate H|].
    apply bind_expect in H. destruct H as (r1 & -> & H). injection H as <-.
    apply RD_var. split; [discriminate | exact NW].
  - destruct ext; [|discriminate H].
    destruct (cname rest) as [w r] eqn:CN. apply collect_name_split in CN.
    destruct CN as (-> & NW & PR).
    destruct w as [|c0 w]; [discriminate H|].
    apply bind_expect in H. destruct H as (r1 & -> & H). injection H as <-.
    apply RD_wild; [reflexivity | split; [discriminate | exact NW]].
  - (* an identifier *)
    destruct S as [WS NC]. clear H.
    destruct (cname rest) as [w r] eqn:CN. apply collect_name_split in CN.
    destruct CN as (-> & NW & PR).
    assert (NW' : name_chars (c :: w)) by (constructor; assumption).
    assert (ID : ident (c :: w) r).
    { split; [split; [discriminate | exact NW']|]. split; [exact WS | exact PR]. }
    change (nexts ext_alnum ext (c :: w ++ r) = Ok a) in H0.
    rewrite nexts_word in H0 by assumption.
    change (c :: w ++ r) with ((c :: w) ++ r).
    destruct (alookup str_eqb (c :: w) keyword_tokens) as [t|] eqn:K.
    + injection H0 as <-. apply RD_keyword; assumption.
    + destruct (alookup str_eqb (c :: w) quantifier_words) as [o|] eqn:Q.
      * apply HYB in H0. destruct H0 as (x & d & r' & HS & ->).
        apply RD_quantifier; [exact ID | exact Q|].
        rewrite (proj2 (proj2 (quantifier_head _ _ Q)) ext). exact HS.
      * injection H0 as <-. apply RD_prop; assumption.
Qed.

Lemma tok_sound : forall f cs top ext acc ts' out,
  tk f cs top ext acc = Ok (ts', out) ->
  exists ts, ts' = rev acc ++ ts /\ LexR ext top cs ts out.
Proof.
  induction f as [|f IH]; intros cs top ext acc ts' out H; [discriminate H|].
  destruct cs as [|c rest].
  { cbn [tok] in H. destruct top; [|discriminate H]. injection H as <- <-.
    exists []. rewrite app_nil_r. split; [reflexivity | apply LR_end]. }
  rewrite tok_next in H.
  destruct (next ext_alnum ext c rest) as [a| | |] eqn:N; cbn [bind] in H; try discriminate H.
  apply next_sound in N. destruct a as [r | t r | r | r]; cbn [continue] in H.
  - destruct N as [-> WS]. apply IH in H. destruct H as (ts & -> & L).
    exists ts. split; [reflexivity | apply LR_ws; assumption].
  - apply IH in H. destruct H as (ts & -> & L).
    exists (t :: ts). split; [apply rev_cons_app | exact (LR_token _ _ _ _ _ _ _ N L)].
  - destruct N as [-> ->].
    destruct (tk f rest false ext []) as [[grp r1]| | |] eqn:G; cbn [bind] in H;
      try discriminate H.
    apply IH in G. destruct G as (g & -> & LG). apply IH in H. destruct H as (ts & -> & L).
    exists (TGroup g :: ts). split; [apply rev_cons_app | eapply LR_group; eassumption].
  - destruct N as [-> ->]. destruct top; [discriminate H|]. injection H as <- <-.
    exists []. rewrite app_nil_r. split; [reflexivity | apply LR_close].
Qed.

(** the rules of [LexR] that read a token, as step equations *)
Lemma nexts_ident : forall ext w r, ident w r ->
  nexts ext_alnum ext (w ++ r) =
  match alookup str_eqb w keyword_tokens with
  | Some t => Ok (APush t r)
  | None =>
      match alookup str_eqb w quantifier_words with
      | Some o =>
          let* (nd, rest) := cvd r ext in Ok (APush (THyb o (fst nd) (snd nd)) rest)
      | None => Ok (APush (TAtom (AProp w)) r)
      end
  end.
Proof.
  intros ext w r ((NE & NW) & HW & PR). destruct w as [|c w]; [congruence|].
  apply nexts_word; assumption.
Qed.

Lemma nexts_symbol : forall ext c t cs,
  alookup N.eqb c symbol_tokens = Some t -> nexts ext_alnum ext (c :: cs) = Ok (APush t cs).
Proof.
  intros ext c t cs H. revert c t H.
  apply (alookup_table N.eqb N.eqb_eq). repeat constructor.
Qed.

Lemma nexts_hybrid_symbol : forall ext c o cs x d r,
  alookup N.eqb c hybrid_symbols = Some o -> HybSeg (dom_allowed ext o) cs x d r ->
  nexts ext_alnum ext (c :: cs) = Ok (APush (THyb o x d) r).
Proof.
  intros ext c o cs x d r H HS. unfold hybrid_symbols in H. cbn [alookup] in H.
  destruct (N.eqb_spec c c_bang) as [->|_].
  { injection H as <-. cbn [dom_allowed] in HS.
    change (nexts ext_alnum ext (c_bang :: cs))
      with (let* (nd, rest) := cvd cs ext in Ok (APush (THyb Bind (fst nd) (snd nd)) rest)).
    rewrite (cvd_complete _ _ _ _ _ HS). reflexivity. }
  destruct (N.eqb_spec c c_at) as [->|_]; [|discriminate H].
  injection H as <-. cbn [dom_allowed] in HS. pose proof (HybSeg_no_dom _ _ _ _ HS) as ->.
  change (nexts ext_alnum ext (c_at :: cs))
    with (let* (nd, rest) := cvd cs false in Ok (APush (THyb Jump (fst nd) None) rest)).
  rewrite (cvd_complete _ _ _ _ _ HS). reflexivity.
Qed.

Lemma nexts_hybrid_head : forall ext pre o seg x d r,
  In (pre, o) hyb_heads -> pnc seg = false -> HybSeg (dom_allowed ext o) seg x d r ->
  nexts ext_alnum ext (pre ++ seg) = Ok (APush (THyb o x d) r).
Proof.
  intros ext pre o seg x d r H P HS.
  rewrite (nexts_hyb_head ext_alnum ext pre o seg H P), <- dom_allowed_pd,
    (cvd_complete _ _ _ _ _ HS).
  reflexivity.
Qed.

(** one iteration that reads the token [t], then the rest of the reading *)
Lemma complete_push : forall f cs t r top ext acc ts out,
  nexts ext_alnum ext cs = Ok (APush t r) ->
  (forall f' acc', length r < f' -> tk f' r top ext acc' = Ok (rev acc' ++ ts, out)) ->
  length cs < S f -> tk (S f) cs top ext acc = Ok (rev acc ++ t :: ts, out).
Proof.
  intros f cs t r top ext acc ts out N IH LT.
  rewrite (tok_step ext_alnum ext f cs top acc _ N). cbn [continue].
  destruct (nexts_ok ext_alnum ext cs _ N) as [_ L]. cbn [arest] in L.
  rewrite IH by lia. rewrite rev_cons_app. reflexivity.
Qed.

Lemma Reads_nexts : forall ext cs t r,
  Reads ext cs t r -> nexts ext_alnum ext cs = Ok (APush t r).
Proof.
  intros ext cs t r R.
  reads_cases R.
  - apply nexts_symbol, SY.
  - reflexivity.
  - reflexivity.
  - rewrite (nexts_ident ext w r ID), K. reflexivity.
  - destruct ID as (_ & _ & PR).
    exact (nexts_hybrid_head ext w o r x d r' (proj1 (proj2 (quantifier_head w o Q))) PR HS).
  - rewrite (nexts_ident ext w r ID), K, Q. reflexivity.
  - eapply nexts_hybrid_symbol; eassumption.
  - exact (nexts_hybrid_head ext (c_bslash :: w) o r x d r' (hybrid_word_head w o HW) PR HS).
  - apply nexts_var, name_ok_str, NX.
  - apply nexts_wild; [exact EXT | apply name_ok_str, NX].
Qed.

Lemma tok_complete : forall ext top cs ts out,
  LexR ext top cs ts out ->
  forall f acc, length cs < f -> tk f cs top ext acc = Ok (rev acc ++ ts, out).
Proof.
  intros ext top cs ts out H.
  reading_induction H;
    intros f acc LT; (destruct f as [|f]; [inversion LT|]).
  - cbn [tok]. rewrite app_nil_r. reflexivity.
  - rewrite tok_rpar. rewrite app_nil_r. reflexivity.
  - rewrite tok_ws by exact WS. apply IH. cbn [length] in LT. lia.
  - apply (complete_push f _ t r); [apply Reads_nexts, R | exact IH | exact LT].
  - rewrite tok_lpar. cbn [length] in LT.
    pose proof (IHG f [] ltac:(lia)) as G. cbn [rev app] in G.
    destruct (tok_fuel_enough ext_alnum ext f cs false [] ltac:(lia)) as (_ & LR).
    pose proof (LR _ _ G) as LE.
    rewrite G. cbn [bind]. rewrite IH by lia. rewrite rev_cons_app. reflexivity.
Qed.

Lemma LexR_top_out : forall ext top cs ts out, LexR ext top cs ts out -> top = true -> out = [].
Proof.
  intros ext top cs ts out H. induction H; intro T; auto. discriminate T.
Qed.

Theorem tokenize_sound : forall ext s ts, tokenize ext_alnum ext s = Ok ts -> Lex ext s ts.
Proof.
  intros ext s ts H. unfold tokenize in H.
  destruct (tk (S (length s)) s true ext []) as [[ts' out]| | |] eqn:T; cbn [bind] in H;
    try discriminate H.
  injection H as <-. apply tok_sound in T. destruct T as (ts & -> & L). cbn [rev app].
  pose proof (LexR_top_out _ _ _ _ _ L eq_refl) as ->. exact L.
Qed.

Theorem tokenize_complete : forall ext s ts, Lex ext s ts -> tokenize ext_alnum ext s = Ok ts.
Proof.
  intros ext s ts H. unfold tokenize.
  rewrite (tok_complete _ _ _ _ _ H (S (length s)) []) by lia. reflexivity.
Qed.

Theorem tokenize_iff_lex : forall ext s ts, tokenize ext_alnum ext s = Ok ts <-> Lex ext s ts.
Proof. intros ext s ts. split; [apply tokenize_sound | apply tokenize_complete]. Qed.

Theorem Lex_functional : forall ext s ts ts', Lex ext s ts -> Lex ext s ts' -> ts = ts'.
Proof.
  intros ext s ts ts' H H'. apply tokenize_complete in H. apply tokenize_complete in H'.
  rewrite H in H'. injection H' as ->. reflexivity.
Qed.

Theorem tokenize_err_iff : forall ext s,
  tokenize ext_alnum ext s = Err ELex <-> (forall ts, ~ Lex ext s ts).
Proof.
  intros ext s. split.
  - intros E ts L. apply tokenize_complete in L. rewrite L in E. discriminate E.
  - intro N. destruct (tokenize_ok_or_lex ext_alnum ext s) as [(ts & E & _) | E]; [|exact E].
    exfalso. apply (N ts), tokenize_sound, E.
Qed.

Lemma Reads_mode : forall ext ext' cs t r,
  Reads ext cs t r -> plain_tokb t = true -> Reads ext' cs t r.
Proof.
  (* a plain token has no domain and is no wild card *)
  intros ext ext' cs t r R P.
  destruct R; cbn [plain_tokb] in P; try discriminate P; try (destruct d; [discriminate P|]);
    [eapply RD_symbol | apply RD_imp | apply RD_iff | eapply RD_keyword | eapply RD_quantifier
    | eapply RD_prop | eapply RD_hybrid_symbol | eapply RD_hybrid_word | apply RD_var];
    eauto using HybSeg_none.
Qed.

(** a reading without wild cards and domains is a reading in either syntax *)
Lemma LexR_mode : forall ext ext' top cs ts out,
  LexR ext top cs ts out -> plain_toks ts -> LexR ext' top cs ts out.
Proof.
  intros ext ext' top cs ts out H.
  reading_induction H;
    intro P; try (apply plain_toks_cons in P; destruct P as (P1 & P2)).
  - apply LR_end.
  - apply LR_close.
  - apply LR_ws; auto.
  - apply (LR_token ext' top cs t r); [apply (Reads_mode ext); assumption | apply IH, P2].
  - eapply LR_group; [apply IHG, P1 | apply IH, P2].
Qed.

(** the plain readings are the extended readings without wild cards and domains *)
Theorem tokenize_plain_iff : forall s ts,
  tokenize ext_alnum false s = Ok ts <-> tokenize ext_alnum true s = Ok ts /\ plain_toks ts.
Proof.
  intros s ts. split.
  - intro H. pose proof (tokenize_plain ext_alnum s ts H) as P. split; [|exact P].
    apply tokenize_complete, (LexR_mode false); [apply tokenize_sound, H | exact P].
  - intros (H & P). apply tokenize_complete, (LexR_mode true); [apply tokenize_sound, H | exact P].
Qed.

Theorem tokenize_conservative : forall s ts,
  tokenize ext_alnum false s = Ok ts -> tokenize ext_alnum true s = Ok ts.
Proof. intros s ts H. apply tokenize_plain_iff, H. Qed.

Theorem parse_formula_conservative : forall s t,
  parse_formula ext_alnum false s = Ok t -> parse_formula ext_alnum true s = Ok t.
Proof.
  intros s t H. unfold parse_formula in *.
  destruct (tokenize ext_alnum false s) as [ts| | |] eqn:T; cbn [bind] in H; try discriminate H.
  rewrite (tokenize_conservative _ _ T). exact H.
Qed.

Lemma ws_not_pct : forall w, ws_run w -> ~ In c_pct w.
Proof.
  intros w W I. unfold ws_run in W. rewrite Forall_forall in W. apply W in I. discriminate I.
Qed.

Lemma name_not_pct : forall w, name_chars w -> ~ In c_pct w.
Proof.
  intros w W I. rewrite Forall_forall in W. apply W in I. discriminate I.
Qed.

Lemma HybSeg_pct : forall o cs x d r,
  HybSeg (dom_allowed false o) cs x d r -> In c_pct cs -> In c_pct r.
Proof.
  intros o cs x d r H I.
  assert (H' : HybSeg false cs x d r) by (destruct o; exact H). clear H.
  destruct H' as [w1 x w2 r W1 (_ & NX) W2 | ? ? ? ? ? ? ? D]; [|discriminate D].
  apply in_app_or in I. destruct I as [I|I]; [exfalso; exact (ws_not_pct _ W1 I)|].
  destruct I as [I|I]; [discriminate I|].
  apply in_app_or in I. destruct I as [I|I]; [exfalso; exact (name_not_pct _ NX I)|].
  destruct I as [I|I]; [discriminate I|].
  apply in_app_or in I. destruct I as [I|I]; [exfalso; exact (ws_not_pct _ W2 I)|].
  destruct I as [I|I]; [discriminate I | exact I].
Qed.

Lemma Reads_pct : forall cs t r, Reads false cs t r -> In c_pct cs -> In c_pct r.
Proof.
  intros cs t r R I.
  reads_cases R.
  - destruct I as [I|I]; [subst c; discriminate SY | exact I].
  - destruct I as [I|[I|I]]; [discriminate I | discriminate I | exact I].
  - destruct I as [I|[I|[I|I]]]; [discriminate I | discriminate I | discriminate I | exact I].
  - destruct ID as ((_ & NW) & _). apply in_app_or in I.
    destruct I as [I|I]; [exfalso; exact (name_not_pct _ NW I) | exact I].
  - destruct ID as ((_ & NW) & _). apply in_app_or in I.
    destruct I as [I|I]; [exfalso; exact (name_not_pct _ NW I) | exact (HybSeg_pct _ _ _ _ _ HS I)].
  - destruct ID as ((_ & NW) & _). apply in_app_or in I.
    destruct I as [I|I]; [exfalso; exact (name_not_pct _ NW I) | exact I].
  - destruct I as [I|I]; [subst c; discriminate SY | exact (HybSeg_pct _ _ _ _ _ HS I)].
  - destruct I as [I|I]; [discriminate I|]. apply in_app_or in I.
    destruct I as [I|I]; [exfalso; exact (name_not_pct _ NW I) | exact (HybSeg_pct _ _ _ _ _ HS I)].
  - destruct NX as (_ & NX). destruct I as [I|I]; [discriminate I|]. apply in_app_or in I.
    destruct I as [I|I]; [exfalso; exact (name_not_pct _ NX I)|].
    destruct I as [I|I]; [discriminate I | exact I].
  - discriminate EXT.
Qed.

(** in the plain syntax a '%' is never consumed *)
Lemma LexR_pct : forall top cs ts out, LexR false top cs ts out -> In c_pct cs -> In c_pct out.
Proof.
  intros top cs ts out H.
  reading_induction H;
    intro I.
  - exact I.
  - destruct I as [I|I]; [discriminate I | exact I].
  - destruct I as [I|I]; [subst c; discriminate WS | auto].
  - apply IH, (Reads_pct cs t r R I).
  - destruct I as [I|I]; [discriminate I | auto].
Qed.

Theorem tokenize_plain_rejects_pct : forall s,
  In c_pct s -> tokenize ext_alnum false s = Err ELex.
Proof.
  intros s I. apply tokenize_err_iff. intros ts L. apply (LexR_pct _ _ _ _ L I).
Qed.

(** what is left unread is part of the input *)
Lemma HybSeg_rest : forall pd cs x d r k, HybSeg pd cs x d r -> In k r -> In k cs.
Proof.
  intros pd cs x d r k H I.
  destruct H; repeat first [exact I | apply in_cons | apply in_or_app; right].
Qed.

Lemma LexR_rest : forall ext top cs ts out k, LexR ext top cs ts out -> In k out -> In k cs.
Proof.
  intros ext top cs ts out k H. induction H; intro I; eauto 10 using in_or_app, in_cons, HybSeg_rest.
Qed.

(** a domain is written with '%' *)
Lemma HybSeg_dom_pct : forall pd cs x d r, HybSeg pd cs x d r -> d = None \/ In c_pct cs.
Proof.
  intros pd cs x d r H. destruct H; [left; reflexivity | right].
  repeat first [left; reflexivity | apply in_cons | apply in_or_app; right].
Qed.

Lemma Reads_rest : forall ext cs t r k, Reads ext cs t r -> In k r -> In k cs.
Proof.
  intros ext cs t r k R I. destruct R; eauto 10 using in_or_app, in_cons, HybSeg_rest.
Qed.

Lemma Reads_plain_or_pct : forall ext cs t r,
  Reads ext cs t r -> plain_tokb t = true \/ In c_pct cs.
Proof.
  intros ext cs t r R.
  reads_cases R;
    try (left; reflexivity).
  - left. pose proof (alookup_Forall _ op_tok _ _ _ (proj1 op_tokens) SY) as O.
    destruct t; try contradiction; reflexivity.
  - left. pose proof (alookup_Forall _ op_tok _ _ _ (proj2 op_tokens) K) as O.
    destruct t; try contradiction; reflexivity.
  - destruct (HybSeg_dom_pct _ _ _ _ _ HS) as [-> | I]; [left; reflexivity|].
    right. apply in_or_app. right. exact I.
  - destruct (HybSeg_dom_pct _ _ _ _ _ HS) as [-> | I]; [left; reflexivity|].
    right. apply in_cons, I.
  - destruct (HybSeg_dom_pct _ _ _ _ _ HS) as [-> | I]; [left; reflexivity|].
    right. apply in_cons, in_or_app. right. exact I.
  - right. left. reflexivity.
Qed.

Lemma LexR_plain_or_pct : forall ext top cs ts out,
  LexR ext top cs ts out -> plain_toks ts \/ In c_pct cs.
Proof.
  intros ext top cs ts out H.
  reading_induction H;
    try (left; apply plain_toks_nil);
    (* a '%' further on is a '%' of the text *)
    (destruct IH as [P | I]; [|right; eauto using in_cons, Reads_rest, LexR_rest]).
  - left. exact P.
  - destruct (Reads_plain_or_pct ext cs t r R) as [PT | I]; [|right; exact I].
    left. apply plain_toks_cons. split; assumption.
  - destruct IHG as [PG | I]; [|right; apply in_cons, I].
    left. apply plain_toks_cons. split; [exact PG | exact P].
Qed.

Theorem tokenize_no_pct_agree : forall s,
  ~ In c_pct s -> tokenize ext_alnum true s = tokenize ext_alnum false s.
Proof.
  intros s N.
  destruct (tokenize_ok_or_lex ext_alnum true s) as [(ts & E & _) | E].
  - rewrite E. symmetry. apply tokenize_plain_iff. split; [exact E|].
    apply tokenize_sound in E. destruct (LexR_plain_or_pct _ _ _ _ _ E) as [P | I]; [exact P | contradiction].
  - rewrite E. symmetry.
    destruct (tokenize_ok_or_lex ext_alnum false s) as [(ts & E' & _) | E']; [|exact E'].
    apply tokenize_conservative in E'. rewrite E' in E. discriminate E.
Qed.

Theorem parse_formula_no_pct_agree : forall s,
  ~ In c_pct s -> parse_formula ext_alnum true s = parse_formula ext_alnum false s.
Proof. intros s N. unfold parse_formula. rewrite (tokenize_no_pct_agree s N). reflexivity. Qed.

(** what the lexer guarantees about a token (groups are flattened by [strip]) *)
Definition pre_ok (ext : bool) (x : token) : Prop :=
  match x with
  | TAtom (AProp n) => name_ok n /\ head_not_ws n /\ ~ In n op_words
  | TAtom (AVar y) => name_ok y
  | TAtom (AWild p) => ext = true /\ name_ok p
  | THyb o y d => name_ok y /\ dom_ok ext_alnum ext o d
  | _ => True
  end.

(** the operator words of RoundTrip.v are the keys of the two tables of identifiers *)
Lemma op_words_tables : op_words = map fst keyword_tokens ++ map fst quantifier_words.
Proof. reflexivity. Qed.

Lemma not_op_word w :
  alookup str_eqb w keyword_tokens = None -> alookup str_eqb w quantifier_words = None ->
  ~ In w op_words.
Proof.
  intros K Q. apply (alookup_None str_eqb str_eqb_eq) in K, Q.
  rewrite op_words_tables, in_app_iff. intros [H | H]; contradiction.
Qed.

Lemma HybSeg_ok ext o cs x d r : HybSeg (dom_allowed ext o) cs x d r ->
  name_ok x /\ dom_ok ext_alnum ext o d.
Proof.
  intro H. inversion H as [w1 x' w2 r' W1 NX W2 | w1 x' w2 w3 d' w4 r' DA W1 NX W2 W3 ND W4]; subst.
  - split; [exact NX | exact I].
  - split; [exact NX|]. cbn [dom_ok]. destruct o; cbn [dom_allowed] in DA; try discriminate DA;
      subst ext; (split; [reflexivity|]); (split; [discriminate | exact ND]).
Qed.

Lemma Reads_pre_ok ext cs t r : Reads ext cs t r -> strip_tok t = [t] /\ pre_ok ext t.
Proof.
  intro R.
  reads_cases R;
    try (split; [reflexivity | exact I]);
    try (split; [reflexivity | cbn [pre_ok]; eapply HybSeg_ok; eassumption]).
  - pose proof (alookup_Forall _ op_tok _ _ _ (proj1 op_tokens) SY) as O.
    destruct t; try contradiction; (split; [reflexivity | exact I]).
  - pose proof (alookup_Forall _ op_tok _ _ _ (proj2 op_tokens) K) as O.
    destruct t; try contradiction; (split; [reflexivity | exact I]).
  - split; [reflexivity|]. cbn [pre_ok]. destruct ID as (N & HW & _).
    split; [exact N|]. split; [exact HW | apply not_op_word; assumption].
  - split; [reflexivity | exact NX].
  - split; [reflexivity | split; assumption].
Qed.

Lemma LexR_pre_ok ext top cs ts out :
  LexR ext top cs ts out -> List.Forall (pre_ok ext) (strip ts).
Proof.
  intro H.
  reading_induction H.
  - constructor.
  - constructor.
  - exact IH.
  - rewrite strip_cons. destruct (Reads_pre_ok ext cs t r R) as [-> P]. constructor; assumption.
  - rewrite strip_cons, strip_tok_group. apply Forall_app. split; assumption.
Qed.

End Lex.

(** Every tree the front end produces satisfies [well_named], the side condition of the
    parser round trip (C06), of the canonical forms (C09) and of the cache invariant (C04). *)
Section Named.
Variable ext_alnum : N -> bool.
Local Notation name_ok := (name_ok ext_alnum).
Local Notation well_named := (well_named ext_alnum).

(** what [well_named] asks of the operators and atoms of a tree *)
Definition leaf_ok (ext : bool) (x : token) : Prop :=
  match x with
  | TAtom a => atom_ok ext_alnum ext a
  | THyb o y d => name_ok y /\ dom_ok ext_alnum ext o d
  | _ => True
  end.

Lemma pre_ok_norm ext x : pre_ok ext_alnum ext x -> leaf_ok ext (norm_tok x).
Proof.
  destruct x as [o | o | o y d | a | ts]; cbn [pre_ok norm_tok leaf_ok]; try exact (fun H => H).
  destruct a as [n | y | | | p]; cbn [leaf_ok atom_ok]; try exact (fun H => H).
  intros (N & H & O). unfold atom_of_prop_name.
  destruct (str_eqb n s_true || str_eqb n s_True || str_eqb n s_1) eqn:E1; [exact I|].
  destruct (str_eqb n s_false || str_eqb n s_False || str_eqb n s_0) eqn:E2; [exact I|].
  cbn [atom_ok]. unfold prop_ok. repeat split; try assumption; try apply N.
  unfold atom_of_prop_name. rewrite E1, E2. reflexivity.
Qed.

Lemma leaves_well_named ext t : List.Forall (leaf_ok ext) (leaves t) -> well_named ext t.
Proof.
  induction t as [a | o c IH | o l IHl r IHr | o x d c IH]; cbn [leaves well_named]; intro F.
  - inversion F as [|? ? H _]; subst. exact H.
  - inversion F; subst. apply IH. assumption.
  - apply Forall_app in F. destruct F as [Fl Fr]. inversion Fr; subst.
    split; [apply IHl | apply IHr]; assumption.
  - inversion F as [|? ? H F']; subst. cbn [leaf_ok] in H. destruct H as [H1 H2].
    split; [exact H1|]. split; [exact H2|]. apply IH, F'.
Qed.

Theorem parsed_well_named ext s t : parse_formula ext_alnum ext s = Ok t -> well_named ext t.
Proof.
  intro H. unfold parse_formula in H.
  destruct (tokenize ext_alnum ext s) as [ts| | |] eqn:T; cbn [bind] in H; try discriminate H.
  apply tokenize_sound in T. apply parse_sound in H.
  apply leaves_well_named. rewrite (leaves_strip ts t H).
  pose proof (LexR_pre_ok ext_alnum ext true s ts [] T) as F.
  apply Forall_forall. intros x IN. apply in_map_iff in IN. destruct IN as (y & <- & IN).
  apply pre_ok_norm. rewrite Forall_forall in F. apply F, IN.
Qed.

Lemma name_ok_xs j : name_ok (xs (S j)).
Proof.
  split; [discriminate|]. unfold xs. induction (S j) as [|m IH]; cbn [repeat_n]; constructor;
    [reflexivity | exact IH].
Qed.

Lemma name_ok_rename_var scope x : name_ok x -> name_ok (rename_var scope x).
Proof.
  intro H. unfold rename_var. destruct (index x scope) as [i|] eqn:I; [|exact H].
  destruct (index_some _ _ _ I) as [LT _].
  replace (length scope - i) with (S (length scope - S i)) by lia. apply name_ok_xs.
Qed.

Lemma rename_well_named ext t : forall scope, well_named ext t -> well_named ext (rename scope t).
Proof.
  induction t as [a | o c IH | o l IHl r IHr | o x d c IH]; intros scope W;
    cbn [well_named rename] in *.
  - destruct a as [n | y | | | p]; cbn [well_named atom_ok] in *; try exact W.
    apply name_ok_rename_var, W.
  - apply IH, W.
  - destruct W; split; [apply IHl | apply IHr]; assumption.
  - destruct W as (NX & D & W). destruct (is_quantifier o); cbn [well_named].
    + split; [apply name_ok_xs|]. split; [exact D | apply IH, W].
    + split; [apply name_ok_rename_var, NX|]. split; [exact D | apply IH, W].
Qed.

Theorem prepared_well_named props k f t' :
  prepared ext_alnum props k f t' -> well_named false t'.
Proof.
  intros (t & HP & _ & ->). apply rename_well_named. eapply parsed_well_named. exact HP.
Qed.

End Named.
