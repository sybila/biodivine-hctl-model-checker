(** Graph-theoretic meaning of the two pattern formulae (C12b).

      !{x}: AG EF {x}   holds exactly at the valuations lying in a bottom (terminal) strongly
                        connected component of the asynchronous transition graph;
      !{x}: AX {x}      holds exactly at the valuations without an enabled update.

    [reach] is the reflexive-transitive closure of the proper moves of Spec/Kripke.v (one
    enabled state bit is flipped), up to pointwise equality of valuations ([veq]; valuations
    are functions).  A move changes one state bit TS i, i < n, and nothing else, so two
    valuations related by [reach] have the same colour (TP bits) and the same spare copies
    (TX bits): [reach] is reachability inside the transition system of one colour.  The
    artificial self-loops on steady valuations do not change reachability ([reach_loops_iff]). *)
From HCTL Require Import Base Syntax TT Ops Eval Pipeline Kripke HCTL Paths.
From HCTL Require Import TTFacts OpsFacts SemFacts EvalPure Main LayoutFacts IndepFacts PathFacts Termination.

Section Scc.
Variable G : genv.
Local Notation n := (g_n G).
Local Notation L := (g_L G).

(** one proper move of the asynchronous transition relation (no self-loop) *)
Definition move (v w : val) : Prop :=
  exists i, i < n /\ enabled G i v = true /\ veq w (vflip (TS i) v).

Inductive reach : val -> val -> Prop :=
| reach_here v w : veq v w -> reach v w
| reach_move v u w : move v u -> reach u w -> reach v w.

(** the same closure over [step] of Spec/Paths.v, which counts the self-loops *)
Inductive reach_loops : val -> val -> Prop :=
| rl_here v w : veq v w -> reach_loops v w
| rl_step v u w : step G v u -> reach_loops u w -> reach_loops v w.

Lemma move_step v w : move v w -> step G v w.
Proof. intro H. left. exact H. Qed.

Lemma step_cases v w : step G v w -> move v w \/ (vsteady G v /\ veq w v).
Proof. intros [H|H]; [left | right]; exact H. Qed.

Lemma move_veq v v' w w' : veq v v' -> veq w w' -> move v w -> move v' w'.
Proof.
  intros Hv Hw [i [Hi [He Hm]]]. exists i. split; [exact Hi|].
  split; [rewrite <- (enabled_veq G i v v' Hv); exact He|].
  eapply veq_trans; [apply veq_sym; exact Hw|]. eapply veq_trans; [exact Hm|]. apply vflip_veq, Hv.
Qed.

Lemma move_flip v i : i < n -> enabled G i v = true -> move v (vflip (TS i) v).
Proof. intros Hi He. exists i. split; [exact Hi|]. split; [exact He | apply veq_refl]. Qed.

(** a move really changes the valuation: no real self-transition exists *)
Lemma move_neq v w : move v w -> ~ veq w v.
Proof.
  intros [i [_ [_ Hm]]] E. pose proof (Hm (TS i)) as H. rewrite (E (TS i)) in H.
  unfold vflip in H. rewrite tag_eqb_refl in H. destruct (v (TS i)); discriminate.
Qed.

Lemma reach_refl v : reach v v.
Proof. apply reach_here, veq_refl. Qed.

Lemma reach_veq_l v v' w : veq v v' -> reach v w -> reach v' w.
Proof.
  intros Hv H. destruct H as [v w H | v u w Hm H].
  - apply reach_here. eapply veq_trans; [apply veq_sym; exact Hv | exact H].
  - eapply reach_move; [|exact H]. eapply move_veq; [exact Hv | apply veq_refl | exact Hm].
Qed.

Lemma reach_veq_r v w w' : veq w w' -> reach v w -> reach v w'.
Proof.
  intros Hw H. induction H as [v w H | v u w Hm _ IH].
  - apply reach_here. eapply veq_trans; eassumption.
  - eapply reach_move; [exact Hm | apply IH; exact Hw].
Qed.

Lemma reach_trans u v w : reach u v -> reach v w -> reach u w.
Proof.
  intros H1 H2. induction H1 as [u v H | u x v Hm _ IH].
  - eapply reach_veq_l; [apply veq_sym; exact H | exact H2].
  - eapply reach_move; [exact Hm | apply IH; exact H2].
Qed.

Lemma reach_one v w : move v w -> reach v w.
Proof. intro H. eapply reach_move; [exact H | apply reach_refl]. Qed.

Lemma reach_snoc u v w : reach u v -> move v w -> reach u w.
Proof. intros H1 H2. eapply reach_trans; [exact H1 | apply reach_one; exact H2]. Qed.

(** counting the self-loops does not change reachability *)
Theorem reach_loops_iff v w : reach_loops v w <-> reach v w.
Proof.
  split; intro H.
  - induction H as [v w H | v u w Hs _ IH]; [apply reach_here; exact H|].
    destruct (step_cases v u Hs) as [Hm|[_ E]].
    + eapply reach_move; eassumption.
    + eapply reach_veq_l; eassumption.
  - induction H as [v w H | v u w Hm _ IH]; [apply rl_here; exact H|].
    eapply rl_step; [apply move_step; exact Hm | exact IH].
Qed.

(** reachable valuations differ in the state bits only: same colour, same spare copies *)
Lemma reach_same_out v w : reach v w -> same_out n v w.
Proof.
  intro H. induction H as [v w H | v u w Hm _ IH].
  - apply same_out_veq, veq_sym, H.
  - intros g Hg. rewrite (IH g Hg).
    exact (same_out_step G v v u (same_out_veq n v v (veq_refl v)) (move_step v u Hm) g Hg).
Qed.

Lemma reach_unfold v w : reach v w <-> (veq v w \/ exists u, move v u /\ reach u w).
Proof.
  split.
  - intro H. destruct H as [v w H | v u w Hm H]; [left; exact H | right; exists u; split; assumption].
  - intros [H|[u [Hm H]]]; [apply reach_here; exact H | eapply reach_move; eassumption].
Qed.

Theorem reach_frame v w : reach v w ->
  (forall j, w (TP j) = v (TP j)) /\ (forall i e, w (TX i e) = v (TX i e)) /\
  (forall i, n <= i -> w (TS i) = v (TS i)).
Proof.
  intro H. pose proof (reach_same_out v w H) as S.
  split; [|split]; intros; apply S; intros i' Hi' E; try discriminate E. injection E as ->. lia.
Qed.

(** [reach] through the operators of the specification and through paths *)
Lemma EUs_reach (Q : val -> Prop) v : EFs G Q v -> exists w, reach v w /\ Q w.
Proof.
  intro H. induction H as [v Hq | v i _ Hi He _ [w [Hr Hq]]].
  - exists v. split; [apply reach_refl | exact Hq].
  - exists w. split; [|exact Hq]. eapply reach_move; [apply move_flip; eassumption | exact Hr].
Qed.

Lemma reach_EFs (Q : val -> Prop) v w : respects Q -> reach v w -> Q w -> EFs G Q v.
Proof.
  intros RQ H Hq. induction H as [v w H | v u w Hm _ IH].
  - apply EUs_here. eapply RQ; [apply veq_sym; exact H | exact Hq].
  - destruct Hm as [i [Hi [He Hm]]]. apply EUs_step with (i := i); [exact I | exact Hi | exact He|].
    eapply (EUs_respects G (fun _ => True) Q); [intros ? ? ? ?; exact I | exact RQ | exact Hm | apply IH; exact Hq].
Qed.

Theorem reach_iff_EF v w : reach v w <-> EFs G (fun u => veq u w) v.
Proof.
  split.
  - intro H. eapply reach_EFs; [|exact H | apply veq_refl].
    intros a b Hab Ha. eapply veq_trans; [apply veq_sym; exact Hab | exact Ha].
  - intro H. destruct (EUs_reach _ v H) as [u [Hr Hu]]. eapply reach_veq_r; eassumption.
Qed.

(** ... so [reach v w] says that some path from v visits w *)
Theorem reach_iff_path v w :
  reach v w <-> exists pi, path G pi /\ veq (pi 0) v /\ exists j, veq (pi j) w.
Proof.
  assert (RQ : respects (fun u => veq u w)).
  { intros a b Hab Ha. eapply veq_trans; [apply veq_sym; exact Hab | exact Ha]. }
  rewrite reach_iff_EF. split.
  - intro H. destruct (EUs_EU_p G _ _ v H) as [pi [Hp [H0 [j [Hj _]]]]].
    exists pi. split; [exact Hp|]. split; [exact H0|]. exists j. exact Hj.
  - intros [pi [Hp [H0 [j Hj]]]]. apply (EU_p_EUs G (fun _ => True) _ v); [intros ? ? ? ?; exact I | exact RQ|].
    exists pi. split; [exact Hp|]. split; [exact H0|]. exists j. split; [exact Hj | intros; exact I].
Qed.

Lemma AGs_reach (P : val -> Prop) v w : respects P -> AGs G P v -> reach v w -> P w.
Proof.
  intros RP HA Hr. apply reach_iff_path in Hr. destruct Hr as [pi [Hp [H0 [j Hj]]]].
  eapply RP; [exact Hj | exact (AGs_AG_p G P v RP HA pi Hp H0 j)].
Qed.

Lemma reach_AGs (P : val -> Prop) v : (forall w, reach v w -> P w) -> AGs G P v.
Proof.
  intro H. exists (reach v). split; [apply reach_refl|].
  intros u Hu. split; [apply H; exact Hu|]. split.
  - intros i Hi He. eapply reach_snoc; [exact Hu | apply move_flip; assumption].
  - intros _. exact Hu.
Qed.

Theorem AG_iff_reach (P : val -> Prop) v : respects P -> (AGs G P v <-> forall w, reach v w -> P w).
Proof.
  intro RP. split; [intros H w Hw; eapply AGs_reach; eassumption | apply reach_AGs].
Qed.

(** v lies in a terminal SCC: whatever is reachable from v can reach v back *)
Definition terminal (v : val) : Prop := forall w, reach v w -> reach w v.

Definition strongly_connected (S : val -> Prop) : Prop := forall a b, S a -> S b -> reach a b.
Definition succ_closed (S : val -> Prop) : Prop := forall a b, S a -> move a b -> S b.
(** a bottom SCC: a non-empty strongly connected set that no move leaves.  Such a set is
    automatically a maximal strongly connected set ([bottom_scc_maximal]) and is the whole
    set of valuations reachable from any of its members ([bottom_scc_is_reach_set]). *)
Definition bottom_scc (S : val -> Prop) : Prop :=
  (exists v, S v) /\ respects S /\ strongly_connected S /\ succ_closed S.

Lemma terminal_veq v v' : veq v v' -> terminal v -> terminal v'.
Proof.
  intros Hv T w Hw. eapply reach_veq_r; [exact Hv|]. apply T. eapply reach_veq_l; [apply veq_sym; exact Hv | exact Hw].
Qed.

(** the set of terminal valuations is closed under [reach] *)
Theorem terminal_closed v w : terminal v -> reach v w -> terminal w.
Proof.
  intros T Hw u Hu. eapply reach_trans; [|exact Hw]. apply T. eapply reach_trans; eassumption.
Qed.

Lemma succ_closed_reach (S : val -> Prop) a b : respects S -> succ_closed S -> S a -> reach a b -> S b.
Proof.
  intros RS HS Sa H. induction H as [a b H | a u b Hm _ IH].
  - eapply RS; eassumption.
  - apply IH. eapply HS; eassumption.
Qed.

Lemma succ_closed_step (S : val -> Prop) a b : respects S -> succ_closed S -> S a -> step G a b -> S b.
Proof.
  intros RS HS Sa H. destruct (step_cases a b H) as [Hm|[_ E]].
  - eapply HS; eassumption.
  - eapply RS; [apply veq_sym; exact E | exact Sa].
Qed.

(** for terminal v, the valuations reachable from v form a bottom SCC that contains v *)
Theorem terminal_bottom_scc v : terminal v -> bottom_scc (reach v) /\ reach v v.
Proof.
  intro T. split; [|apply reach_refl]. split; [exists v; apply reach_refl|]. split; [|split].
  - intros a b Hab Ha. eapply reach_veq_r; eassumption.
  - intros a b Ha Hb. eapply reach_trans; [apply T; exact Ha | exact Hb].
  - intros a b Ha Hm. eapply reach_snoc; eassumption.
Qed.

(** conversely every member of a bottom SCC is terminal *)
Theorem bottom_scc_terminal (S : val -> Prop) v : bottom_scc S -> S v -> terminal v.
Proof.
  intros [_ [RS [SC CL]]] Sv w Hw. apply SC; [|exact Sv].
  eapply succ_closed_reach; eassumption.
Qed.

Theorem terminal_iff_bottom_scc v : terminal v <-> exists S, bottom_scc S /\ S v.
Proof.
  split.
  - intro T. exists (reach v). apply terminal_bottom_scc, T.
  - intros [S [HS Sv]]. eapply bottom_scc_terminal; eassumption.
Qed.

(** a bottom SCC is exactly what is reachable from any of its members ... *)
Theorem bottom_scc_is_reach_set (S : val -> Prop) v : bottom_scc S -> S v -> forall w, S w <-> reach v w.
Proof.
  intros [_ [RS [SC CL]]] Sv w. split.
  - intro Sw. apply SC; assumption.
  - intro Hw. eapply succ_closed_reach; eassumption.
Qed.

(** ... and is a maximal strongly connected set: a strongly connected set that meets it lies
    inside it *)
Theorem bottom_scc_maximal (S T : val -> Prop) : bottom_scc S -> strongly_connected T ->
  (exists a, S a /\ T a) -> forall b, T b -> S b.
Proof.
  intros [_ [RS [_ CL]]] ST [a [Sa Ta]] b Tb.
  eapply succ_closed_reach; [exact RS | exact CL | exact Sa | apply ST; assumption].
Qed.

Lemma vsteady_no_move v : vsteady G v <-> forall w, ~ move v w.
Proof.
  split.
  - intros Hs w [i [Hi [He _]]]. rewrite (Hs i Hi) in He. discriminate.
  - intros H i Hi. destruct (enabled G i v) eqn:He; [|reflexivity].
    exfalso. apply (H (vflip (TS i) v)). apply move_flip; assumption.
Qed.

(** steady = the only successor is the valuation itself (the self-loop) *)
Theorem vsteady_only_loop v : vsteady G v <-> forall w, step G v w -> veq w v.
Proof.
  split.
  - intros Hs w H. destruct (step_cases v w H) as [Hm|[_ E]]; [|exact E].
    exfalso. exact (proj1 (vsteady_no_move v) Hs w Hm).
  - intro H. apply vsteady_no_move. intros w Hm. apply (move_neq v w Hm). apply H, move_step, Hm.
Qed.

(** steady = nothing but the valuation itself is reachable *)
Theorem vsteady_iff_reach_self v : vsteady G v <-> forall w, reach v w -> veq v w.
Proof.
  split.
  - intros Hs w H. destruct H as [v w H | v u w Hm _]; [exact H|].
    exfalso. exact (proj1 (vsteady_no_move v) Hs u Hm).
  - intro H. apply vsteady_no_move. intros w Hm. apply (move_neq v w Hm).
    apply veq_sym, H, reach_one, Hm.
Qed.

(** a steady valuation is a bottom SCC of its own *)
Theorem vsteady_terminal v : vsteady G v -> terminal v.
Proof.
  intros Hs w Hw. apply reach_here, veq_sym. apply (proj1 (vsteady_iff_reach_self v) Hs w Hw).
Qed.

(** equal outside the spare copies *)
Definition agree_ne (v w : val) : Prop := forall g, is_extra_tag g = false -> v g = w g.
(** the spare copies of x around the colour and state of b *)
Definition graft (x b : val) : val := fun g => if is_extra_tag g then x g else b g.

Section Extras.
(** the update functions do not read the spare copies *)
Hypothesis upd_extras : forall i v w, (forall g, is_extra_tag g = false -> v g = w g) ->
  mem L (upd_of G i) v = mem L (upd_of G i) w.

Lemma enabled_agree i v w : agree_ne v w -> enabled G i v = enabled G i w.
Proof. intro H. apply (enabled_ignores_copies G upd_extras); intros; apply H; reflexivity. Qed.

Lemma vsteady_agree v w : agree_ne v w -> vsteady G v -> vsteady G w.
Proof. intros H Hs i Hi. rewrite <- (enabled_agree i v w H). apply Hs, Hi. Qed.

Lemma agree_ne_sym v w : agree_ne v w -> agree_ne w v.
Proof. intros H g Hg. symmetry. apply H, Hg. Qed.

Lemma agree_ne_graft x b : agree_ne (graft x b) b.
Proof. intros g Hg. unfold graft. rewrite Hg. reflexivity. Qed.

Lemma agree_ne_set_copy e u v : agree_ne v (set_copy e u v).
Proof. intros g Hg. destruct g; simpl in *; try reflexivity. discriminate. Qed.

(** reachability does not depend on the spare copies *)
Lemma reach_transfer a b : reach a b -> forall a', agree_ne a a' -> reach a' (graft a' b).
Proof.
  intro H. induction H as [a b H | a u b Hm _ IH]; intros a' Ha.
  - apply reach_here. intro g. unfold graft. destruct (is_extra_tag g) eqn:E; [reflexivity|].
    rewrite <- (Ha g E). apply H.
  - destruct Hm as [i [Hi [He Hm]]].
    assert (Hu : agree_ne u (vflip (TS i) a')).
    { intros g Hg. rewrite (Hm g). unfold vflip. rewrite (Ha g Hg). reflexivity. }
    eapply reach_move; [apply (move_flip a' i Hi); rewrite <- (enabled_agree i a a' Ha); exact He|].
    eapply reach_veq_r; [|apply (IH _ Hu)].
    intro g. unfold graft. destruct (is_extra_tag g) eqn:E; [|reflexivity].
    unfold vflip. destruct g; try discriminate. reflexivity.
Qed.

Lemma same_out_extra v w : same_out n v w -> forall g, is_extra_tag g = true -> w g = v g.
Proof. intros H g Hg. apply H. intros i _ E. subst g. discriminate. Qed.

(** ... and neither does lying in a terminal SCC *)
Lemma terminal_agree v v' : agree_ne v v' -> terminal v -> terminal v'.
Proof.
  intros Av T w Hw.
  pose proof (T _ (reach_transfer v' w Hw v (agree_ne_sym _ _ Av))) as H.
  eapply reach_veq_r; [|apply (reach_transfer _ _ H w (agree_ne_graft v w))].
  intro g. unfold graft. destruct (is_extra_tag g) eqn:E; [|apply Av, E].
  apply (same_out_extra v' w (reach_same_out v' w Hw) g E).
Qed.

(** AG EF Q, for a Q that among the valuations reachable from v singles out v *)
Lemma AG_EF_terminal (Q : val -> Prop) v : respects Q -> Q v ->
  (forall u, same_out n v u -> Q u -> veq v u) -> (AGs G (EFs G Q) v <-> terminal v).
Proof.
  intros RQ Qv Uq.
  assert (RE : respects (EFs G Q)) by (apply (EUs_respects G); [intros ? ? ? ?; exact I | exact RQ]).
  split.
  - intros HAG w Hw. destruct (EUs_reach _ _ (AGs_reach _ v w RE HAG Hw)) as [b [Hb Qb]].
    eapply reach_veq_r; [|exact Hb]. apply veq_sym, Uq; [|exact Qb].
    apply reach_same_out. eapply reach_trans; eassumption.
  - intro T. apply reach_AGs. intros u Hu. exact (reach_EFs Q u v RQ (T u Hu) Qv).
Qed.

(** AX Q, for such a Q *)
Lemma AX_vsteady (Q : val -> Prop) v : Q v ->
  (forall u, same_out n v u -> Q u -> veq v u) -> (AXs G Q v <-> vsteady G v).
Proof.
  intros Qv Uq. split.
  - intros [A1 _] i Hi. destruct (enabled G i v) eqn:He; [|reflexivity]. exfalso.
    apply (move_neq v _ (move_flip v i Hi He)). apply veq_sym, Uq; [|apply A1; assumption].
    apply same_out_move; [apply same_out_veq, veq_refl | assumption | assumption].
  - intro Hs. split; [intros i Hi He; rewrite (Hs i Hi) in He; discriminate | intros _; exact Qv].
Qed.

Variable names : list str.
Variable Gamma : str -> val -> Prop.
Local Notation Sat := (sat G names Gamma).

Lemma copy_is_state_respects e : respects (copy_is_state G e).
Proof. intros a b Hab Ha i Hi. rewrite <- !Hab. apply Ha, Hi. Qed.

Lemma copy_is_state_bound e v : copy_is_state G e (set_copy e v v).
Proof. intros i Hi. simpl. rewrite Nat.eqb_refl. reflexivity. Qed.

(** the only valuation that differs from the bound one in state bits and is the bound state *)
Lemma bound_unique e v u : same_out n (set_copy e v v) u -> copy_is_state G e u ->
  veq (set_copy e v v) u.
Proof.
  intros Hso Hc g. symmetry.
  destruct g as [j|i|i e']; try (apply Hso; intros i' _; discriminate).
  destruct (Nat.lt_ge_cases i n) as [Hi|Hi].
  - rewrite <- (Hc i Hi). rewrite (Hso (TX i e)) by (intros i' _; discriminate).
    simpl. rewrite Nat.eqb_refl. reflexivity.
  - apply Hso. intros i' Hi' E. injection E as ->. lia.
Qed.

Lemma AVar_respects x : respects (Sat (Terminal (AVar x))).
Proof.
  intros a b Hab [e [Ev H]]. exists e. split; [exact Ev|]. eapply copy_is_state_respects; eassumption.
Qed.

(** [!{x}: body] reads [body] at the valuation whose copy for [x] holds its own state; there
    [{x}] holds, and among the valuations that differ in state bits only, there alone *)
Lemma AVar_bound x e v : var_of G x = Some e -> Sat (Terminal (AVar x)) (set_copy e v v).
Proof. intro Ev. apply (sat_var_at G names Gamma x e _ Ev), copy_is_state_bound. Qed.

Lemma AVar_unique x e v u : var_of G x = Some e ->
  same_out n (set_copy e v v) u -> Sat (Terminal (AVar x)) u -> veq (set_copy e v v) u.
Proof. intros Ev Hso Qu. apply bound_unique; [exact Hso | apply (sat_var_at G names Gamma x e u Ev), Qu]. Qed.

(** !{x}: AG EF {x}  holds exactly in the terminal SCCs *)
Theorem attractor_formula_terminal x e v : var_of G x = Some e ->
  (Sat (Hybrid Bind x None (Unary AG (Unary EF (Terminal (AVar x))))) v <-> terminal v).
Proof.
  intro Ev. rewrite (sat_hybrid_at G names Gamma Bind x e _ v Ev). cbn [sat].
  rewrite (AG_EF_terminal _ _ (AVar_respects x) (AVar_bound x e v Ev) (fun u => AVar_unique x e v u Ev)).
  split; apply terminal_agree; [apply agree_ne_sym|]; apply agree_ne_set_copy.
Qed.

(** !{x}: AX {x}  holds exactly at the valuations without an enabled update *)
Theorem steady_formula_vsteady x e v : var_of G x = Some e ->
  (Sat (Hybrid Bind x None (Unary AX (Terminal (AVar x)))) v <-> vsteady G v).
Proof.
  intro Ev. rewrite (sat_hybrid_at G names Gamma Bind x e _ v Ev). cbn [sat].
  rewrite (AX_vsteady _ _ (AVar_bound x e v Ev) (fun u => AVar_unique x e v u Ev)).
  split; apply vsteady_agree; [apply agree_ne_sym|]; apply agree_ne_set_copy.
Qed.

Corollary steady_formula_implies_attractor_formula x e v : var_of G x = Some e ->
  Sat (Hybrid Bind x None (Unary AX (Terminal (AVar x)))) v ->
  Sat (Hybrid Bind x None (Unary AG (Unary EF (Terminal (AVar x))))) v.
Proof.
  intros Ev H. apply (attractor_formula_terminal x e v Ev). apply vsteady_terminal.
  apply (steady_formula_vsteady x e v Ev). exact H.
Qed.

(** every member of a bottom SCC satisfies the attractor formula *)
Corollary bottom_scc_sat (S : val -> Prop) x e v : var_of G x = Some e -> bottom_scc S -> S v ->
  Sat (Hybrid Bind x None (Unary AG (Unary EF (Terminal (AVar x))))) v.
Proof.
  intros Ev HS Sv. apply (attractor_formula_terminal x e v Ev). eapply bottom_scc_terminal; eassumption.
Qed.

(** and a valuation that satisfies it lies in one: the set of valuations reachable from it *)
Corollary sat_bottom_scc x e v : var_of G x = Some e ->
  Sat (Hybrid Bind x None (Unary AG (Unary EF (Terminal (AVar x))))) v ->
  bottom_scc (reach v) /\ reach v v.
Proof. intros Ev H. apply terminal_bottom_scc. apply (attractor_formula_terminal x e v Ev). exact H. Qed.

End Extras.

Section Evaluator.
Variable names : list str.
Variable U : tt.
Hypothesis WF : wf_env G names U.

(** the unit only constrains the colour, so it is closed under [reach] *)
Theorem unit_closed_reach v w : reach v w -> mem L U w = mem L U v.
Proof. intro H. apply (wf_U_colour _ _ _ WF). apply (reach_frame v w H). Qed.

Theorem attractors_terminal e R : e < g_k G -> attractors G U e = Ok R ->
  forall v, mem L R v = true <-> (mem L U v = true /\ terminal v).
Proof.
  intros He H v. pose proof (var_of_repeat G 120%N e He) as Ev.
  destruct WF as [W1 W2 W3 W4 W5 W6 W7 W8 W9 W10].
  assert (S : spec_of G U R (sat G names (fun _ _ => True)
     (Hybrid Bind (repeat_n (S e) 120%N) None (Unary AG (Unary EF (Terminal (AVar (repeat_n (S e) 120%N))))))))
    by (eapply attractor_pattern_spec; eauto).
  destruct S as [_ E]. rewrite E. rewrite (attractor_formula_terminal W8 names (fun _ _ => True) _ e v Ev). reflexivity.
Qed.

Theorem attractors_total e : exists R, attractors G U e = Ok R.
Proof.
  destruct (total_attractors G U (wf_nodup _ _ _ WF) (wf_upd_shaped _ _ _ WF) (wf_U_shaped _ _ _ WF) e)
    as [R [E _]]. exists R. exact E.
Qed.

(** the same through [eval_node], pattern shortcuts on or off: its result for a formula whose
    meaning is [P] *)
Lemma eval_node_meaning sw t c R c' (P : val -> Prop) :
  plainf t -> supported G t -> duplicates c = [] ->
  (forall v, sat G names (fun _ _ => True) t v <-> P v) ->
  eval_node G names sw (steady_of G U) t U c = Ok (R, c') ->
  forall v, mem L R v = true <-> (mem L U v = true /\ P v).
Proof.
  intros Hp Hs Hd HP H v.
  rewrite (proj2 (eval_node_correct G names U WF (fun _ _ => True) sw t c R c' Hp Hs Hd H) v), HP.
  reflexivity.
Qed.

Theorem eval_node_attractor_terminal sw x e c R c' : var_of G x = Some e -> duplicates c = [] ->
  eval_node G names sw (steady_of G U) (Hybrid Bind x None (Unary AG (Unary EF (Terminal (AVar x))))) U c = Ok (R, c') ->
  forall v, mem L R v = true <-> (mem L U v = true /\ terminal v).
Proof.
  intros Ev Hd. assert (Hs : var_of G x <> None) by congruence.
  apply eval_node_meaning; [simpl; auto | simpl; auto | exact Hd|].
  intro v. exact (attractor_formula_terminal (wf_upd_extras _ _ _ WF) names _ x e v Ev).
Qed.

Theorem eval_node_steady_vsteady sw x e c R c' : var_of G x = Some e -> duplicates c = [] ->
  eval_node G names sw (steady_of G U) (Hybrid Bind x None (Unary AX (Terminal (AVar x)))) U c = Ok (R, c') ->
  forall v, mem L R v = true <-> (mem L U v = true /\ vsteady G v).
Proof.
  intros Ev Hd. assert (Hs : var_of G x <> None) by congruence.
  apply eval_node_meaning; [simpl; auto | simpl; auto | exact Hd|].
  intro v. exact (steady_formula_vsteady (wf_upd_extras _ _ _ WF) names _ x e v Ev).
Qed.

End Evaluator.
End Scc.

(** A concrete network: a = !a, b = false (two variables, no parameter, one copy).
    State graph (a,b): (0,0) <-> (1,0) is the bottom SCC; (0,1) and (1,1) are transient
    (b can only fall). *)
Definition ex_G : genv :=
  mk_genv 0 2 1 [tminus (const (Lpn 0 2) true) (lit (Lpn 0 2) (TS 0)); const (Lpn 0 2) false].
Definition ex_names : list str := [[97%N]; [98%N]].
Definition ex_U : tt := expand not_extra (mk_layout 0 2 1) (const (Lpn 0 2) true).

Definition s00 : val := fun _ => false.
Definition s10 : val := fun g => tag_eqb g (TS 0).
Definition s01 : val := fun g => tag_eqb g (TS 1).

Lemma ex_wf : wf_env ex_G ex_names ex_U.
Proof.
  apply mk_genv_wf.
  - constructor; [cbv; tauto|]. constructor; [apply shaped_const | constructor].
  - apply shaped_const.
  - intros v w _. rewrite !mem_const. reflexivity.
  - simpl. lia.
Qed.

Lemma ex_attractors_run :
  exists R, attractors ex_G ex_U 0 = Ok R /\
    mem (g_L ex_G) R s00 = true /\ mem (g_L ex_G) R s10 = true /\
    mem (g_L ex_G) R s01 = false /\ mem (g_L ex_G) ex_U s01 = true.
Proof. eexists. split; [vm_compute; reflexivity|]. vm_compute. auto. Qed.

Lemma ex_s00_s10 : move ex_G s00 s10.
Proof.
  exists 0. split; [simpl; lia|]. split; [vm_compute; reflexivity|].
  intro g. unfold s10, s00, vflip. destruct (tag_eqb g (TS 0)); reflexivity.
Qed.

Lemma ex_s10_s00 : move ex_G s10 s00.
Proof.
  exists 0. split; [simpl; lia|]. split; [vm_compute; reflexivity|].
  intro g. unfold s10, s00, vflip. destruct (tag_eqb g (TS 0)); reflexivity.
Qed.

Lemma ex_s01_s00 : move ex_G s01 s00.
Proof.
  exists 1. split; [simpl; lia|]. split; [vm_compute; reflexivity|].
  intro g. unfold s01, s00, vflip. destruct (tag_eqb g (TS 1)); reflexivity.
Qed.

Lemma ex_distinct : ~ veq s00 s10 /\ ~ veq s00 s01 /\ ~ veq s10 s01.
Proof.
  split; [|split]; intro H.
  - specialize (H (TS 0)). discriminate.
  - specialize (H (TS 1)). discriminate.
  - specialize (H (TS 0)). discriminate.
Qed.

(** the component of (0,0) has exactly two members *)
Lemma ex_component w : reach ex_G s00 w -> veq s00 w \/ veq s10 w.
Proof.
  assert (Gen : forall u w, reach ex_G u w -> veq s00 u \/ veq s10 u -> veq s00 w \/ veq s10 w).
  { intros u w' H. induction H as [u w' H | u x w' Hm _ IH]; intros [E|E].
    - left. eapply veq_trans; eassumption.
    - right. eapply veq_trans; eassumption.
    - apply IH. destruct Hm as [i [Hi [He Hm]]].
      rewrite <- (enabled_veq ex_G i s00 u E) in He.
      assert (i = 0) as ->.
      { simpl in Hi. destruct i as [|[|i]]; [reflexivity | vm_compute in He; discriminate | lia]. }
      right. intro g. rewrite (Hm g). unfold vflip. rewrite <- (E g). unfold s10, s00.
      destruct (tag_eqb g (TS 0)); reflexivity.
    - apply IH. destruct Hm as [i [Hi [He Hm]]].
      rewrite <- (enabled_veq ex_G i s10 u E) in He.
      assert (i = 0) as ->.
      { simpl in Hi. destruct i as [|[|i]]; [reflexivity | vm_compute in He; discriminate | lia]. }
      left. intro g. rewrite (Hm g). unfold vflip. rewrite <- (E g). unfold s10, s00.
      destruct (tag_eqb g (TS 0)); reflexivity. }
  intro H. apply (Gen s00 w H). left. apply veq_refl.
Qed.

(** what [attractors] returns on the example, read through [attractors_terminal] *)
Theorem ex_bottom_and_transient :
  exists R, attractors ex_G ex_U 0 = Ok R /\
    (* (0,0) is reported and lies in a bottom SCC, which has exactly the two members (0,0), (1,0) *)
    mem (g_L ex_G) R s00 = true /\ terminal ex_G s00 /\
    reach ex_G s00 s10 /\ reach ex_G s10 s00 /\ ~ veq s00 s10 /\
    (forall w, reach ex_G s00 w -> veq s00 w \/ veq s10 w) /\
    (* (0,1) is in the unit, not reported, not terminal: it reaches (0,0) and cannot come back *)
    mem (g_L ex_G) ex_U s01 = true /\ mem (g_L ex_G) R s01 = false /\ ~ terminal ex_G s01 /\
    reach ex_G s01 s00 /\ ~ reach ex_G s00 s01.
Proof.
  destruct ex_attractors_run as [R [HR [M00 [M10 [M01 U01]]]]]. exists R.
  assert (Hk : 0 < g_k ex_G) by (simpl; lia).
  pose proof (attractors_terminal ex_G ex_names ex_U ex_wf 0 R Hk HR) as Spec.
  split; [exact HR|]. split; [exact M00|].
  split; [apply (Spec s00); exact M00|].
  split; [apply reach_one, ex_s00_s10|]. split; [apply reach_one, ex_s10_s00|].
  split; [apply ex_distinct|]. split; [apply ex_component|].
  split; [exact U01|]. split; [exact M01|].
  split; [intro T; assert (X : mem (g_L ex_G) R s01 = true) by (apply Spec; split; assumption); congruence|].
  split; [apply reach_one, ex_s01_s00|].
  intro H. destruct (ex_component s01 H) as [E|E]; [apply (proj1 (proj2 ex_distinct)), E | apply (proj2 (proj2 ex_distinct)), E].
Qed.
