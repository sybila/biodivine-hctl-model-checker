(** Facts about the precedence parser of Model/Parser.v (property C05):
    the documented grammar as inductive relations, soundness and completeness of
    [parse_tokens] with respect to it, sufficiency of [parse_fuel], absence of
    Panic / OutOfFuel outcomes, and "no token is dropped". *)
From HCTL Require Import Base Syntax Parser.
From HCTL Require Import BaseFacts.

(** * The documented grammar

    Binding strength, tightest first: unary operators, binary temporal operators
    (EU AU EW AW), then [&], [^], [|], [=>], [<=>].  All binary operators are
    right-associative.  Hybrid operators bind weakest and may only occur at the start of a
    formula or of a parenthesised group.

    [op_level o] is the precedence class of a binary operator;  [L n] derives the
    expressions whose top-level binary operators all have class [< n]. *)
Definition op_level (o : binop) : nat :=
  match o with
  | EU | AU | EW | AW => 0
  | And => 1
  | Xor => 2
  | Or => 3
  | Imp => 4
  | Iff => 5
  end.

Inductive G : list token -> tree -> Prop :=
| G_hyb : forall o x d ts t, G ts t -> G (THyb o x d :: ts) (Hybrid o x d t)
| G_expr : forall ts t, L 6 ts t -> G ts t
with L : nat -> list token -> tree -> Prop :=
| L_unary : forall ts t, U ts t -> L 0 ts t
| L_bin : forall n o l r a b,
    op_level o = n -> L n l a -> L (S n) r b ->
    L (S n) (l ++ TBin o :: r) (Binary o a b)
| L_skip : forall n ts t, L n ts t -> L (S n) ts t
with U : list token -> tree -> Prop :=
| U_un : forall o ts t, U ts t -> U (TUn o :: ts) (Unary o t)
| U_prop : forall name, U [TAtom (AProp name)] (Terminal (atom_of_prop_name name))
| U_var : forall x, U [TAtom (AVar x)] (Terminal (AVar x))
| U_wild : forall p, U [TAtom (AWild p)] (Terminal (AWild p))
| U_group : forall ts t, G ts t -> U [TGroup ts] t.

Scheme G_mind := Minimality for G Sort Prop
  with L_mind := Minimality for L Sort Prop
  with U_mind := Minimality for U Sort Prop.
Combined Scheme GLU_mutind from G_mind, L_mind, U_mind.

(** * Moving between the levels of the grammar *)

Lemma L_mono : forall n ts t, L n ts t -> forall m, n <= m -> L m ts t.
Proof.
  intros n ts t H m LE. induction LE as [|m LE IH]; [exact H | apply L_skip, IH].
Qed.

Lemma op_level_lt_6 : forall o, op_level o < 6.
Proof. intros o. apply Nat.ltb_lt. destruct o; reflexivity. Qed.

(** levels above 6 derive nothing new *)
Lemma L_any_6 : forall n ts t, L n ts t -> L 6 ts t.
Proof.
  intros n ts t H. induction H as [ts t HU | n o l r a b Ho Hl IHl Hr IHr | n ts t H IH].
  - apply (L_mono 0); [apply L_unary, HU | lia].
  - pose proof (op_level_lt_6 o) as LT.
    apply (L_mono (S n)); [apply L_bin; assumption | lia].
  - exact IH.
Qed.

Lemma L_G : forall n ts t, L n ts t -> G ts t.
Proof. intros n ts t H. apply G_expr, (L_any_6 n), H. Qed.

Lemma U_L : forall n ts t, U ts t -> L n ts t.
Proof. intros n ts t H. apply (L_mono 0); [apply L_unary, H | lia]. Qed.

Lemma U_G : forall ts t, U ts t -> G ts t.
Proof. intros ts t H. apply (L_G 0), L_unary, H. Qed.

Lemma L_0_inv : forall ts t, L 0 ts t -> U ts t.
Proof. intros ts t H; inversion H; assumption. Qed.

(** * Flattening of token lists and reading of trees (for "no token is dropped") *)

(** [strip] removes the group structure (the parentheses) and keeps every other token. *)
Fixpoint strip_tok (x : token) : list token :=
  match x with
  | TGroup ts => (fix go (l : list token) : list token :=
                    match l with [] => [] | y :: l' => strip_tok y ++ go l' end) ts
  | _ => [x]
  end.
Definition strip (ts : list token) : list token :=
  (fix go (l : list token) : list token :=
     match l with [] => [] | y :: l' => strip_tok y ++ go l' end) ts.

(** operators and atoms of a tree in reading order *)
Fixpoint leaves (t : tree) : list token :=
  match t with
  | Terminal a => [TAtom a]
  | Unary o c => TUn o :: leaves c
  | Binary o l r => leaves l ++ TBin o :: leaves r
  | Hybrid o x d c => THyb o x d :: leaves c
  end.

(** the only rewriting the parser does on a token: the proposition names
    true/True/1 and false/False/0 become constants *)
Definition norm_tok (x : token) : token :=
  match x with
  | TAtom (AProp name) => TAtom (atom_of_prop_name name)
  | _ => x
  end.

Definition is_atom_tok (x : token) : bool :=
  match x with TAtom _ => true | _ => false end.
Definition not_group (x : token) : Prop :=
  match x with TGroup _ => False | _ => True end.

(** acceptable outcomes of the parser: a tree or a parse error *)
Definition benign (r : res tree) : Prop :=
  (exists t, r = Ok t) \/ r = Err EParse.

(** * [split_first] *)

Lemma split_first_spec : forall p ts,
  match split_first p ts with
  | Some (l, x, r) => ts = l ++ x :: r /\ p x = true /\ List.Forall (fun y => p y = false) l
  | None => List.Forall (fun y => p y = false) ts
  end.
Proof.
  intros p ts; induction ts as [|y ts IH]; cbn [split_first]; [constructor|].
  destruct (p y) eqn:Py; [auto|].
  destruct (split_first p ts) as [[[l x] r]|]; [|constructor; assumption].
  destruct IH as (-> & Px & Fl). auto.
Qed.

Lemma split_first_some : forall p ts l x r,
  split_first p ts = Some (l, x, r) ->
  ts = l ++ x :: r /\ p x = true /\ List.Forall (fun y => p y = false) l.
Proof. intros p ts l x r H. pose proof (split_first_spec p ts) as S. rewrite H in S. exact S. Qed.

Lemma split_first_none : forall p ts,
  split_first p ts = None -> List.Forall (fun y => p y = false) ts.
Proof. intros p ts H. pose proof (split_first_spec p ts) as S. rewrite H in S. exact S. Qed.

Lemma split_first_app : forall p l x r,
  List.Forall (fun y => p y = false) l -> p x = true ->
  split_first p (l ++ x :: r) = Some (l, x, r).
Proof.
  intros p l x r Fl Px; induction Fl as [|y l Py Fl IH].
  - cbn [app split_first]. rewrite Px. reflexivity.
  - cbn [app split_first]. rewrite Py, IH. reflexivity.
Qed.

Lemma split_first_none_intro : forall p ts,
  List.Forall (fun y => p y = false) ts -> split_first p ts = None.
Proof.
  intros p ts Fl; induction Fl as [|y l Py Fl IH].
  - reflexivity.
  - cbn [split_first]. rewrite Py, IH. reflexivity.
Qed.

(** * Sizes *)

Lemma tok_size_group : forall ts, tok_size (TGroup ts) = S (toks_size ts).
Proof. reflexivity. Qed.

Lemma toks_size_nil : toks_size [] = 0.
Proof. reflexivity. Qed.

Lemma toks_size_cons : forall x l, toks_size (x :: l) = tok_size x + toks_size l.
Proof. reflexivity. Qed.

Lemma toks_size_app : forall l r, toks_size (l ++ r) = toks_size l + toks_size r.
Proof.
  intros l r; induction l as [|x l IH].
  - reflexivity.
  - cbn [app]. rewrite !toks_size_cons, IH. lia.
Qed.

(** * Unfolding equations of [parse_lvl] *)

Lemma parse_eq_1 : forall f ts,
  parse_lvl (S f) 1 ts =
  match split_first is_hybrid ts with
  | Some (l, THyb o x d, r) =>
      match l with
      | [] => let* c := parse_lvl f 1 r in Ok (Hybrid o x d c)
      | _ => Err EParse
      end
  | Some _ => Panic PShape
  | None => parse_lvl f 2 ts
  end.
Proof. reflexivity. Qed.

Lemma is_bin_true : forall o x, is_bin o x = true -> x = TBin o.
Proof.
  intros o x H; destruct x as [u|o'|h y d|a|g]; try discriminate H.
  cbn [is_bin] in H. apply binop_eqb_eq in H. subst o'. reflexivity.
Qed.

(** the levels 2 to 7 split at the first binary operator of one class: level [7 - n] at the
    tokens [x] with [splits n x], the operators of class [n] *)
Definition splits (n : nat) : token -> bool :=
  match level_binop (7 - n) with Some o => is_bin o | None => is_binary_temporal end.

Lemma splits_eq : forall n x, n <= 5 ->
  splits n x = match x with TBin o => op_level o =? n | _ => false end.
Proof.
  intros n x Hn.
  do 6 (destruct n as [|n]; [destruct x as [u|[]|h y d|a|g]; reflexivity|]).
  exfalso; lia.
Qed.

Lemma parse_eq_splits : forall f n ts, n <= 5 ->
  parse_lvl (S f) (7 - n) ts =
  match split_first (splits n) ts with
  | Some (l, TBin o, r) =>
      let* a := parse_lvl f (8 - n) l in
      let* b := parse_lvl f (7 - n) r in
      Ok (Binary o a b)
  | Some _ => Panic PShape
  | None => parse_lvl f (8 - n) ts
  end.
Proof.
  intros f n ts Hn.
  destruct n as [|n]; [reflexivity|].
  (* levels 2 to 6: the model builds the tree from the operator of the level, not from the
     token found *)
  do 5 (destruct n as [|n];
    [cbn [Nat.sub parse_lvl level_binop splits];
     destruct (split_first _ ts) as [[[l x] r]|] eqn:E; [|reflexivity];
     apply split_first_some in E; destruct E as (_ & Px & _);
     apply is_bin_true in Px; rewrite Px; reflexivity|]).
  exfalso; lia.
Qed.

Lemma parse_eq_8 : forall f ts,
  parse_lvl (S f) 8 ts =
  match split_first is_unary ts with
  | Some (l, TUn o, r) =>
      match l with
      | [] => let* c := parse_lvl f 8 r in Ok (Unary o c)
      | _ => Err EParse
      end
  | Some _ => Panic PShape
  | None => parse_lvl f 9 ts
  end.
Proof. reflexivity. Qed.

Lemma parse_eq_9 : forall f lvl ts,
  lvl = 0 \/ 9 <= lvl ->
  parse_lvl (S f) lvl ts =
  match ts with
  | [TAtom (AProp name)] => Ok (Terminal (atom_of_prop_name name))
  | [TAtom (AVar name)] => Ok (Terminal (AVar name))
  | [TAtom (AWild name)] => Ok (Terminal (AWild name))
  | [TGroup inner] => parse_lvl f 1 inner
  | _ => Err EParse
  end.
Proof.
  intros f lvl ts [-> | H]; [reflexivity|].
  replace lvl with (9 + (lvl - 9)) by lia. reflexivity.
Qed.

Lemma is_hybrid_true : forall x, is_hybrid x = true -> exists o y d, x = THyb o y d.
Proof.
  intros x H; destruct x as [u|o|h y d|a|g]; try discriminate H.
  exists h, y, d; reflexivity.
Qed.

Lemma is_unary_true : forall x, is_unary x = true -> exists o, x = TUn o.
Proof.
  intros x H; destruct x as [u|o|h y d|a|g]; try discriminate H.
  exists u; reflexivity.
Qed.

Lemma level_binop_op_level : forall lvl o,
  level_binop lvl = Some o -> lvl = 7 - op_level o /\ 1 <= op_level o <= 5.
Proof.
  intros lvl o H.
  do 7 (destruct lvl as [|lvl];
    [try discriminate H; try (injection H as <-; cbn; repeat constructor)|]).
  discriminate H.
Qed.

(** * Outcomes: with the fuel of [parse_tokens] a run ends in a derivable tree or in a parse
    error *)

Definition yields (P : tree -> Prop) (r : res tree) : Prop :=
  match r with Ok t => P t | Err e => e = EParse | _ => False end.

Lemma yields_bind : forall (P Q : tree -> Prop) r k,
  yields P r -> (forall a, P a -> yields Q (k a)) -> yields Q (bind r k).
Proof. intros P Q [a|e|p|] k H Hk; try contradiction H; [exact (Hk a H)|exact H]. Qed.

Lemma yields_impl : forall (P Q : tree -> Prop) r,
  (forall t, P t -> Q t) -> yields P r -> yields Q r.
Proof. intros P Q [a|e|p|] HPQ H; try exact H. exact (HPQ a H). Qed.

Lemma yields_benign : forall P r, yields P r -> benign r.
Proof.
  intros P [a|e|p|] H; try contradiction H.
  - left; exists a; reflexivity.
  - right; cbn [yields] in H; rewrite H; reflexivity.
Qed.

(** level 1 yields [G], level [8 - n] yields [L n], level 9 yields [U].  Every call costs one
    unit of fuel and falls through to the next level, so level [k] needs [10 - k] units beyond
    the ten per token that a group needs to start again at level 1 *)
Lemma parse_lvl_yields : forall f,
  (forall ts, 10 * toks_size ts + 9 <= f -> yields (G ts) (parse_lvl f 1 ts)) /\
  (forall n ts, n <= 6 -> 10 * toks_size ts + 2 + n <= f ->
     yields (L n ts) (parse_lvl f (8 - n) ts)) /\
  (forall ts, 10 * toks_size ts + 1 <= f -> yields (U ts) (parse_lvl f 9 ts)).
Proof.
  induction f as [|f (IHG & IHL & IHU)]; [repeat split; intros; exfalso; lia|].
  split; [|split].
  - intros ts Hf. rewrite parse_eq_1.
    destruct (split_first is_hybrid ts) as [[[l x] r]|] eqn:E.
    + apply split_first_some in E. destruct E as (-> & Px & _).
      apply is_hybrid_true in Px. destruct Px as (o & y & d & ->).
      destruct l as [|z l]; [|reflexivity].
      cbn [app] in Hf |- *. rewrite toks_size_cons in Hf. cbn [tok_size] in Hf.
      eapply yields_bind; [apply IHG; lia|]. intros c Hc. exact (G_hyb o y d r c Hc).
    + eapply yields_impl; [exact (G_expr ts)|]. apply (IHL 6); lia.
  - intros n ts Hn Hf. destruct n as [|n].
    + cbn [Nat.sub]. rewrite parse_eq_8.
      destruct (split_first is_unary ts) as [[[l x] r]|] eqn:E.
      * apply split_first_some in E. destruct E as (-> & Px & _).
        apply is_unary_true in Px. destruct Px as (o & ->).
        destruct l as [|z l]; [|reflexivity].
        cbn [app] in Hf |- *. rewrite toks_size_cons in Hf. cbn [tok_size] in Hf.
        eapply yields_bind; [apply (IHL 0); lia|]. intros c Hc.
        exact (L_unary _ _ (U_un o r c (L_0_inv r c Hc))).
      * eapply yields_impl; [exact (L_unary ts)|]. apply IHU; lia.
    + change (8 - S n) with (7 - n). rewrite parse_eq_splits by lia.
      destruct (split_first (splits n) ts) as [[[l x] r]|] eqn:E.
      * apply split_first_some in E. destruct E as (-> & Px & _).
        rewrite splits_eq in Px by lia.
        destruct x as [u|o|h y d|a'|g]; try discriminate Px. apply Nat.eqb_eq in Px.
        rewrite toks_size_app, toks_size_cons in Hf. cbn [tok_size] in Hf.
        eapply yields_bind; [apply IHL; lia|]. intros a Ha.
        eapply yields_bind; [apply (IHL (S n)); lia|]. intros b Hb.
        exact (L_bin n o l r a b Px Ha Hb).
      * eapply yields_impl; [exact (L_skip n ts)|]. apply IHL; lia.
  - intros ts Hf. rewrite parse_eq_9 by lia.
    destruct ts as [|[u|o|h y d|[s|s| | |s]|g] [|x' ts']]; try reflexivity.
    + apply U_prop.
    + apply U_var.
    + apply U_wild.
    + rewrite toks_size_cons, tok_size_group, toks_size_nil in Hf.
      eapply yields_impl; [exact (U_group g)|]. apply IHG; lia.
Qed.

Theorem parse_tokens_yields : forall ts, yields (G ts) (parse_tokens ts).
Proof.
  intros ts. apply (proj1 (parse_lvl_yields (parse_fuel ts))). unfold parse_fuel. lia.
Qed.

Theorem parse_sound : forall ts t, parse_tokens ts = Ok t -> G ts t.
Proof.
  intros ts t H. pose proof (parse_tokens_yields ts) as O. rewrite H in O. exact O.
Qed.

Theorem parse_tokens_benign : forall ts, benign (parse_tokens ts).
Proof. intros ts. exact (yields_benign _ _ (parse_tokens_yields ts)). Qed.

(** * Top-level tokens of derived lists

    Groups are single tokens, so the tokens at the top level of a list derived by [L n]
    are unary operators, atoms, groups and binary operators of class [< n]. *)
Definition top_ok (n : nat) (x : token) : Prop :=
  match x with
  | TBin o => op_level o < n
  | THyb _ _ _ => False
  | _ => True
  end.

Lemma top_ok_mono : forall n m x, n <= m -> top_ok n x -> top_ok m x.
Proof. intros n m x Hnm H; destruct x; cbn [top_ok] in *; auto; lia. Qed.

Lemma U_top : forall ts t, U ts t -> List.Forall (top_ok 0) ts.
Proof. intros ts t H; induction H; repeat constructor; assumption. Qed.

Lemma L_top : forall n ts t, L n ts t -> List.Forall (top_ok n) ts.
Proof.
  intros n ts t H; induction H as [ts t HU|n o l r a b Ho _ IHl _ IHr|n ts t _ IH].
  - exact (U_top ts t HU).
  - apply Forall_app; split.
    + eapply Forall_impl; [|exact IHl]. intros x. apply top_ok_mono. lia.
    + constructor; [cbn [top_ok]; lia|exact IHr].
  - eapply Forall_impl; [|exact IH]. intros x. apply top_ok_mono. lia.
Qed.

Lemma L_no_split : forall n ts t,
  n <= 5 -> L n ts t -> List.Forall (fun y => splits n y = false) ts.
Proof.
  intros n ts t Hn H. eapply Forall_impl; [|exact (L_top n ts t H)].
  intros x Hx. rewrite splits_eq by exact Hn.
  destruct x as [u|o|h y d|a|g]; try reflexivity.
  apply Nat.eqb_neq. cbn [top_ok] in Hx. lia.
Qed.

Lemma top_ok_not_hybrid : forall n x, top_ok n x -> is_hybrid x = false.
Proof.
  intros n x H; destruct x as [u|o'|h y d|a|g]; try reflexivity.
  cbn [top_ok] in H. contradiction.
Qed.

(** * Completeness: every derived token list is accepted, with the fuel of [parse_tokens] *)

(** fuel [10 * size + (10 - level)] is enough at every level *)
Lemma complete_mut :
  (forall ts t, G ts t ->
     forall f, 10 * toks_size ts + 9 <= f -> parse_lvl f 1 ts = Ok t) /\
  (forall n ts t, L n ts t -> n <= 6 ->
     forall f, 10 * toks_size ts + 2 + n <= f -> parse_lvl f (8 - n) ts = Ok t) /\
  (forall ts t, U ts t ->
     forall f, 10 * toks_size ts + 2 <= f -> parse_lvl f 8 ts = Ok t).
Proof.
  apply GLU_mutind.
  (* [U] is stated at level 8, where a unary operator is read ([parse_lvl_yields] has that
     level in its [L 0] clause and states [U] at level 9): an atom needs two units of fuel,
     for the levels 8 and 9 *)
  7-9: (intros x f Hf; do 2 (destruct f as [|f]; [exfalso; lia|]); reflexivity).
  - intros o x d ts t _ IH f Hf.
    rewrite toks_size_cons in Hf. cbn [tok_size] in Hf.
    destruct f as [|f]; [exfalso; lia|].
    rewrite parse_eq_1. cbn [split_first is_hybrid].
    rewrite IH by lia. reflexivity.
  - intros ts t HL IH f Hf.
    destruct f as [|f]; [exfalso; lia|].
    rewrite parse_eq_1, (split_first_none_intro is_hybrid ts).
    + apply (IH (Nat.le_refl 6)). lia.
    + eapply Forall_impl; [exact (top_ok_not_hybrid 6)|exact (L_top 6 ts t HL)].
  - intros ts t _ IH _ f Hf. cbn [Nat.sub]. apply IH. lia.
  - intros n o l r a b Ho HLl IHl _ IHr Hn f Hf.
    rewrite toks_size_app, toks_size_cons in Hf. cbn [tok_size] in Hf.
    destruct f as [|f]; [exfalso; lia|].
    change (8 - S n) with (7 - n) in IHr |- *. rewrite parse_eq_splits by lia.
    rewrite (split_first_app (splits n) l (TBin o) r).
    + rewrite IHl, IHr by lia. reflexivity.
    + apply (L_no_split n l a); [lia|exact HLl].
    + rewrite splits_eq by lia. apply Nat.eqb_eq, Ho.
  - intros n ts t HL IH Hn f Hf.
    destruct f as [|f]; [exfalso; lia|].
    change (8 - S n) with (7 - n). rewrite parse_eq_splits by lia.
    rewrite (split_first_none_intro (splits n) ts).
    + apply IH; lia.
    + apply (L_no_split n ts t); [lia|exact HL].
  - intros o ts t _ IH f Hf.
    rewrite toks_size_cons in Hf. cbn [tok_size] in Hf.
    destruct f as [|f]; [exfalso; lia|].
    rewrite parse_eq_8. cbn [split_first is_unary].
    rewrite IH by lia. reflexivity.
  - intros ts t _ IH f Hf.
    rewrite toks_size_cons, tok_size_group, toks_size_nil in Hf.
    do 2 (destruct f as [|f]; [exfalso; lia|]).
    change (parse_lvl (S (S f)) 8 [TGroup ts]) with (parse_lvl f 1 ts).
    apply IH. lia.
Qed.

Theorem parse_complete : forall ts t, G ts t -> parse_tokens ts = Ok t.
Proof.
  intros ts t H. unfold parse_tokens, parse_fuel.
  apply (proj1 complete_mut ts t H). lia.
Qed.

(** * No token is dropped *)

Lemma strip_nil : strip [] = [].
Proof. reflexivity. Qed.

Lemma strip_cons : forall x l, strip (x :: l) = strip_tok x ++ strip l.
Proof. reflexivity. Qed.

Lemma strip_tok_group : forall ts, strip_tok (TGroup ts) = strip ts.
Proof. reflexivity. Qed.

Lemma strip_app : forall l r, strip (l ++ r) = strip l ++ strip r.
Proof.
  intros l r; induction l as [|x l IH].
  - reflexivity.
  - cbn [app]. rewrite !strip_cons, IH, app_assoc. reflexivity.
Qed.

Lemma leaves_mut :
  (forall ts t, G ts t -> leaves t = map norm_tok (strip ts)) /\
  (forall (n : nat) ts t, L n ts t -> leaves t = map norm_tok (strip ts)) /\
  (forall ts t, U ts t -> leaves t = map norm_tok (strip ts)).
Proof.
  apply GLU_mutind.
  - intros o x d ts t _ IH. rewrite strip_cons. cbn [strip_tok app map norm_tok leaves].
    rewrite IH. reflexivity.
  - intros ts t _ IH. exact IH.
  - intros ts t _ IH. exact IH.
  - intros n o l r a b _ _ IHl _ IHr.
    rewrite strip_app, strip_cons. cbn [strip_tok app leaves].
    rewrite map_app. cbn [map norm_tok]. rewrite IHl, IHr. reflexivity.
  - intros n ts t _ IH. exact IH.
  - intros o ts t _ IH. rewrite strip_cons. cbn [strip_tok app map norm_tok leaves].
    rewrite IH. reflexivity.
  - intros name. reflexivity.
  - intros x. reflexivity.
  - intros p. reflexivity.
  - intros ts t _ IH. rewrite strip_cons, strip_tok_group, strip_nil, app_nil_r. exact IH.
Qed.

(** the tree read in order is exactly the input without its parentheses, up to the
    spelling of the constants *)
Theorem leaves_strip : forall ts t, G ts t -> leaves t = map norm_tok (strip ts).
Proof. exact (proj1 leaves_mut). Qed.

Lemma is_atom_norm : forall x, is_atom_tok (norm_tok x) = is_atom_tok x.
Proof. intros x; destruct x as [u|o|h y d|[s|s| | |s]|g]; reflexivity. Qed.

Lemma norm_tok_non_atom : forall x, is_atom_tok x = false -> norm_tok x = x.
Proof. intros x H; destruct x as [u|o|h y d|a|g]; try reflexivity; discriminate H. Qed.

Lemma filter_ops_norm : forall l,
  filter (fun x => negb (is_atom_tok x)) (map norm_tok l) =
  filter (fun x => negb (is_atom_tok x)) l.
Proof.
  induction l as [|x l IH]; [reflexivity|].
  cbn [map filter]. rewrite is_atom_norm, IH.
  destruct (is_atom_tok x) eqn:E; cbn [negb]; [reflexivity|].
  rewrite (norm_tok_non_atom x E). reflexivity.
Qed.

Lemma filter_atoms_norm : forall l,
  filter is_atom_tok (map norm_tok l) = map norm_tok (filter is_atom_tok l).
Proof.
  induction l as [|x l IH]; [reflexivity|].
  cbn [map filter]. rewrite is_atom_norm.
  destruct (is_atom_tok x); cbn [map]; rewrite IH; reflexivity.
Qed.

(** sanity of the definitions: [strip] leaves no group, [leaves] produces none *)
Lemma strip_tok_no_group : forall x, List.Forall not_group (strip_tok x).
Proof.
  fix IH 1. intros x; destruct x as [u|o|h y d|a|g];
    try (constructor; [exact I|constructor]).
  rewrite strip_tok_group.
  induction g as [|x g IHg]; [constructor|].
  rewrite strip_cons. apply Forall_app; split; [apply IH|exact IHg].
Qed.

Lemma leaves_no_group : forall t, List.Forall not_group (leaves t).
Proof.
  induction t as [a|o c IH|o l IHl r IHr|o x d c IH]; cbn [leaves].
  - repeat constructor.
  - constructor; [exact I|exact IH].
  - apply Forall_app; split; [exact IHl|]. constructor; [exact I|exact IHr].
  - constructor; [exact I|exact IH].
Qed.
