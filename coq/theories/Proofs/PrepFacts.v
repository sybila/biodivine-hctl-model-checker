(** Facts about preprocessing ([prep] / [preprocess] of Model/Preprocess.v).  Under the
    invariant of its renaming map, [prep] is [sprep], the same traversal asking the scope
    instead of the map; everything is proved about [sprep]:
    - it accepts exactly the well-scoped formulae and never panics / runs out of fuel,
    - its result is [rename], which names every binder by its quantifier depth,
    - the result is alpha-equivalent to the input (equal de Bruijn normal forms),
    - the number of variables of the result is the maximal quantifier nesting depth,
    - preprocessing is idempotent. *)
From HCTL Require Import Base Syntax Preprocess.
From HCTL Require Import BaseFacts.

Lemma not_quantifier_jump (o : hybop) : is_quantifier o = false -> o = Jump.
Proof. destruct o; cbn [is_quantifier]; intro H; try discriminate H; reflexivity. Qed.

(** * Strings *)

(** the name used for the binder at quantifier depth [n - 1]: [n] characters 'x' *)
Definition xs (n : nat) : str := repeat_n n c_x.

Lemma xs_snoc (n : nat) : xs n ++ [c_x] = xs (S n).
Proof. apply repeat_n_snoc. Qed.

Lemma xs_length (n : nat) : length (xs n) = n.
Proof. apply repeat_n_length. Qed.

Lemma xs_inj (a b : nat) : xs a = xs b -> a = b.
Proof. intro E. rewrite <- (xs_length a), <- (xs_length b), E. reflexivity. Qed.

Lemma xs_eqb_neq (a b : nat) : a <> b -> str_eqb (xs a) (xs b) = false.
Proof. intro N. apply str_eqb_neq. intro E. apply N, xs_inj, E. Qed.

(** * Position of a name in a scope (innermost binder first) *)

Fixpoint index (x : str) (l : list str) : option nat :=
  match l with
  | [] => None
  | y :: l' => if str_eqb x y then Some 0 else option_map S (index x l')
  end.

Lemma index_some (x : str) (l : list str) :
  forall i, index x l = Some i -> i < length l /\ In x l.
Proof.
  induction l as [|y l IH]; intros i H; cbn [index] in H; [discriminate|].
  cbn [length In]. destruct (str_eqb x y) eqn:E; str_eq.
  - injection H as <-. split; [lia | left; congruence].
  - destruct (index x l) as [j|] eqn:I; cbn [option_map] in H; [|discriminate].
    injection H as <-. destruct (IH j eq_refl) as [LT IN]. split; [lia | right; exact IN].
Qed.

Lemma index_none (x : str) (l : list str) : index x l = None -> ~ In x l.
Proof.
  induction l as [|y l IH]; intros H IN; cbn [index] in H; cbn [In] in IN; [exact IN|].
  destruct (str_eqb x y) eqn:E; [discriminate|]. str_eq.
  destruct (index x l) as [j|] eqn:I; cbn [option_map] in H; [discriminate|].
  destruct IN as [EQ|IN]; [congruence | exact (IH eq_refl IN)].
Qed.

Lemma index_in (x : str) (l : list str) :
  In x l -> exists i, index x l = Some i /\ i < length l.
Proof.
  intro IN. destruct (index x l) as [i|] eqn:I.
  - exists i. split; [reflexivity | apply (index_some x l i I)].
  - exfalso. exact (index_none x l I IN).
Qed.

Lemma index_not_in (x : str) (l : list str) : ~ In x l -> index x l = None.
Proof.
  intro NIN. destruct (index x l) as [i|] eqn:I; [|reflexivity].
  exfalso. apply NIN. apply (index_some x l i I).
Qed.

Lemma index_nth (x : str) (l : list str) :
  forall i, index x l = Some i ->
    nth_error l i = Some x /\ forall j, j < i -> nth_error l j <> Some x.
Proof.
  induction l as [|y l IH]; intros i H; cbn [index] in H; [discriminate|].
  destruct (str_eqb x y) eqn:E; str_eq.
  - injection H as <-. subst y. split; [reflexivity | intros j LT; lia].
  - destruct (index x l) as [i'|] eqn:I; cbn [option_map] in H; [|discriminate].
    injection H as <-. destruct (IH i' eq_refl) as [NTH MIN]. split; [exact NTH|].
    intros [|j] LT; cbn [nth_error].
    + intro EQ. injection EQ as EQ. congruence.
    + apply MIN. lia.
Qed.

(** * The declarative scoping discipline *)

(** [scope] lists the variables bound by the enclosing quantifiers.  Every variable occurrence
    and every jump target is in scope, a quantifier (bind / exists / forall) binds a variable
    that is not yet in scope, every proposition is known. *)
Fixpoint well_scoped (props : list str) (scope : list str) (t : tree) : Prop :=
  match t with
  | Terminal (AVar x) => In x scope
  | Terminal (AProp p) => In p props
  | Terminal _ => True
  | Unary _ c => well_scoped props scope c
  | Binary _ l r => well_scoped props scope l /\ well_scoped props scope r
  | Hybrid o x _ c =>
      if is_quantifier o then ~ In x scope /\ well_scoped props (x :: scope) c
      else well_scoped props scope c /\ In x scope
  end.

(** * The renaming as a function of the scope only *)

(** a variable bound by the [i]-th enclosing quantifier counted from the inside, i.e. at
    quantifier depth [length scope - 1 - i], is named by [length scope - i] characters 'x' *)
Definition rename_var (scope : list str) (x : str) : str :=
  match index x scope with
  | Some i => xs (length scope - i)
  | None => x
  end.

Fixpoint rename (scope : list str) (t : tree) : tree :=
  match t with
  | Terminal (AVar x) => Terminal (AVar (rename_var scope x))
  | Terminal _ => t
  | Unary o c => Unary o (rename scope c)
  | Binary o l r => Binary o (rename scope l) (rename scope r)
  | Hybrid o x d c =>
      if is_quantifier o then Hybrid o (xs (S (length scope))) d (rename (x :: scope) c)
      else Hybrid o (rename_var scope x) d (rename scope c)
  end.

(** * The invariant of the renaming map *)

(** [ren] maps exactly the names in scope, each to the 'x'-string of its binder's depth *)
Definition ren_inv (scope : list str) (ren : list (str * str)) : Prop :=
  forall x, alookup str_eqb x ren
            = option_map (fun i => xs (length scope - i)) (index x scope).

Lemma ren_inv_nil : ren_inv [] [].
Proof. intro x. reflexivity. Qed.

Lemma ren_inv_push (scope : list str) (ren : list (str * str)) (x : str) :
  ren_inv scope ren ->
  ren_inv (x :: scope) (ainsert str_eqb x (xs (S (length scope))) ren).
Proof.
  intros INV y. cbn [index length]. destruct (str_eqb y x) eqn:E; str_eq.
  - subst y. rewrite (alookup_ainsert_same str_eqb str_eqb_eq). cbn [option_map].
    rewrite Nat.sub_0_r. reflexivity.
  - rewrite (alookup_ainsert_other str_eqb str_eqb_eq), INV by exact E.
    destruct (index y scope) as [i|]; reflexivity.
Qed.

(** * [prep] as a function of the scope *)

(** [prep] with every question to the map answered from the scope, as [ren_inv] allows;
    all that follows is about [sprep], the map appears in [prep_sprep] only *)
Definition slookup (scope : list str) (x : str) : res str :=
  match index x scope with
  | Some i => Ok (xs (length scope - i))
  | None => Err EFreeVar
  end.

Fixpoint sprep (props : list str) (scope : list str) (t : tree) : res tree :=
  match t with
  | Terminal (AVar x) => let* n := slookup scope x in Ok (Terminal (AVar n))
  | Terminal (AProp p) => if existsb (str_eqb p) props then Ok t else Err EUnknownProp
  | Terminal _ => Ok t
  | Unary o c => let* c' := sprep props scope c in Ok (Unary o c')
  | Binary o l r =>
      let* l' := sprep props scope l in
      let* r' := sprep props scope r in
      Ok (Binary o l' r')
  | Hybrid o x d c =>
      if is_quantifier o then
        match index x scope with
        | Some _ => Err ERequantified
        | None =>
            let* c' := sprep props (x :: scope) c in
            Ok (Hybrid o (xs (S (length scope))) d c')
        end
      else
        let* c' := sprep props scope c in
        let* n := slookup scope x in
        Ok (Hybrid o n d c')
  end.

Lemma prep_sprep (props : list str) (t : tree) :
  forall scope ren,
    ren_inv scope ren -> prep props ren (xs (length scope)) t = sprep props scope t.
Proof.
  induction t as [a | o c IH | o l IHl r IHr | o x d c IH]; intros scope ren INV;
    cbn [prep sprep].
  - destruct a as [p | x | | | w]; try reflexivity.
    unfold slookup. rewrite INV. destruct (index x scope); reflexivity.
  - rewrite (IH scope ren INV). reflexivity.
  - rewrite (IHl scope ren INV), (IHr scope ren INV). reflexivity.
  - destruct (is_quantifier o).
    + unfold amem. rewrite INV, xs_snoc. destruct (index x scope); [reflexivity|].
      rewrite <- (IH (x :: scope) _ (ren_inv_push scope ren x INV)). reflexivity.
    + rewrite (IH scope ren INV). unfold slookup. rewrite INV.
      destruct (index x scope); reflexivity.
Qed.

Lemma preprocess_sprep (props : list str) (t : tree) : preprocess props t = sprep props [] t.
Proof. exact (prep_sprep props t [] [] ren_inv_nil). Qed.

Lemma slookup_spec (scope : list str) (x : str) :
  (In x scope /\ slookup scope x = Ok (rename_var scope x))
  \/ (~ In x scope /\ slookup scope x = Err EFreeVar).
Proof.
  unfold slookup, rename_var. destruct (index x scope) as [i|] eqn:I; [left | right].
  - split; [apply (index_some x scope i I) | reflexivity].
  - split; [apply index_none, I | reflexivity].
Qed.

(** [r] is [Ok v] if [P] holds, an error if not *)
Inductive accepts {A} (P : Prop) (v : A) : res A -> Prop :=
| accepts_ok : P -> accepts P v (Ok v)
| accepts_err : forall e, ~ P -> accepts P v (Err e).

(** [sprep] decides [well_scoped]; what it answers to a well-scoped tree is [rename] *)
Lemma sprep_spec (props : list str) (t : tree) :
  forall scope, accepts (well_scoped props scope t) (rename scope t) (sprep props scope t).
Proof.
  induction t as [a | o c IH | o l IHl r IHr | o x d c IH]; intro scope;
    cbn [well_scoped sprep rename].
  - destruct a as [p | x | | | w]; try (constructor; exact I).
    + destruct (existsb (str_eqb p) props) eqn:E; constructor; rewrite <- existsb_str_in, E;
        [reflexivity | discriminate].
    + destruct (slookup_spec scope x) as [[IN ->] | [NIN ->]]; constructor; assumption.
  - destruct (IH scope) as [WS | e N]; constructor; assumption.
  - destruct (IHl scope) as [WSl | e N]; [|constructor; tauto].
    destruct (IHr scope) as [WSr | e N]; constructor; tauto.
  - destruct (is_quantifier o).
    + destruct (index x scope) as [i|] eqn:I.
      { constructor. intros [NIN _]. apply NIN, (index_some x scope i I). }
      apply index_none in I. destruct (IH (x :: scope)) as [WS | e N]; constructor; tauto.
    + destruct (IH scope) as [WS | e N]; [|constructor; tauto].
      destruct (slookup_spec scope x) as [[IN ->] | [NIN ->]]; constructor; tauto.
Qed.

Lemma prep_ok_iff (props : list str) (t t' : tree) (scope : list str) (ren : list (str * str)) :
  ren_inv scope ren ->
  (prep props ren (xs (length scope)) t = Ok t'
   <-> well_scoped props scope t /\ t' = rename scope t).
Proof.
  intro INV. rewrite (prep_sprep props t scope ren INV).
  destruct (sprep_spec props t scope) as [WS | e N].
  - split; [intro H; injection H as <-; split; [exact WS | reflexivity]|].
    intros [_ ->]. reflexivity.
  - split; [discriminate | intros [WS _]; contradiction].
Qed.

(** * Top level: acceptance *)

Theorem preprocess_ok_iff (props : list str) (t t' : tree) :
  preprocess props t = Ok t' <-> well_scoped props [] t /\ t' = rename [] t.
Proof. unfold preprocess. apply (prep_ok_iff props t t' [] [] ren_inv_nil). Qed.

Theorem preprocess_accepts_iff_well_scoped (props : list str) (t : tree) :
  (exists t', preprocess props t = Ok t') <-> well_scoped props [] t.
Proof.
  split.
  - intros [t' H]. apply preprocess_ok_iff in H. apply H.
  - intro WS. exists (rename [] t). apply preprocess_ok_iff. split; [exact WS | reflexivity].
Qed.

Theorem preprocess_ok_or_err (props : list str) (t : tree) :
  (exists t', preprocess props t = Ok t') \/ (exists e, preprocess props t = Err e).
Proof.
  rewrite preprocess_sprep.
  destruct (sprep_spec props t []) as [_ | e _]; [left | right]; eexists; reflexivity.
Qed.

Theorem preprocess_no_panic (props : list str) (t : tree) :
  (forall p, preprocess props t <> Panic p) /\ preprocess props t <> OutOfFuel.
Proof.
  destruct (preprocess_ok_or_err props t) as [[t' ->] | [e ->]]; split; try intro p; discriminate.
Qed.

Theorem preprocess_rejects_ill_scoped (props : list str) (t : tree) :
  ~ well_scoped props [] t -> exists e, preprocess props t = Err e.
Proof.
  intro NWS. destruct (preprocess_ok_or_err props t) as [OK | ER]; [|exact ER].
  exfalso. apply NWS, preprocess_accepts_iff_well_scoped, OK.
Qed.

(** * De Bruijn normal forms *)

Inductive dvar :=
| DBound (i : nat)     (** bound by the [i]-th enclosing quantifier, counted from the inside *)
| DFree (x : str).

Inductive dtree :=
| DVar (v : dvar)
| DProp (p : str)
| DTrue
| DFalse
| DWild (w : str)
| DUnary (o : unop) (c : dtree)
| DBinary (o : binop) (l r : dtree)
| DQuant (o : hybop) (d : option str) (c : dtree)
| DJump (v : dvar) (d : option str) (c : dtree).

Definition dref (env : list str) (x : str) : dvar :=
  match index x env with
  | Some i => DBound i
  | None => DFree x
  end.

(** [env] lists the names of the enclosing quantifiers, innermost first *)
Fixpoint db (env : list str) (t : tree) : dtree :=
  match t with
  | Terminal (AVar x) => DVar (dref env x)
  | Terminal (AProp p) => DProp p
  | Terminal ATrue => DTrue
  | Terminal AFalse => DFalse
  | Terminal (AWild w) => DWild w
  | Unary o c => DUnary o (db env c)
  | Binary o l r => DBinary o (db env l) (db env r)
  | Hybrid o x d c =>
      if is_quantifier o then DQuant o d (db (x :: env) c)
      else DJump (dref env x) d (db env c)
  end.

(** the names given to [j] nested quantifiers found below [d] others, innermost first:
    [xs (j + d); ...; xs (d + 1)]; the scope after renaming is [bscope 0 n] *)
Fixpoint bscope (d j : nat) : list str :=
  match j with
  | O => []
  | S j' => xs (S (j' + d)) :: bscope d j'
  end.

Lemma bscope_length (d j : nat) : length (bscope d j) = j.
Proof. induction j as [|j IH]; cbn [bscope length]; [reflexivity | rewrite IH; reflexivity]. Qed.

Lemma bscope_0_S (n : nat) : bscope 0 (S n) = xs (S n) :: bscope 0 n.
Proof. cbn [bscope]. rewrite Nat.add_0_r. reflexivity. Qed.

Lemma index_bscope_bound (d j m : nat) :
  d <= m < j + d -> index (xs (S m)) (bscope d j) = Some (j + d - S m).
Proof.
  induction j as [|j IH]; intro R; [lia|]. cbn [bscope index].
  destruct (Nat.eq_dec m (j + d)) as [->|NE].
  - rewrite str_eqb_refl. f_equal. lia.
  - rewrite xs_eqb_neq by lia. rewrite IH by lia. cbn [option_map]. f_equal. lia.
Qed.

Lemma index_bscope_out (d j m : nat) :
  m < d \/ j + d <= m -> index (xs (S m)) (bscope d j) = None.
Proof.
  intro R. induction j as [|j IH]; [reflexivity|]. cbn [bscope index].
  rewrite xs_eqb_neq by lia. rewrite IH by lia. reflexivity.
Qed.

(** a name in scope is renamed to the name at the same position of the renamed scope *)
Lemma index_rename_var (scope : list str) (x : str) (i : nat) :
  index x scope = Some i -> index (rename_var scope x) (bscope 0 (length scope)) = Some i.
Proof.
  intro I. unfold rename_var. rewrite I. destruct (index_some x scope i I) as [LT _].
  replace (length scope - i) with (S (length scope - S i)) by lia.
  rewrite index_bscope_bound by lia. f_equal. lia.
Qed.

Lemma dref_rename_var (scope : list str) (x : str) :
  In x scope -> dref (bscope 0 (length scope)) (rename_var scope x) = dref scope x.
Proof.
  intro IN. destruct (index_in x scope IN) as [i [I _]].
  unfold dref. rewrite (index_rename_var scope x i I), I. reflexivity.
Qed.

Lemma db_rename (props : list str) (t : tree) :
  forall scope, well_scoped props scope t ->
    db (bscope 0 (length scope)) (rename scope t) = db scope t.
Proof.
  induction t as [a | o c IH | o l IHl r IHr | o x d c IH]; intros scope WS;
    cbn [well_scoped] in WS; cbn [rename].
  - destruct a as [p | x | | | w]; try reflexivity.
    cbn [db]. rewrite (dref_rename_var scope x WS). reflexivity.
  - cbn [db]. rewrite (IH scope WS). reflexivity.
  - destruct WS as [WSl WSr]. cbn [db]. rewrite (IHl scope WSl), (IHr scope WSr). reflexivity.
  - destruct (is_quantifier o) eqn:Q; cbn [db]; rewrite Q.
    + destruct WS as [_ WS]. f_equal. rewrite <- bscope_0_S. apply (IH (x :: scope) WS).
    + destruct WS as [WS IN]. rewrite (dref_rename_var scope x IN), (IH scope WS). reflexivity.
Qed.

Theorem preprocess_alpha (props : list str) (t t' : tree) :
  preprocess props t = Ok t' -> db [] t' = db [] t.
Proof.
  intro H. apply preprocess_ok_iff in H. destruct H as [WS ->].
  apply (db_rename props t [] WS).
Qed.

(** * Names by depth *)

(** [d] is the number of enclosing quantifiers: the quantifier met there is named by [d + 1]
    characters 'x'; a variable occurrence or a jump names one of the [d] enclosing binders *)
Fixpoint depth_named (d : nat) (t : tree) : Prop :=
  match t with
  | Terminal (AVar x) => exists k, k < d /\ x = xs (S k)
  | Terminal _ => True
  | Unary _ c => depth_named d c
  | Binary _ l r => depth_named d l /\ depth_named d r
  | Hybrid o x _ c =>
      if is_quantifier o then x = xs (S d) /\ depth_named (S d) c
      else (exists k, k < d /\ x = xs (S k)) /\ depth_named d c
  end.

(** the quantifier depth (from the outside) of the binder of [x], for [scope] innermost first *)
Definition binder_depth (scope : list str) (x : str) : option nat :=
  option_map (fun i => length scope - S i) (index x scope).

Lemma rename_var_binder_depth (scope : list str) (x : str) :
  In x scope ->
  exists k, binder_depth scope x = Some k /\ k < length scope /\ rename_var scope x = xs (S k).
Proof.
  intro IN. destruct (index_in x scope IN) as [i [I LT]].
  exists (length scope - S i). unfold binder_depth, rename_var. rewrite I. cbn [option_map].
  split; [reflexivity|]. split; [lia|]. f_equal. lia.
Qed.

(** [binder_depth scope x = Some k] says that, counting the enclosing quantifiers from the
    outside, the [k]-th one binds [x] and no quantifier further inside does *)
Lemma binder_depth_spec (scope : list str) (x : str) (k : nat) :
  binder_depth scope x = Some k ->
  nth_error (rev scope) k = Some x
  /\ forall k', k < k' -> nth_error (rev scope) k' <> Some x.
Proof.
  unfold binder_depth. intro H.
  destruct (index x scope) as [i|] eqn:I; cbn [option_map] in H; [|discriminate].
  injection H as <-. destruct (index_some x scope i I) as [LT _].
  destruct (index_nth x scope i I) as [NTH MIN]. split.
  - rewrite nth_error_rev by lia. rewrite <- NTH. f_equal. lia.
  - intros k' LT'. destruct (Nat.lt_ge_cases k' (length scope)) as [IN|OUT].
    + rewrite nth_error_rev by lia. apply MIN. lia.
    + assert (nth_error (rev scope) k' = None) as ->; [|discriminate].
      apply nth_error_None. rewrite rev_length. exact OUT.
Qed.

Lemma rename_depth_named (props : list str) (t : tree) :
  forall scope, well_scoped props scope t -> depth_named (length scope) (rename scope t).
Proof.
  induction t as [a | o c IH | o l IHl r IHr | o x d c IH]; intros scope WS;
    cbn [well_scoped] in WS; cbn [rename].
  - destruct a as [p | x | | | w]; cbn [depth_named]; try exact I.
    destruct (rename_var_binder_depth scope x WS) as [k [_ [LT E]]]. exists k. split; assumption.
  - cbn [depth_named]. apply IH, WS.
  - destruct WS as [WSl WSr]. cbn [depth_named]. split; [apply IHl, WSl | apply IHr, WSr].
  - destruct (is_quantifier o) eqn:Q; cbn [depth_named]; rewrite Q.
    + destruct WS as [_ WS]. split; [reflexivity | apply (IH (x :: scope) WS)].
    + destruct WS as [WS IN]. split; [|apply IH, WS].
      destruct (rename_var_binder_depth scope x IN) as [k [_ [LT E]]]. exists k. split; assumption.
Qed.

(** ** the number of variables is the quantifier nesting depth *)

Fixpoint qdepth (t : tree) : nat :=
  match t with
  | Terminal _ => 0
  | Unary _ c => qdepth c
  | Binary _ l r => Nat.max (qdepth l) (qdepth r)
  | Hybrid o _ _ c => if is_quantifier o then S (qdepth c) else qdepth c
  end.

(** [xs 1; xs 2; ...; xs m] *)
Fixpoint xlist (m : nat) : list str :=
  match m with
  | O => []
  | S m' => xlist m' ++ [xs (S m')]
  end.

Lemma xlist_length (m : nat) : length (xlist m) = m.
Proof.
  induction m as [|m IH]; cbn [xlist]; [reflexivity|].
  rewrite app_length, IH. cbn [length]. lia.
Qed.

Lemma xlist_existsb (k m : nat) :
  existsb (str_eqb (xs (S k))) (xlist m) = if Nat.ltb k m then true else false.
Proof.
  induction m as [|m IH]; cbn [xlist]; [reflexivity|].
  rewrite existsb_app, IH. cbn [existsb]. rewrite orb_false_r.
  destruct (Nat.ltb_spec k m) as [LT|GE].
  - destruct (Nat.ltb_spec k (S m)); [reflexivity | lia].
  - destruct (Nat.ltb_spec k (S m)) as [LT'|GE'].
    + assert (k = m) as -> by lia. rewrite str_eqb_refl. reflexivity.
    + rewrite xs_eqb_neq by lia. reflexivity.
Qed.

Lemma add_unique_xlist (d m : nat) :
  d <= m -> add_unique (xs (S d)) (xlist m) = xlist (Nat.max m (S d)).
Proof.
  intro LE. unfold add_unique. rewrite xlist_existsb.
  destruct (Nat.ltb_spec d m) as [LT|GE].
  - replace (Nat.max m (S d)) with m by lia. reflexivity.
  - assert (d = m) as -> by lia. replace (Nat.max m (S m)) with (S m) by lia. reflexivity.
Qed.

Lemma collect_vars_rename (t : tree) :
  forall scope m, length scope <= m ->
    collect_vars (rename scope t) (xlist m) = xlist (Nat.max m (length scope + qdepth t)).
Proof.
  induction t as [a | o c IH | o l IHl r IHr | o x d c IH]; intros scope m LE;
    cbn [rename qdepth].
  - replace (Nat.max m (length scope + 0)) with m by lia.
    destruct a; reflexivity.
  - cbn [collect_vars]. apply IH, LE.
  - cbn [collect_vars]. rewrite (IHl scope m LE). rewrite IHr by lia. f_equal. lia.
  - destruct (is_quantifier o) eqn:Q; cbn [collect_vars]; rewrite Q.
    + rewrite add_unique_xlist by exact LE.
      rewrite IH by (cbn [length]; lia). f_equal. cbn [length]. lia.
    + apply IH, LE.
Qed.

Theorem num_hctl_vars_rename (t : tree) : num_hctl_vars (rename [] t) = qdepth t.
Proof.
  unfold num_hctl_vars. change (@nil str) with (xlist 0) at 2.
  rewrite (collect_vars_rename t [] 0) by (cbn [length]; lia).
  rewrite xlist_length. cbn [length]. lia.
Qed.

Theorem preprocess_names_by_depth (props : list str) (t t' : tree) :
  preprocess props t = Ok t' ->
  t' = rename [] t /\ depth_named 0 t' /\ num_hctl_vars t' = qdepth t.
Proof.
  intro H. apply preprocess_ok_iff in H. destruct H as [WS ->].
  split; [reflexivity|]. split.
  - apply (rename_depth_named props t [] WS).
  - apply num_hctl_vars_rename.
Qed.

(** * Idempotence *)

Lemma slookup_rename_var (scope : list str) (x : str) :
  In x scope ->
  slookup (bscope 0 (length scope)) (rename_var scope x) = Ok (rename_var scope x).
Proof.
  intro IN. destruct (index_in x scope IN) as [i [I _]].
  unfold slookup. rewrite (index_rename_var scope x i I), bscope_length.
  unfold rename_var. rewrite I. reflexivity.
Qed.

(** the renamed tree is accepted in the renamed scope, unchanged *)
Lemma sprep_rename (props : list str) (t : tree) :
  forall scope, well_scoped props scope t ->
    sprep props (bscope 0 (length scope)) (rename scope t) = Ok (rename scope t).
Proof.
  induction t as [a | o c IH | o l IHl r IHr | o x d c IH]; intros scope WS;
    cbn [well_scoped] in WS; cbn [rename].
  - destruct a as [p | x | | | w]; cbn [sprep]; try reflexivity.
    + apply existsb_str_in in WS. rewrite WS. reflexivity.
    + rewrite (slookup_rename_var scope x WS). reflexivity.
  - cbn [sprep]. rewrite (IH scope WS). reflexivity.
  - destruct WS as [WSl WSr]. cbn [sprep]. rewrite (IHl scope WSl), (IHr scope WSr). reflexivity.
  - destruct (is_quantifier o) eqn:Q; cbn [sprep]; rewrite Q.
    + destruct WS as [_ WS]. specialize (IH (x :: scope) WS). cbn [length] in IH.
      rewrite bscope_0_S in IH. rewrite index_bscope_out, bscope_length, IH by lia. reflexivity.
    + destruct WS as [WS IN]. rewrite (IH scope WS), (slookup_rename_var scope x IN). reflexivity.
Qed.

Theorem preprocess_idempotent (props : list str) (t t' : tree) :
  preprocess props t = Ok t' -> preprocess props t' = Ok t'.
Proof.
  intro H. apply preprocess_ok_iff in H. destruct H as [WS ->].
  rewrite preprocess_sprep. exact (sprep_rename props t [] WS).
Qed.
