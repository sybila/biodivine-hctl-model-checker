(** Syntactic facts behind the sub-formula cache (property C04):
    - the keys of the renaming map are the names of the tree ([canon_map_keys]),
    - two sub-formulae of preprocessed formulae ([depth_named]) with the same canonical tree
      have renaming maps of the same shape ([ctree_agree]): the bound names correspond by
      relative quantifier depth, the free names by their canonical names,
    - hence "the renaming map has at most one entry" is a property of the canonical text
      ([single_transfer]) -- the test [renaming.len() <= 1] of mark_duplicates.rs does not
      depend on which occurrence is looked at,
    - two such sub-formulae with an at most one-entry map are the same skeleton with one name
      replaced ([hit_shape]). *)
From HCTL Require Import Base Syntax Preprocess Canon.
From HCTL Require Import PrepFacts RoundTrip CanonFacts CanonAlpha.
From HCTL Require Import BaseFacts.

(** * The keys of the final map are the names of the tree *)

Lemma canon_map_keys t y : alookup str_eqb y (canon_map t) <> None <-> occurs y t.
Proof.
  unfold canon_map. rewrite ctree_keys. cbn [snd alookup].
  split; [intros [H | H]; [destruct (H eq_refl) | exact H] | right; assumption].
Qed.

Lemma occurs_single x v t y : canon_map t = [(x, v)] -> (occurs y t <-> y = x).
Proof.
  intro E. rewrite <- canon_map_keys, E. cbn [alookup].
  destruct (str_eqb y x) eqn:Q; str_eq; split; try congruence; discriminate.
Qed.

Lemma no_names_keys t : canon_map t = [] -> forall y, ~ occurs y t.
Proof. intros E y H. apply canon_map_keys in H. rewrite E in H. apply H. reflexivity. Qed.

(** names of a sub-formula of a preprocessed formula *)
Lemma occurs_depth_named t : forall d y, depth_named d t -> occurs y t -> exists k, y = xs (S k).
Proof.
  induction t as [a | o c IH | o l IHl r IHr | o x dm c IH]; intros d y DN OC;
    cbn [depth_named occurs] in *.
  - destruct a as [p | x | | | w]; try contradiction.
    destruct DN as (k & _ & ->). exists k. exact OC.
  - eapply IH; eassumption.
  - destruct DN as [DNl DNr]. destruct OC as [OC | OC]; [eapply IHl | eapply IHr]; eassumption.
  - destruct (is_quantifier o).
    + destruct DN as [-> DN].
      destruct OC as [-> | OC]; [exists d; reflexivity | eapply IH; eassumption].
    + destruct DN as [(k & _ & ->) DN].
      destruct OC as [-> | OC]; [exists k; reflexivity | eapply IH; eassumption].
Qed.

(** [ctree] changes variable names only *)
Lemma vmap_const_ctree z t s : vmap (fun _ => z) (fst (ctree t s)) = vmap (fun _ => z) t.
Proof.
  apply (ctree_graph (fun t _ t' _ => vmap (fun _ => z) t' = vmap (fun _ => z) t));
    intros; cbn [vmap]; congruence.
Qed.

(** * Two trees with the same canonical tree: the maps correspond *)

(** the maps of two runs whose canonical trees are equal so far.  The trees are found below
    [d] and [d1] quantifiers, [j] more have been entered in both.  A name bound at relative
    depth [i] has the same entry in both maps; the names that are free in the two trees
    ([xs (S k)], [k < d] resp. [k < d1]) have the same set of canonical names; the binders
    entered so far have an entry (so a name without one is free) *)
Definition maps_agree (d d1 j : nat) (ren ren1 : list (str * str)) : Prop :=
  (forall i, alookup str_eqb (xs (S (i + d))) ren = alookup str_eqb (xs (S (i + d1))) ren1)
  /\ (forall cn, (exists k, k < d /\ alookup str_eqb (xs (S k)) ren = Some cn)
                 <-> (exists k, k < d1 /\ alookup str_eqb (xs (S k)) ren1 = Some cn))
  /\ (forall i, i < j -> alookup str_eqb (xs (S (i + d))) ren <> None).

Lemma maps_agree_init d d1 : maps_agree d d1 0 [] [].
Proof.
  split; [reflexivity|]. split; [|intros i LT; lia].
  intro cn. split; intros (k & _ & H); discriminate H.
Qed.

Lemma maps_agree_weaken d d1 j j' ren ren1 :
  j' <= j -> maps_agree d d1 j ren ren1 -> maps_agree d d1 j' ren ren1.
Proof. intros LE (A & B & D). split; [exact A|]. split; [exact B|]. intros i LT. apply D. lia. Qed.

Lemma maps_agree_sym d d1 j ren ren1 : maps_agree d d1 j ren ren1 -> maps_agree d1 d j ren1 ren.
Proof.
  intros (A & B & D). split; [intro i; symmetry; apply A|].
  split; [intro cn; symmetry; apply B|]. intros i LT. rewrite <- A. apply D, LT.
Qed.

(** a binder entered has an entry: a name without one is free *)
Lemma no_entry_free d d1 j ren ren1 k :
  maps_agree d d1 j ren ren1 -> k < j + d -> alookup str_eqb (xs (S k)) ren = None -> k < d.
Proof.
  intros (_ & _ & D) LT L. destruct (Nat.lt_ge_cases k d) as [H|H]; [exact H|]. exfalso.
  apply (D (k - d)); [lia|]. replace (k - d + d) with k by lia. exact L.
Qed.

(** the free names ([m < d]) with a given canonical name, when an entry is added at a bound
    name, or at a free name that had none *)
Lemma free_ainsert_bound d k (v : str) ren cn :
  d <= k ->
  (exists m, m < d /\ alookup str_eqb (xs (S m)) (ainsert str_eqb (xs (S k)) v ren) = Some cn)
  <-> (exists m, m < d /\ alookup str_eqb (xs (S m)) ren = Some cn).
Proof.
  intro LE. split; intros (m & LT & H); exists m; (split; [exact LT|]);
    rewrite alookup_ainsert, xs_eqb_neq in * by lia; exact H.
Qed.

Lemma free_ainsert_free d k (v : str) ren cn :
  k < d -> alookup str_eqb (xs (S k)) ren = None ->
  (exists m, m < d /\ alookup str_eqb (xs (S m)) (ainsert str_eqb (xs (S k)) v ren) = Some cn)
  <-> cn = v \/ (exists m, m < d /\ alookup str_eqb (xs (S m)) ren = Some cn).
Proof.
  intros F L. split.
  - intros (m & LT & H). rewrite alookup_ainsert in H. destruct (Nat.eq_dec m k) as [->|NE].
    + rewrite str_eqb_refl in H. injection H as <-. left. reflexivity.
    + rewrite xs_eqb_neq in H by lia. right. exists m. split; assumption.
  - intros [-> | (m & LT & H)].
    + exists k. rewrite alookup_ainsert, str_eqb_refl. split; [exact F | reflexivity].
    + exists m. split; [exact LT|]. rewrite alookup_ainsert.
      destruct (Nat.eq_dec m k) as [->|NE]; [congruence|]. rewrite xs_eqb_neq by lia. exact H.
Qed.

Lemma cbind_agree d d1 j cn0 ren ren1 :
  maps_agree d d1 j ren ren1 ->
  maps_agree d d1 (S j) (ainsert str_eqb (xs (S (j + d))) cn0 ren)
      (ainsert str_eqb (xs (S (j + d1))) cn0 ren1).
Proof.
  intros (A & B & D). split; [|split].
  - intro i. rewrite !alookup_ainsert. destruct (Nat.eq_dec i j) as [->|NE].
    + rewrite !str_eqb_refl. reflexivity.
    + rewrite !xs_eqb_neq by lia. apply A.
  - intro cn. rewrite !free_ainsert_bound by lia. apply B.
  - intros i LT. rewrite alookup_ainsert. destruct (Nat.eq_dec i j) as [->|NE].
    + rewrite str_eqb_refl. discriminate.
    + rewrite xs_eqb_neq by lia. apply D. lia.
Qed.

Lemma cocc_agree d d1 j s s1 k k1 :
  k < j + d -> k1 < j + d1 -> map_inv s -> map_inv s1 -> fst s = fst s1 ->
  maps_agree d d1 j (snd s) (snd s1) ->
  fst (cocc (xs (S k)) s) = fst (cocc (xs (S k1)) s1) ->
  fst (snd (cocc (xs (S k)) s)) = fst (snd (cocc (xs (S k1)) s1))
  /\ maps_agree d d1 j (snd (snd (cocc (xs (S k)) s))) (snd (snd (cocc (xs (S k1)) s1))).
Proof.
  destruct s as [cnt ren], s1 as [cnt1 ren1]. cbn [fst snd].
  intros LT LT1 M M1 <- INV E. pose proof INV as (A & B & D).
  unfold cocc in *. cbn [snd] in *.
  destruct (alookup str_eqb (xs (S k)) ren) as [cn|] eqn:L;
    destruct (alookup str_eqb (xs (S k1)) ren1) as [cn1|] eqn:L1; cbn [cbind fst snd] in *.
  - split; [reflexivity | exact INV].
  - destruct (map_inv_old _ _ _ M L E).
  - destruct (map_inv_old _ _ _ M1 L1 (eq_sym E)).
  - (* both names are new, so both are free *)
    pose proof (no_entry_free _ _ _ _ _ _ INV LT L) as F.
    pose proof (no_entry_free _ _ _ _ _ _ (maps_agree_sym _ _ _ _ _ INV) LT1 L1) as F1.
    split; [reflexivity|]. split; [|split].
    + intro i. rewrite !alookup_ainsert. rewrite !xs_eqb_neq by lia. apply A.
    + intro cn. rewrite !free_ainsert_free, B by assumption. reflexivity.
    + intros i LTi. rewrite alookup_ainsert, xs_eqb_neq by lia. apply D, LTi.
Qed.

Lemma ctree_agree d d1 t : forall t1 j s s1,
  depth_named (j + d) t -> depth_named (j + d1) t1 ->
  map_inv s -> map_inv s1 -> fst s = fst s1 -> maps_agree d d1 j (snd s) (snd s1) ->
  fst (ctree t s) = fst (ctree t1 s1) ->
  fst (snd (ctree t s)) = fst (snd (ctree t1 s1))
  /\ maps_agree d d1 j (snd (snd (ctree t s))) (snd (snd (ctree t1 s1))).
Proof.
  (* equal canonical trees have the same shape: the cases are those of two equal constructors *)
  intros t1 j s s1 DN DN1 M M1 EQ INV E.
  assert (vmap (fun _ => []) t = vmap (fun _ => []) t1) as SH
    by (rewrite <- (vmap_const_ctree [] t s), E; apply vmap_const_ctree).
  revert t1 j s s1 DN DN1 M M1 EQ INV E SH.
  induction t as [a | o c IH | o l IHl r IHr | o x dm c IH];
    intros [a1 | o1 c1 | o1 l1 r1 | o1 x1 dm1 c1] j s s1 DN DN1 M M1 EQ INV E SH;
    try (destruct a); try (destruct a1); try discriminate SH;
    cbn [depth_named] in DN, DN1; try (split; assumption).
  - destruct DN as (k & LT & ->). destruct DN1 as (k1 & LT1 & ->).
    rewrite !ctree_var in *. cbn [fst snd cstep] in *. injection E as E.
    apply cocc_agree; assumption.
  - rewrite !ctree_unary in *. cbn [fst snd] in *. injection E as _ E. injection SH as _ SH.
    apply IH; assumption.
  - destruct DN as [DNl DNr]. destruct DN1 as [DNl1 DNr1].
    rewrite !ctree_binary in *. cbn [fst snd] in *. injection E as _ El Er. injection SH as _ Sl Sr.
    destruct (IHl l1 j s s1 DNl DNl1 M M1 EQ INV El Sl) as [EC INVl].
    apply IHr; auto using map_inv_ctree.
  - rewrite !ctree_hybrid in *. cbn [fst snd] in *. injection E as <- Ex _ Ec. injection SH as _ SH.
    pose proof (map_inv_cstep (is_quantifier o) x _ M) as M'.
    pose proof (map_inv_cstep (is_quantifier o) x1 _ M1) as M1'.
    destruct (is_quantifier o) eqn:Q; cbn [cstep] in *.
    + destruct DN as [-> DN]. destruct DN1 as [-> DN1]. unfold cbind in *. cbn [fst snd] in *.
      rewrite <- EQ in *.
      destruct (IH c1 (S j) _ _ DN DN1 M' M1' eq_refl (cbind_agree d d1 j _ _ _ INV) Ec SH)
        as [EC INV'].
      split; [exact EC | eapply maps_agree_weaken; [|exact INV']; lia].
    + destruct DN as [(k & LT & ->) DN]. destruct DN1 as [(k1 & LT1 & ->) DN1].
      destruct (cocc_agree d d1 j s s1 k k1 LT LT1 M M1 EQ INV Ex) as [EC INV'].
      apply IH; assumption.
Qed.

(** * Consequences *)

Lemma maps_agree_final d d1 t t1 :
  depth_named d t -> depth_named d1 t1 -> canon_tree t = canon_tree t1 ->
  maps_agree d d1 0 (canon_map t) (canon_map t1).
Proof.
  intros DN DN1 E.
  apply (ctree_agree d d1 t t1 0 (0%N, []) (0%N, [])); auto using map_inv_init, maps_agree_init.
Qed.

Lemma alookup_single (q a b cn : str) :
  alookup str_eqb q [(a, b)] = Some cn -> q = a /\ cn = b.
Proof.
  cbn [alookup]. destruct (str_eqb q a) eqn:E; [|discriminate]. str_eq.
  intro H. injection H as <-. split; [exact E | reflexivity].
Qed.

(** an entry of one map has its canonical name in the other map as well *)
Lemma key_image d d1 ren ren1 k cn :
  maps_agree d d1 0 ren ren1 -> alookup str_eqb (xs (S k)) ren = Some cn ->
  exists k1, alookup str_eqb (xs (S k1)) ren1 = Some cn.
Proof.
  intros (A & B & _) L. destruct (Nat.lt_ge_cases k d) as [F|Bd].
  - destruct (proj1 (B cn) (ex_intro _ k (conj F L))) as (k1 & _ & H). exists k1. exact H.
  - exists (k - d + d1). rewrite <- A. replace (k - d + d) with k by lia. exact L.
Qed.

(** the names of [t] are pairwise equal when the map of [t1] has at most one entry: they all
    have the canonical name of that entry *)
Lemma single_names d d1 t t1 :
  depth_named d t -> depth_named d1 t1 -> canon_tree t = canon_tree t1 ->
  length (canon_map t1) <= 1 ->
  forall y z, occurs y t -> occurs z t -> y = z.
Proof.
  intros DN DN1 E LEN y z OY OZ.
  pose proof (maps_agree_final d d1 t t1 DN DN1 E) as INV.
  destruct (occurs_depth_named t d y DN OY) as [k ->].
  destruct (occurs_depth_named t d z DN OZ) as [k' ->].
  destruct (proj1 (canon_map_spec t) _ OY) as [i Ly].
  destruct (proj1 (canon_map_spec t) _ OZ) as [i' Lz].
  destruct (key_image _ _ _ _ _ _ INV Ly) as [q Hy].
  destruct (key_image _ _ _ _ _ _ INV Lz) as [q' Hz].
  destruct (short_list _ LEN) as [M1 | [[a b] M1]]; rewrite M1 in Hy, Hz; [discriminate Hy|].
  apply alookup_single in Hy, Hz. destruct Hy as [_ Cy]. destruct Hz as [_ Cz].
  rewrite Cy in Ly. rewrite Cz in Lz. exact (proj2 (canon_map_spec t) _ _ _ Ly Lz).
Qed.

Lemma canon_map_NoDup t : NoDup (map fst (canon_map t)).
Proof.
  unfold canon_map. apply (ctree_inv (fun s => NoDup (map fst (snd s)))); [|constructor].
  intros x s _ ND. apply (ainsert_NoDup str_eqb str_eqb_eq), ND.
Qed.

(** ** the number of entries (at most one) is a property of the canonical tree *)
Theorem single_transfer_tree d d1 t t1 :
  depth_named d t -> depth_named d1 t1 -> canon_tree t = canon_tree t1 ->
  length (canon_map t1) <= 1 -> length (canon_map t) <= 1.
Proof.
  intros DN DN1 E LEN. rewrite <- (map_length fst).
  apply NoDup_pairwise_eq; [apply canon_map_NoDup|]. intros y z INy INz.
  apply (single_names d d1 t t1 DN DN1 E LEN); apply canon_map_keys; intro NONE;
    apply (alookup_None str_eqb str_eqb_eq) in NONE; contradiction.
Qed.

Definition only_var (x : str) (t : tree) : Prop := forall y, occurs y t -> y = x.

(** ** skeletons *)

Lemma vmap_const_const z z' t : vmap (fun _ => z) (vmap (fun _ => z') t) = vmap (fun _ => z) t.
Proof.
  induction t as [a | o c IH | o l IHl r IHr | o x dm c IH]; cbn [vmap].
  - destruct a; reflexivity.
  - rewrite IH. reflexivity.
  - rewrite IHl, IHr. reflexivity.
  - rewrite IH. reflexivity.
Qed.

Lemma only_var_vmap x t : only_var x t -> vmap (fun _ => x) t = t.
Proof.
  induction t as [a | o c IH | o l IHl r IHr | o y dm c IH]; intro OV; cbn [vmap].
  - destruct a as [p | y | | | w]; try reflexivity. rewrite (OV y eq_refl). reflexivity.
  - rewrite IH; [reflexivity | exact OV].
  - rewrite IHl, IHr; [reflexivity | |]; intros y H; apply OV; [right | left]; exact H.
  - rewrite (OV y (or_introl eq_refl)). rewrite IH; [reflexivity|].
    intros z H. apply OV. right. exact H.
Qed.

Lemma canon_tree_eq_vmap x t t1 :
  canon_tree t = canon_tree t1 -> only_var x t -> t = vmap (fun _ => x) t1.
Proof.
  intros E OV. rewrite <- (only_var_vmap x t OV) at 1.
  rewrite <- (vmap_const_ctree x t (0%N, [])), <- (vmap_const_ctree x t1 (0%N, [])).
  fold (canon_tree t) (canon_tree t1). rewrite E. reflexivity.
Qed.

(** ** the shape of a cache hit: the cached tree [t1] has an at most one-entry map *)
Theorem hit_shape_tree d d1 t t1 :
  depth_named d t -> depth_named d1 t1 -> canon_tree t = canon_tree t1 ->
  length (canon_map t1) <= 1 ->
  (canon_map t1 = [] /\ t = t1)
  \/ (exists x1 x cn, canon_map t1 = [(x1, cn)] /\ canon_map t = [(x, cn)]
                      /\ occurs x1 t1 /\ occurs x t /\ only_var x1 t1
                      /\ t = vmap (fun _ => x) t1).
Proof.
  intros DN DN1 E LEN.
  pose proof (maps_agree_final d d1 t t1 DN DN1 E) as INV.
  pose proof (single_transfer_tree d d1 t t1 DN DN1 E LEN) as LENt.
  destruct (short_list _ LEN) as [M1 | [[x1 cn] M1]].
  - left. split; [exact M1|].
    assert (forall y, ~ occurs y t) as NO.
    { intros y OY. destruct (occurs_depth_named t d y DN OY) as [k ->].
      destruct (proj1 (canon_map_spec t) _ OY) as [i Ly].
      destruct (key_image _ _ _ _ _ _ INV Ly) as [k1 H]. rewrite M1 in H. discriminate H. }
    assert (only_var [] t) as OV by (intros y H; destruct (NO y H)).
    assert (only_var [] t1) as OV1 by (intros y H; destruct (no_names_keys t1 M1 y H)).
    rewrite (canon_tree_eq_vmap [] t t1 E OV). apply only_var_vmap, OV1.
  - right.
    assert (occurs x1 t1) as O1 by (apply (occurs_single x1 cn t1 x1 M1); reflexivity).
    destruct (occurs_depth_named t1 d1 x1 DN1 O1) as [k1 ->].
    assert (alookup str_eqb (xs (S k1)) (canon_map t1) = Some cn) as L1
      by (rewrite M1; cbn [alookup]; rewrite str_eqb_refl; reflexivity).
    destruct (key_image _ _ _ _ _ _ (maps_agree_sym _ _ _ _ _ INV) L1) as [k L].
    destruct (short_list _ LENt) as [M | [[x cn'] M]]; rewrite M in L; [discriminate L|].
    apply alookup_single in L. destruct L as [<- <-].
    exists (xs (S k1)), (xs (S k)), cn. split; [exact M1|]. split; [exact M|].
    split; [exact O1|].
    split; [apply (occurs_single _ _ _ _ M); reflexivity|].
    split; [intro y; apply (occurs_single _ _ _ _ M1)|].
    apply canon_tree_eq_vmap; [exact E | intro y; apply (occurs_single _ _ _ _ M)].
Qed.

(** ** the same in terms of the character-level canoniser *)
Section Text.
Variable ext_alnum : N -> bool.
Variable ext : bool.

Lemma canonize_map t : well_named ext_alnum ext t -> snd (canonize (render t)) = canon_map t.
Proof. intro W. rewrite (canon_commutes t (well_named_canon_ok _ _ _ W)). reflexivity. Qed.

Theorem single_transfer d d1 t t1 :
  well_named ext_alnum ext t -> well_named ext_alnum ext t1 ->
  depth_named d t -> depth_named d1 t1 ->
  fst (canonize (render t)) = fst (canonize (render t1)) ->
  length (snd (canonize (render t1))) <= 1 -> length (snd (canonize (render t))) <= 1.
Proof.
  intros W W1 DN DN1 E. rewrite (canonize_map t W), (canonize_map t1 W1).
  apply (single_transfer_tree d d1); try assumption.
  apply (canon_text_tree ext_alnum ext); assumption.
Qed.

Theorem hit_shape d d1 t t1 :
  well_named ext_alnum ext t -> well_named ext_alnum ext t1 ->
  depth_named d t -> depth_named d1 t1 ->
  fst (canonize (render t)) = fst (canonize (render t1)) ->
  length (snd (canonize (render t1))) <= 1 ->
  (snd (canonize (render t1)) = [] /\ t = t1)
  \/ (exists x1 x cn, snd (canonize (render t1)) = [(x1, cn)] /\ snd (canonize (render t)) = [(x, cn)]
                      /\ occurs x1 t1 /\ occurs x t /\ only_var x1 t1
                      /\ t = vmap (fun _ => x) t1).
Proof.
  intros W W1 DN DN1 E. rewrite (canonize_map t W), (canonize_map t1 W1).
  apply (hit_shape_tree d d1); try assumption. apply (canon_text_tree ext_alnum ext); assumption.
Qed.

End Text.
