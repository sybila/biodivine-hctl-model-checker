(** The self-loop set handed to [eval_node] is only consulted by EX, AX, AF, EG, AU, EW and
    by the steady-state shortcut (whose pattern contains AX): on formulae without those
    operators the evaluation -- including all cache traffic -- does not depend on it (C18). *)
From HCTL Require Import Base Syntax Canon MarkDup TT Ops Eval Kripke HCTL.
From HCTL Require Import TTFacts OpsFacts FixFacts SemFacts EvalPure.

Fixpoint in_fragment (t : tree) : Prop :=
  match t with
  | Terminal _ => True
  | Unary o a =>
      match o with EX | AX | AF | EG => False | _ => in_fragment a end
  | Binary o a b =>
      match o with AU | EW => False | _ => in_fragment a /\ in_fragment b end
  | Hybrid _ _ _ a => in_fragment a
  end.

Section Unsafe.
Variable G : genv.
Variable names : list str.
Variable sw : switches.

Lemma fragment_not_fixed_point_pattern t : in_fragment t -> is_fixed_point_pattern t = false.
Proof.
  intro Hf. destruct (is_fixed_point_pattern t) eqn:E; [|reflexivity].
  destruct t as [a|o a|o a b|o x d a]; try discriminate.
  simpl in E. destruct o; try discriminate. destruct d; try discriminate.
  destruct a as [a|o a|o a b|o y d a]; try discriminate. destruct o; try discriminate.
  simpl in Hf. contradiction.
Qed.

(* Past the cache lookup, which does not see the self-loop set, only the operators excluded
   from the fragment read it. *)
Theorem fragment_ignores_steady s1 s2 : forall t U c, in_fragment t ->
  eval_node G names sw s1 t U c = eval_node G names sw s2 t U c.
Proof.
  induction t as [a | o a IH | o a IHa b IHb | o x d a IH]; intros U c Hf;
    rewrite !(eval_node_unfold G names sw);
    (destruct (if amem _ _ _ then _ else _) as [[? ?]|]; [reflexivity|]);
    pose proof (fragment_not_fixed_point_pattern _ Hf) as PF.
  - unfold eval_miss. cbn [is_attractor_pattern is_fixed_point_pattern]. rewrite !andb_false_r.
    reflexivity.
  - unfold eval_miss. cbn [is_attractor_pattern is_fixed_point_pattern]. rewrite !andb_false_r.
    destruct o; try contradiction; rewrite (IH _ _ Hf); reflexivity.
  - unfold eval_miss. cbn [is_attractor_pattern is_fixed_point_pattern]. rewrite !andb_false_r.
    assert (Hab : in_fragment a /\ in_fragment b) by (destruct o; cbn in Hf; tauto).
    rewrite (IHa _ _ (proj1 Hab)).
    destruct (eval_node G names sw s2 a U c) as [[ra c1]| | |]; [|reflexivity..].
    cbn [bind]. rewrite (IHb _ _ (proj2 Hab)). destruct o; try contradiction; reflexivity.
  - cbn [in_fragment] in Hf.
    destruct (use_patterns sw && is_attractor_pattern (Hybrid o x d a)) eqn:PA.
    { unfold eval_miss. rewrite PA. reflexivity. }
    assert (PF' : use_patterns sw && is_fixed_point_pattern (Hybrid o x d a) = false)
      by (rewrite PF; apply andb_false_r).
    destruct (jump_or_quantifier o) as [-> | [Ho _]].
    { unfold eval_miss. rewrite PA, PF'. rewrite (IH _ _ Hf). reflexivity. }
    rewrite !(eval_miss_quant G names sw _ _ o x d a U c Ho PA PF'). cbv zeta.
    destruct d as [dl|]; [|rewrite (IH _ _ Hf); reflexivity].
    destruct (alookup _ _ _); [|reflexivity].
    (* no [try reflexivity] on the [Ok] case: failing, it would unfold both [eval_node]s *)
    destruct (hctl_var_id G x) as [e| | |]; cbn [bind]; [|reflexivity..].
    destruct (is_empty _); [reflexivity|]. rewrite (IH _ _ Hf). reflexivity.
Qed.

End Unsafe.

(** on a network without steady states the self-loop set is empty anyway *)
Section NoSteady.
Variable G : genv.
Local Notation L := (g_L G).
Hypothesis L_nodup : NoDup L.
Hypothesis upd_shaped : forall i, shaped L (upd_of G i).
Hypothesis TS_in : forall i, i < g_n G -> In (TS i) L.
Variable U : tt.
Hypothesis U_shaped : shaped L U.

Theorem no_steady_states_empty :
  (forall v, mem L U v = true -> ~ vsteady G v) -> steady_of G U = empty G.
Proof.
  intro H. apply (tt_ext L); auto using shaped_steady_of, shaped_empty.
  intro v. rewrite mem_empty. destruct (mem L (steady_of G U) v) eqn:E; [|reflexivity].
  apply mem_steady_of in E; try assumption. destruct E as [Hu Hs]. destruct (H v Hu Hs).
Qed.
End NoSteady.
