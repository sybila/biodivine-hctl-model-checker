(** Facts about the aeon-to-bnet converter model (Model/Converter.v), property C19. *)
From HCTL Require Import Base Converter.
From HCTL Require Import BaseFacts.

(** * Induction principle for the nested type [fnupd] *)
Section FnupdInd.
  Variable P : fnupd -> Prop.
  Hypothesis Hc : forall b, P (FConst b).
  Hypothesis Hv : forall v, P (FVar v).
  Hypothesis Hn : forall f, P f -> P (FNot f).
  Hypothesis Hb : forall op l r, P l -> P r -> P (FBin op l r).
  Hypothesis Hp : forall n args, Forall P args -> P (FParam n args).

  Fixpoint fnupd_ind' (f : fnupd) : P f :=
    match f with
    | FConst b => Hc b
    | FVar v => Hv v
    | FNot g => Hn g (fnupd_ind' g)
    | FBin op l r => Hb op l r (fnupd_ind' l) (fnupd_ind' r)
    | FParam n args =>
        Hp n args ((fix go (l : list fnupd) : Forall P l :=
                      match l with
                      | [] => Forall_nil P
                      | a :: l' => Forall_cons a (fnupd_ind' a) (go l')
                      end) args)
    end.
End FnupdInd.

(** * Names *)

Lemma gen_nil : forall p, gen p [] = p.
Proof. intros p. unfold gen. cbn [map]. apply app_nil_r. Qed.

Lemma gen_snoc : forall p b bits, gen (p ++ [bitch b]) bits = gen p (b :: bits).
Proof. intros p b bits. unfold gen. cbn [map]. rewrite <- app_assoc. reflexivity. Qed.

Lemma gen_pname : forall n bits, gen (pname n) bits = n ++ chu :: map bitch bits.
Proof. intros n bits. unfold gen, pname. rewrite <- app_assoc. reflexivity. Qed.

Lemma bitch_not_chu : forall b, N.eqb (bitch b) chu = false.
Proof. intros [|]; reflexivity. Qed.

Fixpoint unbits (w : str) : option (list bool) :=
  match w with
  | [] => Some []
  | c :: w' =>
      if N.eqb c ch1 then option_map (cons true) (unbits w')
      else if N.eqb c ch0 then option_map (cons false) (unbits w')
      else None
  end.

Lemma unbits_bits : forall bits, unbits (map bitch bits) = Some bits.
Proof.
  induction bits as [|b bits IH]; cbn [map unbits].
  - reflexivity.
  - rewrite IH. destruct b; reflexivity.
Qed.

(** the function [Shell.strip_prefix] of Model/Shell.v, stated here because the converter does
    not import the shell model *)
Fixpoint strip (p w : str) : option str :=
  match p, w with
  | [], _ => Some w
  | c :: p', d :: w' => if N.eqb c d then strip p' w' else None
  | _ :: _, [] => None
  end.

Lemma strip_own_prefix : forall p w, strip p (p ++ w) = Some w.
Proof.
  induction p as [|c p IH]; intros w; cbn [strip app].
  - reflexivity.
  - rewrite N.eqb_refl. apply IH.
Qed.

(** decoding of a generated name [n ++ "_" ++ bits]: split at the LAST underscore (the bit
    suffix contains none), then decode the bits. *)
Fixpoint decode (w : str) : option (str * list bool) :=
  match w with
  | [] => None
  | c :: w' =>
      match decode w' with
      | Some (n, bits) => Some (c :: n, bits)
      | None => if N.eqb c chu then option_map (fun b => ([], b)) (unbits w') else None
      end
  end.

Lemma decode_bits_none : forall bits, decode (map bitch bits) = None.
Proof.
  induction bits as [|b bits IH]; cbn [map decode].
  - reflexivity.
  - rewrite IH, bitch_not_chu. reflexivity.
Qed.

Lemma decode_gen : forall n bits, decode (gen (pname n) bits) = Some (n, bits).
Proof.
  intros n bits. rewrite gen_pname.
  induction n as [|c n IH]; cbn [app decode].
  - rewrite decode_bits_none, N.eqb_refl, unbits_bits. reflexivity.
  - rewrite IH. reflexivity.
Qed.

(** The naming scheme of the converter is injective: the names generated for different
    function symbols, or for different argument values of one symbol, never coincide.  This
    is where the '_' separator matters (without it, "f" with argument value 1 and a
    zero-arity "f1" would both produce "f1"). *)
Lemma gen_pname_inj : forall n bits n' bits',
  gen (pname n) bits = gen (pname n') bits' -> n = n' /\ bits = bits'.
Proof.
  intros n bits n' bits' E.
  assert (D : decode (gen (pname n) bits) = decode (gen (pname n') bits')) by (rewrite E; reflexivity).
  rewrite !decode_gen in D. inversion D. split; reflexivity.
Qed.

(** * Functions without parameters *)

Lemma param_free_ind (P : fnupd -> Prop) :
  (forall b, P (FConst b)) -> (forall v, P (FVar v)) -> (forall g, P g -> P (FNot g)) ->
  (forall op l r, P l -> P r -> P (FBin op l r)) ->
  forall f, has_param f = false -> P f.
Proof.
  intros Hc Hv Hn Hb. induction f as [b|v|g IH|op l IHl r IHr|n args]; cbn [has_param]; intros H.
  - apply Hc.
  - apply Hv.
  - apply Hn, IH, H.
  - apply orb_false_iff in H. destruct H as [Hl Hr]. apply Hb; [apply IHl, Hl | apply IHr, Hr].
  - discriminate H.
Qed.

(** a function without parameters does not depend on the interpretation *)
Lemma eval_param_free : forall I I' s f, has_param f = false -> eval_fn I s f = eval_fn I' s f.
Proof. intros I I' s. apply param_free_ind; cbn [eval_fn]; congruence. Qed.

Lemma eval_flat_param_free : forall rho I s f, has_param f = false -> eval_flat rho s f = eval_fn I s f.
Proof. intros rho I s f H. unfold eval_flat. apply eval_param_free. exact H. Qed.

Lemma map_eval_param_free : forall rho rho' s args,
  forallb (fun a => negb (has_param a)) args = true ->
  map (eval_flat rho s) args = map (eval_flat rho' s) args.
Proof.
  intros rho rho' s args H. apply map_ext_in. intros a Ha.
  rewrite forallb_forall in H. specialize (H a Ha). apply negb_true_iff in H.
  unfold eval_flat. apply eval_param_free. exact H.
Qed.

(** * Evaluation of the converter's output ([explode_rs], [flatten_rs]: with the collision loop) *)

Lemma bump_not_var : forall isvar fuel name, isvar name = false -> bump isvar fuel name = name.
Proof. intros isvar [|k] name H; cbn [bump]; [|rewrite H]; reflexivity. Qed.

(** the Shannon expansion selects the leaf named by the argument values *)
Lemma explode_rs_eval : forall isvar fuel rho s args p,
  eval_flat rho s (explode_rs isvar fuel args p) =
  rho (bump isvar fuel (gen p (map (eval_flat rho s) args))).
Proof.
  intros isvar fuel rho s args. induction args as [|a rest IH]; intros p.
  - cbn [explode_rs map]. rewrite gen_nil. reflexivity.
  - cbn [explode_rs map]. unfold eval_flat in *. cbn [eval_fn eval_op].
    rewrite !IH. rewrite <- gen_snoc.
    destruct (eval_fn (fun name _ => rho name) s a); cbn [negb implb andb bitch].
    + rewrite andb_true_r. reflexivity.
    + reflexivity.
Qed.

(** the name finally used for the leaf of symbol [fst c] selected by argument values [snd c] *)
Definition name_rs (isvar : str -> bool) (fuel : nat) (c : str * list bool) : str :=
  bump isvar fuel (gen (pname (fst c)) (snd c)).

Definition I_of_rho_rs (isvar : str -> bool) (fuel : nat) (rho : str -> bool) : str -> list bool -> bool :=
  fun n bits => rho (name_rs isvar fuel (n, bits)).

(** every valuation of the final names is the image of an interpretation (no hypothesis) *)
Lemma flatten_rs_eval_I_of_rho : forall isvar fuel rho s f,
  eval_flat rho s (flatten_rs isvar fuel f) = eval_fn (I_of_rho_rs isvar fuel rho) s f.
Proof.
  intros isvar fuel rho s f. induction f as [b|v|g IH|op l r IHl IHr|n args IH] using fnupd_ind'.
  - reflexivity.
  - reflexivity.
  - cbn [flatten_rs eval_fn]. unfold eval_flat in *. cbn [eval_fn]. rewrite IH. reflexivity.
  - cbn [flatten_rs eval_fn]. unfold eval_flat in *. cbn [eval_fn]. rewrite IHl, IHr. reflexivity.
  - cbn [flatten_rs eval_fn]. rewrite explode_rs_eval. unfold I_of_rho_rs at 1, name_rs. cbn [fst snd].
    rewrite map_map. rewrite (map_ext_Forall _ _ IH). reflexivity.
Qed.

(** * The converter without the loop

    [explode] and [flatten] are [explode_rs] and [flatten_rs] with no fuel for the loop, so what
    holds of the latter for every fuel holds of them. *)

Lemma explode_rs_no_fuel : forall isvar args p, explode_rs isvar 0 args p = explode args p.
Proof.
  intros isvar args. induction args as [|a rest IH]; intros p; cbn [explode_rs explode bump].
  - reflexivity.
  - rewrite !IH. reflexivity.
Qed.

Lemma flatten_rs_no_fuel : forall isvar f, flatten_rs isvar 0 f = flatten f.
Proof.
  intros isvar f. induction f as [b|v|g IH|op l r IHl IHr|n args IH] using fnupd_ind';
    cbn [flatten_rs flatten]; try congruence.
  rewrite explode_rs_no_fuel, (map_ext_Forall _ _ IH). reflexivity.
Qed.

Lemma explode_eval : forall rho s args p,
  eval_flat rho s (explode args p) = rho (gen p (map (eval_flat rho s) args)).
Proof.
  intros rho s args p. rewrite <- (explode_rs_no_fuel (fun _ => false)). apply explode_rs_eval.
Qed.

(** correspondence g <-> rho for one exploded symbol with prefix [p] *)
Definition g_of_rho (p : str) (rho : str -> bool) : list bool -> bool :=
  fun bits => rho (gen p bits).

Definition rho_of_g (p : str) (g : list bool -> bool) : str -> bool :=
  fun name =>
    match strip p name with
    | Some w => match unbits w with Some bits => g bits | None => false end
    | None => false
    end.

Lemma rho_of_g_gen : forall p g bits, rho_of_g p g (gen p bits) = g bits.
Proof. intros p g bits. unfold rho_of_g, gen. rewrite strip_own_prefix, unbits_bits. reflexivity. Qed.

(** every function of the argument values is obtained from some valuation (one inclusion of
    [explode_family]; the other is [explode_eval]) *)
Lemma explode_family_a : forall args p g rho0 s,
  forallb (fun a => negb (has_param a)) args = true ->
  eval_flat (rho_of_g p g) s (explode args p) = g (map (eval_flat rho0 s) args).
Proof.
  intros args p g rho0 s H. rewrite explode_eval, rho_of_g_gen.
  rewrite (map_eval_param_free _ rho0 s args H). reflexivity.
Qed.

(** the family of functions, as a set equality *)
Lemma explode_family : forall args p rho0,
  forallb (fun a => negb (has_param a)) args = true ->
  forall F : (nat -> bool) -> bool,
    (exists rho, forall s, F s = eval_flat rho s (explode args p)) <->
    (exists g : list bool -> bool, forall s, F s = g (map (eval_flat rho0 s) args)).
Proof.
  intros args p rho0 H F. split.
  - intros [rho HF]. exists (g_of_rho p rho). intros s. rewrite HF, explode_eval.
    rewrite (map_eval_param_free rho rho0 s args H). reflexivity.
  - intros [g HF]. exists (rho_of_g p g). intros s. rewrite HF.
    symmetry. apply explode_family_a. exact H.
Qed.

Definition I_of_rho (rho : str -> bool) : str -> list bool -> bool :=
  fun n bits => rho (gen (pname n) bits).

Definition rho_of_I (I : str -> list bool -> bool) : str -> bool :=
  fun name => match decode name with Some (n, bits) => I n bits | None => false end.

Lemma rho_of_I_gen : forall I n bits, rho_of_I I (gen (pname n) bits) = I n bits.
Proof. intros I n bits. unfold rho_of_I. rewrite decode_gen. reflexivity. Qed.

(** every valuation of the fresh names is the image of an interpretation (no hypothesis) *)
Lemma flatten_eval_I_of_rho : forall rho s f,
  eval_flat rho s (flatten f) = eval_fn (I_of_rho rho) s f.
Proof.
  intros rho s f. rewrite <- (flatten_rs_no_fuel (fun _ => false)).
  exact (flatten_rs_eval_I_of_rho (fun _ => false) 0 rho s f).
Qed.

(** every interpretation is matched by a valuation of the fresh names; this direction uses
    the injectivity of the naming scheme ([decode_gen]) *)
Lemma flatten_eval_rho_of_I : forall I s f,
  eval_flat (rho_of_I I) s (flatten f) = eval_fn I s f.
Proof.
  intros I s f. rewrite flatten_eval_I_of_rho.
  induction f as [b|v|g IH|op l r IHl IHr|n args IH] using fnupd_ind'; cbn [eval_fn].
  - reflexivity.
  - reflexivity.
  - rewrite IH. reflexivity.
  - rewrite IHl, IHr. reflexivity.
  - rewrite (map_ext_Forall _ _ IH). apply rho_of_I_gen.
Qed.

Lemma explode_flat : forall args p, forallb is_flat args = true -> is_flat (explode args p) = true.
Proof.
  induction args as [|a rest IH]; intros p H; cbn [explode is_flat].
  - reflexivity.
  - cbn [forallb] in H. apply andb_true_iff in H. destruct H as [Ha Hr].
    rewrite Ha, !IH by exact Hr. reflexivity.
Qed.

Lemma flatten_flat : forall f, is_flat (flatten f) = true.
Proof.
  intros f. induction f as [b|v|g IH|op l r IHl IHr|n args IH] using fnupd_ind'; cbn [flatten is_flat].
  - reflexivity.
  - reflexivity.
  - exact IH.
  - rewrite IHl, IHr. reflexivity.
  - apply explode_flat. apply forallb_forall. intros a Ha.
    apply in_map_iff in Ha. destruct Ha as [a0 [E Ha0]]. subst a.
    rewrite Forall_forall in IH. apply IH. exact Ha0.
Qed.

(** * When the collision loop never fires *)

(** Sufficient condition under which the loop of [explode_function] never fires: no name
    generated for a symbol occurrence of [f] is the name of a network variable. *)
Inductive clash_free (isvar : str -> bool) : fnupd -> Prop :=
| CF_const : forall b, clash_free isvar (FConst b)
| CF_var : forall v, clash_free isvar (FVar v)
| CF_not : forall g, clash_free isvar g -> clash_free isvar (FNot g)
| CF_bin : forall op l r, clash_free isvar l -> clash_free isvar r -> clash_free isvar (FBin op l r)
| CF_param : forall n args,
    (forall bits, length bits = length args -> isvar (gen (pname n) bits) = false) ->
    Forall (clash_free isvar) args ->
    clash_free isvar (FParam n args).

Lemma explode_rs_eq : forall isvar fuel args p,
  (forall bits, length bits = length args -> isvar (gen p bits) = false) ->
  explode_rs isvar fuel args p = explode args p.
Proof.
  intros isvar fuel args. induction args as [|a rest IH]; intros p H; cbn [explode_rs explode].
  - rewrite bump_not_var; [reflexivity|]. rewrite <- (gen_nil p). apply H. reflexivity.
  - rewrite !IH; [reflexivity| |].
    + intros bits Hl. change [ch0] with [bitch false]. rewrite gen_snoc. apply H. cbn [length]. lia.
    + intros bits Hl. change [ch1] with [bitch true]. rewrite gen_snoc. apply H. cbn [length]. lia.
Qed.

Lemma flatten_rs_eq : forall isvar fuel f, clash_free isvar f -> flatten_rs isvar fuel f = flatten f.
Proof.
  intros isvar fuel f. induction f as [b|v|g IH|op l r IHl IHr|n args IH] using fnupd_ind';
    intros CF; cbn [flatten_rs flatten].
  - reflexivity.
  - reflexivity.
  - inversion CF as [| |g' Hg| |]; subst. rewrite IH by exact Hg. reflexivity.
  - inversion CF as [| | |op' l' r' Hl Hr|]; subst. rewrite IHl, IHr by assumption. reflexivity.
  - inversion CF as [| | | |n' args' Hnames Hargs]; subst.
    assert (E : map (flatten_rs isvar fuel) args = map flatten args).
    { apply map_ext_in. rewrite Forall_forall in *. intros a Ha. apply IH; [exact Ha|]. apply Hargs. exact Ha. }
    rewrite E. apply explode_rs_eq. intros bits Hl. apply Hnames. rewrite Hl. apply map_length.
Qed.

(** Some hypothesis on the variable names is needed in the model: if "f_" is a variable, the
    zero-arity symbols "f" and "f_" are both sent to "f__".  (The library forbids a parameter
    named like a variable, so this particular network cannot be built; [clash_free] is a
    sufficient condition, not a necessary one.) *)
Definition clash_isvar : str -> bool := str_eqb [102; 95]%N.
Definition clash_fn : fnupd := FBin BXor (FParam [102]%N []) (FParam [102; 95]%N []).

Lemma clash_example :
  flatten_rs clash_isvar 3 clash_fn = FBin BXor (FParam [102; 95; 95]%N []) (FParam [102; 95; 95]%N []) /\
  exists I, forall rho s, eval_flat rho s (flatten_rs clash_isvar 3 clash_fn) <> eval_fn I s clash_fn.
Proof.
  split; [reflexivity|].
  exists (fun n _ => str_eqb n [102]%N). intros rho s.
  change (xorb (rho [102; 95; 95]%N) (rho [102; 95; 95]%N) <> true).
  rewrite xorb_nilpotent. discriminate.
Qed.

(** * One variable of the network *)

(** the update function of a variable, an implicit one being read as the application of a
    function symbol named like the variable to its regulators (parameter names differ from
    variable names in the library, so this symbol is distinct from the explicit ones) *)
Definition update_of (name : str) (regs : list nat) (upd : option fnupd) : fnupd :=
  match upd with
  | Some f => f
  | None => FParam name (map FVar regs)
  end.

Lemma flatten_update_regulated : forall name regs upd, regs <> [] ->
  flatten_update name regs upd = Some (flatten (update_of name regs upd)).
Proof.
  intros name [|r regs] upd H; [congruence|].
  unfold flatten_update, update_of. destruct upd as [f|]; [reflexivity|].
  cbn [flatten]. rewrite map_map. cbn [flatten]. reflexivity.
Qed.

Lemma flatten_update_unregulated : forall name upd, flatten_update name [] upd = upd.
Proof. reflexivity. Qed.

Lemma str_eqb_pname : forall p : str, str_eqb (pname p) p = false.
Proof.
  unfold str_eqb, pname. induction p as [|c p IH]; cbn [list_eqb app]; [reflexivity|].
  rewrite N.eqb_refl. cbn [andb]. exact IH.
Qed.

(** Variables without regulators are skipped, so a parameter in their update function keeps
    its name while the same parameter is renamed everywhere else: the link between the two
    occurrences is lost. *)
Lemma skipped_variable_decorrelated : forall p : str,
  let fa := FParam p [] in
  flatten_update [97]%N [] (Some fa) = Some fa /\
  flatten_update [98]%N [0] (Some fa) = Some (FParam (pname p) []) /\
  exists rho, forall s, eval_flat rho s fa <> eval_flat rho s (FParam (pname p) []).
Proof.
  intros p fa. repeat split.
  exists (fun n => str_eqb n p). intros s. unfold fa, eval_flat. cbn [eval_fn].
  rewrite str_eqb_refl, str_eqb_pname. discriminate.
Qed.

(** * The collision loop, exactly: the family is preserved whenever the names that the loop
    finally produces are pairwise distinct on the symbol occurrences at hand. *)

(** symbol occurrences of a function, with their arity *)
Fixpoint occs (f : fnupd) : list (str * nat) :=
  match f with
  | FConst _ | FVar _ => []
  | FNot g => occs g
  | FBin _ l r => occs l ++ occs r
  | FParam n args => (n, length args) :: flat_map occs args
  end.

Fixpoint all_bits (k : nat) : list (list bool) :=
  match k with
  | 0 => [[]]
  | S k' => map (cons true) (all_bits k') ++ map (cons false) (all_bits k')
  end.

Lemma all_bits_complete : forall bits, In bits (all_bits (length bits)).
Proof.
  induction bits as [|b bits IH]; cbn [length all_bits].
  - left. reflexivity.
  - apply in_or_app. destruct b; [left|right]; apply in_map; exact IH.
Qed.

Lemma all_bits_length : forall k bits, In bits (all_bits k) -> length bits = k.
Proof.
  induction k as [|k IH]; intros bits H; cbn [all_bits] in H.
  - destruct H as [H|[]]. subst bits. reflexivity.
  - apply in_app_or in H. destruct H as [H|H]; apply in_map_iff in H; destruct H as [b0 [E Hb0]];
      subst bits; cbn [length]; rewrite (IH b0 Hb0); reflexivity.
Qed.

(** all (symbol, argument values) pairs of a list [C] of (symbol, arity) pairs *)
Definition cands (C : list (str * nat)) : list (str * list bool) :=
  flat_map (fun nk => map (pair (fst nk)) (all_bits (snd nk))) C.

Lemma in_cands : forall C n bits, In (n, length bits) C -> In (n, bits) (cands C).
Proof.
  intros C n bits H. unfold cands. apply in_flat_map. exists (n, length bits). split; [exact H|].
  cbn [fst snd]. apply in_map. apply all_bits_complete.
Qed.

Lemma cands_in : forall C n bits, In (n, bits) (cands C) -> In (n, length bits) C.
Proof.
  intros C n bits H. unfold cands in H. apply in_flat_map in H. destruct H as [[n0 k] [HC H]].
  cbn [fst snd] in H. apply in_map_iff in H. destruct H as [b0 [E Hb0]]. inversion E; subst.
  rewrite (all_bits_length k bits Hb0). exact HC.
Qed.

(** the freshness hypothesis: the final names of the occurrences [C] are pairwise distinct *)
Definition names_distinct (isvar : str -> bool) (fuel : nat) (C : list (str * nat)) : Prop :=
  forall c1 c2, In c1 (cands C) -> In c2 (cands C) ->
    name_rs isvar fuel c1 = name_rs isvar fuel c2 -> c1 = c2.

Definition rho_of_I_rs (isvar : str -> bool) (fuel : nat) (C : list (str * nat))
    (I : str -> list bool -> bool) : str -> bool :=
  fun w =>
    match find (fun c => str_eqb (name_rs isvar fuel c) w) (cands C) with
    | Some c => I (fst c) (snd c)
    | None => false
    end.

Lemma rho_of_I_rs_name : forall isvar fuel C I n bits,
  names_distinct isvar fuel C -> In (n, length bits) C ->
  rho_of_I_rs isvar fuel C I (name_rs isvar fuel (n, bits)) = I n bits.
Proof.
  intros isvar fuel C I n bits ND HC. unfold rho_of_I_rs.
  pose proof (in_cands C n bits HC) as Hin.
  destruct (find _ (cands C)) as [c|] eqn:Ef.
  - apply find_some in Ef. destruct Ef as [Hc Heq]. apply str_eqb_eq in Heq.
    rewrite (ND c (n, bits) Hc Hin Heq). reflexivity.
  - pose proof (find_none _ _ Ef (n, bits) Hin) as Hn. cbn beta in Hn.
    rewrite str_eqb_refl in Hn. discriminate Hn.
Qed.

(** interpretation -> valuation: one valuation serves every function whose symbol
    occurrences lie in [C], provided the final names of [C] are pairwise distinct *)
Lemma flatten_rs_eval_rho_of_I : forall isvar fuel C I s f,
  names_distinct isvar fuel C -> incl (occs f) C ->
  eval_flat (rho_of_I_rs isvar fuel C I) s (flatten_rs isvar fuel f) = eval_fn I s f.
Proof.
  intros isvar fuel C I s f ND. rewrite flatten_rs_eval_I_of_rho.
  induction f as [b|v|g IH|op l r IHl IHr|n args IH] using fnupd_ind'; cbn [eval_fn occs]; intros Hincl.
  - reflexivity.
  - reflexivity.
  - rewrite IH by exact Hincl. reflexivity.
  - rewrite IHl, IHr; [reflexivity| |]; intros x Hx; apply Hincl; apply in_or_app; [right|left]; exact Hx.
  - assert (E : map (eval_fn (I_of_rho_rs isvar fuel (rho_of_I_rs isvar fuel C I)) s) args
               = map (eval_fn I s) args).
    { apply map_ext_in. rewrite Forall_forall in *. intros a Ha. apply IH; [exact Ha|].
      intros x Hx. apply Hincl. right. apply in_flat_map. exists a. split; assumption. }
    rewrite E. unfold I_of_rho_rs. apply rho_of_I_rs_name; [exact ND|].
    rewrite map_length. apply Hincl. left. reflexivity.
Qed.

Lemma flatten_rs_family_distinct : forall isvar fuel f, names_distinct isvar fuel (occs f) ->
  forall F : (nat -> bool) -> bool,
    (exists rho, forall s, F s = eval_flat rho s (flatten_rs isvar fuel f)) <->
    (exists I, forall s, F s = eval_fn I s f).
Proof.
  intros isvar fuel f ND F. split.
  - intros [rho HF]. exists (I_of_rho_rs isvar fuel rho). intros s. rewrite HF. apply flatten_rs_eval_I_of_rho.
  - intros [I HF]. exists (rho_of_I_rs isvar fuel (occs f) I). intros s. rewrite HF. symmetry.
    apply flatten_rs_eval_rho_of_I; [exact ND|apply incl_refl].
Qed.

(** what [clash_free] says of the generated names: none of them is a variable *)
Lemma clash_free_occs : forall isvar f, clash_free isvar f ->
  forall n bits, In (n, length bits) (occs f) -> isvar (gen (pname n) bits) = false.
Proof.
  intros isvar f. induction f as [b|v|g IH|op l r IHl IHr|n args IH] using fnupd_ind';
    intros CF m bits Hin; cbn [occs] in Hin.
  - destruct Hin.
  - destruct Hin.
  - inversion CF as [| |g' Hg| |]; subst. apply IH; assumption.
  - inversion CF as [| | |op' l' r' Hl Hr|]; subst. apply in_app_or in Hin.
    destruct Hin as [Hin|Hin]; [apply IHl|apply IHr]; assumption.
  - inversion CF as [| | | |n' args' Hnames Hargs]; subst. destruct Hin as [E|Hin].
    + inversion E; subst. apply Hnames. symmetry. assumption.
    + apply in_flat_map in Hin. destruct Hin as [a [Ha Hin]]. rewrite Forall_forall in *.
      apply (IH a Ha); [apply Hargs; exact Ha|exact Hin].
Qed.

(** names that the loop leaves alone are distinct *)
Lemma names_distinct_not_var : forall isvar fuel C,
  (forall n bits, In (n, length bits) C -> isvar (gen (pname n) bits) = false) ->
  names_distinct isvar fuel C.
Proof.
  intros isvar fuel C H [n1 b1] [n2 b2] H1 H2 E. unfold name_rs in E. cbn [fst snd] in E.
  apply cands_in in H1. apply cands_in in H2. rewrite !bump_not_var in E by (apply H; assumption).
  apply gen_pname_inj in E. destruct E as [En Eb]. subst. reflexivity.
Qed.

(** without variables at all the loop is the identity and the names are always distinct *)
Lemma names_distinct_no_vars : forall fuel C, names_distinct (fun _ => false) fuel C.
Proof. intros fuel C. apply names_distinct_not_var. reflexivity. Qed.

Lemma flatten_rs_family : forall isvar fuel f, clash_free isvar f ->
  forall F : (nat -> bool) -> bool,
    (exists rho, forall s, F s = eval_flat rho s (flatten_rs isvar fuel f)) <->
    (exists I, forall s, F s = eval_fn I s f).
Proof.
  intros isvar fuel f CF. apply flatten_rs_family_distinct, names_distinct_not_var, clash_free_occs, CF.
Qed.
