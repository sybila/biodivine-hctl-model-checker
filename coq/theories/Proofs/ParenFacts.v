(** Redundant parentheses and constant spellings at token level (property C08: redundant
    parentheses, spellings of the constants).
    Everything is derived from the grammar characterisation of the parser
    ([parse_sound] and [parse_complete] of ParserFacts.v: [parse_tokens ts = Ok t] iff [G ts t]). *)
From HCTL Require Import Base Syntax Parser.
From HCTL Require Import ParserFacts.

(** * From equal derivability to equal parser outcomes *)

Theorem parse_tokens_ext (a b : list token) :
  (forall t, G a t <-> G b t) -> parse_tokens a = parse_tokens b.
Proof.
  intro H.
  destruct (parse_tokens_benign a) as [[t Ha] | Ha].
  - rewrite Ha. symmetry. apply parse_complete, H, parse_sound, Ha.
  - destruct (parse_tokens_benign b) as [[t Hb] | Hb].
    + apply parse_sound, H, parse_complete in Hb. rewrite Hb in Ha. discriminate Ha.
    + rewrite Ha, Hb. reflexivity.
Qed.

(** * A group around an operand *)

Lemma wrap_L_U (n : nat) (ts : list token) (t : tree) : L n ts t -> U [TGroup ts] t.
Proof. intro H. apply U_group, (L_G n), H. Qed.

Lemma wrap_U_U (ts : list token) (t : tree) : U ts t -> U [TGroup ts] t.
Proof. intro H. apply U_group, U_G, H. Qed.

Lemma wrap_L_L (n m : nat) (ts : list token) (t : tree) : L n ts t -> L m [TGroup ts] t.
Proof. intro H. apply U_L, (wrap_L_U n), H. Qed.

Lemma wrap_G_G (ts : list token) (t : tree) : G ts t -> G [TGroup ts] t.
Proof. intro H. apply U_G, U_group, H. Qed.

(** ** inversion: a one-token list that is an operand *)

Definition is_operand (x : token) : Prop :=
  match x with TAtom _ | TGroup _ => True | _ => False end.

Lemma L_operand (n : nat) (x : token) (t : tree) : is_operand x -> L n [x] t -> U [x] t.
Proof.
  intros Ox H. remember [x] as l eqn:El.
  induction H as [l t HU | n o l r a b Ho _ _ _ _ | n l t _ IH];
    [exact HU | | exact (IH El)].
  apply elt_eq_unit in El. destruct El as [<- _]. destruct Ox.
Qed.

Lemma G_operand (x : token) (t : tree) : is_operand x -> G [x] t <-> U [x] t.
Proof.
  intro Ox. split; [|apply U_G].
  intro H. inversion H as [|ts t' HL]; subst; [destruct Ox | exact (L_operand 6 x t Ox HL)].
Qed.

Lemma U_group_iff (ts : list token) (t : tree) : U [TGroup ts] t <-> G ts t.
Proof. split; [intro H; inversion H; subst; assumption | apply U_group]. Qed.

Theorem G_group_iff (ts : list token) (t : tree) : G [TGroup ts] t <-> G ts t.
Proof. rewrite (G_operand (TGroup ts) t I). apply U_group_iff. Qed.

Theorem parse_group (ts : list token) : parse_tokens [TGroup ts] = parse_tokens ts.
Proof. apply parse_tokens_ext. intro t. apply G_group_iff. Qed.

(** * Replacing operands by equivalent operands, anywhere at the top level of a list *)

(** two tokens are interchangeable: equal, or both operands (atoms or groups) that stand
    for the same trees *)
Definition teq (x y : token) : Prop :=
  x = y \/ (is_operand x /\ is_operand y /\ forall t, U [x] t <-> U [y] t).

Lemma teq_refl (x : token) : teq x x.
Proof. left. reflexivity. Qed.

Lemma teq_sym (x y : token) : teq x y -> teq y x.
Proof.
  intros [-> | [Ox [Oy H]]]; [left; reflexivity|].
  right. split; [exact Oy|]. split; [exact Ox|]. intro t. symmetry. apply H.
Qed.

Lemma Forall2_teq_refl (l : list token) : Forall2 teq l l.
Proof. induction l as [|x l IH]; constructor; [apply teq_refl | exact IH]. Qed.

Lemma Forall2_teq_sym (l l' : list token) : Forall2 teq l l' -> Forall2 teq l' l.
Proof. intro H. induction H; constructor; [apply teq_sym|]; assumption. Qed.

(** an operator is only interchangeable with itself, an operand with tokens that derive the
    same trees *)
Lemma Forall2_teq_operator (x : token) (l l' : list token) :
  ~ is_operand x -> Forall2 teq (x :: l) l' -> exists l'', l' = x :: l'' /\ Forall2 teq l l''.
Proof.
  intros NO F. inversion F as [|x0 y l0 l'' [<- | [Ox _]] Fl]; subst; [|contradiction].
  exists l''. split; [reflexivity | exact Fl].
Qed.

Lemma Forall2_teq_operand (x : token) (t : tree) (l' : list token) :
  U [x] t -> Forall2 teq [x] l' -> U l' t.
Proof.
  intros HU F. inversion F as [|x0 y l0 l'' E Fl]; subst. inversion Fl; subst.
  destruct E as [<- | [_ [_ E]]]; [exact HU | apply E, HU].
Qed.

Lemma congruence_mut :
  (forall ts t, G ts t -> forall ts', Forall2 teq ts ts' -> G ts' t) /\
  (forall n ts t, L n ts t -> forall ts', Forall2 teq ts ts' -> L n ts' t) /\
  (forall ts t, U ts t -> forall ts', Forall2 teq ts ts' -> U ts' t).
Proof.
  apply GLU_mutind.
  - intros o x d ts t _ IH ts' F.
    apply Forall2_teq_operator in F; [|intros []]. destruct F as [ts'' [-> F]].
    apply G_hyb, IH, F.
  - intros ts t _ IH ts' F. apply G_expr, IH, F.
  - intros ts t _ IH ts' F. apply L_unary, IH, F.
  - intros n o l r a b Ho _ IHl _ IHr ts' F.
    apply Forall2_app_inv_l in F. destruct F as [l' [m' [Fl [Fm ->]]]].
    apply Forall2_teq_operator in Fm; [|intros []]. destruct Fm as [r' [-> Fr]].
    apply L_bin; [exact Ho | apply IHl, Fl | apply IHr, Fr].
  - intros n ts t _ IH ts' F. apply L_skip, IH, F.
  - intros o ts t _ IH ts' F.
    apply Forall2_teq_operator in F; [|intros []]. destruct F as [ts'' [-> F]].
    apply U_un, IH, F.
  - intros name ts'. apply Forall2_teq_operand, U_prop.
  - intros x ts'. apply Forall2_teq_operand, U_var.
  - intros p ts'. apply Forall2_teq_operand, U_wild.
  - intros ts t HG _ ts'. apply Forall2_teq_operand, U_group, HG.
Qed.

Theorem G_congruence (ts ts' : list token) :
  Forall2 teq ts ts' -> forall t, G ts t <-> G ts' t.
Proof.
  intros F t. split; intro H.
  - exact (proj1 congruence_mut ts t H ts' F).
  - exact (proj1 congruence_mut ts' t H ts (Forall2_teq_sym _ _ F)).
Qed.

Theorem parse_congruence (ts ts' : list token) :
  Forall2 teq ts ts' -> parse_tokens ts = parse_tokens ts'.
Proof. intro F. apply parse_tokens_ext, G_congruence, F. Qed.

(** groups with equivalent contents are interchangeable, so the replacement may be done at
    any nesting depth *)
Lemma teq_group (a b : list token) :
  (forall t, G a t <-> G b t) -> teq (TGroup a) (TGroup b).
Proof.
  intro H. right. split; [exact I|]. split; [exact I|].
  intro t. rewrite !U_group_iff. apply H.
Qed.

Lemma Forall2_teq_context (l r : list token) (x y : token) :
  teq x y -> Forall2 teq (l ++ [x] ++ r) (l ++ [y] ++ r).
Proof.
  intro E. apply Forall2_app; [apply Forall2_teq_refl|].
  apply Forall2_app; [constructor; [exact E | constructor] | apply Forall2_teq_refl].
Qed.

(** ** doubled parentheses *)

Lemma teq_double_group (ts : list token) : teq (TGroup [TGroup ts]) (TGroup ts).
Proof. apply teq_group. intro t. apply G_group_iff. Qed.

(** ** parentheses around an atom *)

Lemma teq_group_atom (a : atom) : teq (TGroup [TAtom a]) (TAtom a).
Proof.
  right. split; [exact I|]. split; [exact I|]. intro t.
  rewrite U_group_iff. apply (G_operand (TAtom a) t I).
Qed.

(** ** the spellings of the constants *)

Lemma U_prop_iff (name : str) (t : tree) :
  U [TAtom (AProp name)] t <-> t = Terminal (atom_of_prop_name name).
Proof. split; [intro H; inversion H; reflexivity | intros ->; apply U_prop]. Qed.

Lemma teq_prop (a b : str) :
  atom_of_prop_name a = atom_of_prop_name b -> teq (TAtom (AProp a)) (TAtom (AProp b)).
Proof.
  intro E. right. split; [exact I|]. split; [exact I|]. intro t.
  rewrite !U_prop_iff, E. reflexivity.
Qed.

Theorem parse_prop_spelling (l r : list token) (a b : str) :
  atom_of_prop_name a = atom_of_prop_name b ->
  parse_tokens (l ++ [TAtom (AProp a)] ++ r) = parse_tokens (l ++ [TAtom (AProp b)] ++ r).
Proof. intro E. apply parse_congruence, Forall2_teq_context, teq_prop, E. Qed.

(** * Wrapping operands of the derivation

    [GW ts ts' t]: [ts] derives [t] by [G], and [ts'] is [ts] with groups put around any
    number of operands of that derivation -- the body of a hybrid operator, either side of
    a binary operator, the operand of a unary operator, the content of a group, the whole
    formula -- at any depth.  ([LW], [UW]: the same for [L n] and [U].) *)
Inductive GW : list token -> list token -> tree -> Prop :=
| GW_hyb : forall o x d ts ts' t,
    GW ts ts' t -> GW (THyb o x d :: ts) (THyb o x d :: ts') (Hybrid o x d t)
| GW_expr : forall ts ts' t, LW 6 ts ts' t -> GW ts ts' t
| GW_wrap : forall ts ts' t, GW ts ts' t -> GW ts [TGroup ts'] t
with LW : nat -> list token -> list token -> tree -> Prop :=
| LW_unary : forall ts ts' t, UW ts ts' t -> LW 0 ts ts' t
| LW_bin : forall n o l l' r r' a b,
    op_level o = n -> LW n l l' a -> LW (S n) r r' b ->
    LW (S n) (l ++ TBin o :: r) (l' ++ TBin o :: r') (Binary o a b)
| LW_skip : forall n ts ts' t, LW n ts ts' t -> LW (S n) ts ts' t
| LW_wrap : forall n ts ts' t, LW n ts ts' t -> LW n ts [TGroup ts'] t
with UW : list token -> list token -> tree -> Prop :=
| UW_un : forall o ts ts' t, UW ts ts' t -> UW (TUn o :: ts) (TUn o :: ts') (Unary o t)
| UW_prop : forall name,
    UW [TAtom (AProp name)] [TAtom (AProp name)] (Terminal (atom_of_prop_name name))
| UW_var : forall x, UW [TAtom (AVar x)] [TAtom (AVar x)] (Terminal (AVar x))
| UW_wild : forall p, UW [TAtom (AWild p)] [TAtom (AWild p)] (Terminal (AWild p))
| UW_group : forall ts ts' t, GW ts ts' t -> UW [TGroup ts] [TGroup ts'] t
| UW_wrap : forall ts ts' t, UW ts ts' t -> UW ts [TGroup ts'] t.

Scheme GW_mind := Minimality for GW Sort Prop
  with LW_mind := Minimality for LW Sort Prop
  with UW_mind := Minimality for UW Sort Prop.
Combined Scheme GLUW_mutind from GW_mind, LW_mind, UW_mind.

Lemma wrap_mut :
  (forall ts ts' t, GW ts ts' t -> G ts t /\ G ts' t) /\
  (forall n ts ts' t, LW n ts ts' t -> L n ts t /\ L n ts' t) /\
  (forall ts ts' t, UW ts ts' t -> U ts t /\ U ts' t).
Proof.
  apply GLUW_mutind.
  - intros o x d ts ts' t _ [H H']. split; apply G_hyb; assumption.
  - intros ts ts' t _ [H H']. split; apply G_expr; assumption.
  - intros ts ts' t _ [H H']. split; [exact H | apply wrap_G_G, H'].
  - intros ts ts' t _ [H H']. split; apply L_unary; assumption.
  - intros n o l l' r r' a b Ho _ [Hl Hl'] _ [Hr Hr']. split; apply L_bin; assumption.
  - intros n ts ts' t _ [H H']. split; apply L_skip; assumption.
  - intros n ts ts' t _ [H H']. split; [exact H | apply (wrap_L_L n), H'].
  - intros o ts ts' t _ [H H']. split; apply U_un; assumption.
  - intros name. split; apply U_prop.
  - intros x. split; apply U_var.
  - intros p. split; apply U_wild.
  - intros ts ts' t _ [H H']. split; apply U_group; assumption.
  - intros ts ts' t _ [H H']. split; [exact H | apply wrap_U_U, H'].
Qed.

(** every derivation is a wrapping derivation (with no wrapping at all), so [wrap_mut]
    speaks of every accepted token list *)
Lemma wrap_refl_mut :
  (forall ts t, G ts t -> GW ts ts t) /\
  (forall n ts t, L n ts t -> LW n ts ts t) /\
  (forall ts t, U ts t -> UW ts ts t).
Proof. apply GLU_mutind; intros; constructor; assumption. Qed.
