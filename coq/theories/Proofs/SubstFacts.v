(** C10 -- pre-computed results can be substituted for sub-formulae.

    1. [subst_closed psi w t] replaces every occurrence of the sub-tree [psi] of [t] by the
       wild-card proposition [%w%]; if the context maps [w] to the meaning of [psi], the
       meaning of the formula does not change ([substitute_sat], no closedness needed; the
       version relative to a set of valuations closed under everything [sat] moves along,
       [subst_sat_inv], is what the evaluator needs: a raw result is exact inside the unit only).
    2. Evaluating the substituted formula with [w] bound to (any set that inside the unit is)
       the raw result of [psi] gives, inside the unit, the members of the result for [t]
       ([substitute_eval] and variants; the link to [eval_node]).  For a closed [psi] the raw
       result does not read the spare copies inside the unit, it can be sanitised, and the
       lifted sanitised set can be handed back ([substitute_sanitized]).
    3. With empty contexts the extended entry points are the plain ones. *)
From HCTL Require Import Base Syntax Canon MarkDup TT Ops Eval Pipeline Kripke HCTL.
From HCTL Require Import TTFacts OpsFacts KripkeFacts EvalPure Main LayoutFacts PrepFacts IndepFacts.
From HCTL Require Import ExtSem ExtFacts ExtEval ExtLink.
From HCTL Require Import BaseFacts.

Lemma tree_eq_dec (a b : tree) : {a = b} + {a <> b}.
Proof.
  destruct (tree_eqb a b) eqn:E.
  - left. apply tree_eqb_eq. exact E.
  - right. intro H. apply tree_eqb_eq in H. congruence.
Qed.

(** every occurrence of [psi] in [t] becomes [%w%] (outermost occurrences first: what is
    inside a replaced occurrence disappears with it) *)
Fixpoint subst_closed (psi : tree) (w : str) (t : tree) {struct t} : tree :=
  if tree_eqb psi t then Terminal (AWild w)
  else match t with
       | Terminal a => Terminal a
       | Unary o a => Unary o (subst_closed psi w a)
       | Binary o a b => Binary o (subst_closed psi w a) (subst_closed psi w b)
       | Hybrid o x d a => Hybrid o x d (subst_closed psi w a)
       end.

(** [w] is not a label of [t]: neither a wild-card proposition nor a quantifier domain *)
Fixpoint fresh_label (w : str) (t : tree) : Prop :=
  match t with
  | Terminal (AWild l) => l <> w
  | Terminal _ => True
  | Unary _ a => fresh_label w a
  | Binary _ a b => fresh_label w a /\ fresh_label w b
  | Hybrid _ _ d a => d <> Some w /\ fresh_label w a
  end.

(** every label of [t] outside the occurrences of [psi] satisfies [Lab] *)
Fixpoint labels_outside (psi : tree) (Lab : str -> Prop) (t : tree) {struct t} : Prop :=
  if tree_eqb psi t then True
  else match t with
       | Terminal (AWild l) => Lab l
       | Terminal _ => True
       | Unary _ a => labels_outside psi Lab a
       | Binary _ a b => labels_outside psi Lab a /\ labels_outside psi Lab b
       | Hybrid _ _ d a => (forall l, d = Some l -> Lab l) /\ labels_outside psi Lab a
       end.

(** [w] is not a label of [t] outside the occurrences of [psi] (all that the substitution
    needs) *)
Definition fresh_outside (psi : tree) (w : str) (t : tree) : Prop :=
  labels_outside psi (fun l => l <> w) t.

Lemma fresh_label_outside psi w : forall t, fresh_label w t -> fresh_outside psi w t.
Proof.
  unfold fresh_outside.
  induction t as [a | o a IH | o a IHa b IHb | o x d a IH]; intro H;
    cbn [labels_outside]; destruct (tree_eqb psi _); try exact I; cbn [fresh_label] in H.
  - exact H.
  - apply IH. exact H.
  - destruct H as [Ha Hb]. split; [apply IHa | apply IHb]; assumption.
  - destruct H as [Hd Ha]. split; [intros l -> X; apply Hd; congruence | apply IH; exact Ha].
Qed.

Lemma labels_outside_all psi (Lab : str -> Prop) : (forall l, Lab l) ->
  forall t, labels_outside psi Lab t.
Proof.
  intro H. induction t as [a | o a IH | o a IHa b IHb | o x d a IH];
    cbn [labels_outside]; destruct (tree_eqb psi _); try exact I; auto.
  destruct a; auto.
Qed.

Fixpoint subterm (psi t : tree) : Prop :=
  psi = t \/
  match t with
  | Terminal _ => False
  | Unary _ a => subterm psi a
  | Binary _ a b => subterm psi a \/ subterm psi b
  | Hybrid _ _ _ a => subterm psi a
  end.

Lemma subst_closed_self psi w : subst_closed psi w psi = Terminal (AWild w).
Proof. destruct psi; cbn [subst_closed]; rewrite tree_eqb_refl; reflexivity. Qed.

Lemma subst_closed_absent psi w : forall t, ~ subterm psi t -> subst_closed psi w t = t.
Proof.
  induction t as [a | o a IH | o a IHa b IHb | o x d a IH]; intro H; cbn [subst_closed];
    (destruct (tree_eqb psi _) eqn:E;
     [apply tree_eqb_eq in E; exfalso; apply H; left; exact E|]).
  - reflexivity.
  - rewrite IH; [reflexivity|]. intro X. apply H. right. exact X.
  - rewrite IHa, IHb; [reflexivity| |]; intro X; apply H; right; [right|left]; exact X.
  - rewrite IH; [reflexivity|]. intro X. apply H. right. exact X.
Qed.

(** the context [Gamma] with label [w] re-bound to the predicate [P] *)
Definition ctx_with (Gamma : str -> val -> Prop) (w : str) (P : val -> Prop)
  : str -> val -> Prop :=
  fun l v => if str_eqb l w then P v else Gamma l v.

Lemma ctx_with_same Gamma w P v : ctx_with Gamma w P w v <-> P v.
Proof. unfold ctx_with. rewrite str_eqb_refl. reflexivity. Qed.

Lemma ctx_with_other Gamma w P l v : l <> w -> (ctx_with Gamma w P l v <-> Gamma l v).
Proof. intro H. unfold ctx_with. rewrite (proj2 (str_eqb_neq _ _) H). reflexivity. Qed.

Section SubstSat.
Variable G : genv.
Variable names : list str.

(** a set of valuations closed under everything [sat] moves along: transitions, storing a
    state into a copy, jumping to a copy, changing the state *)
Variable Inv : val -> Prop.
Hypothesis Inv_flip : forall i v, Inv v -> Inv (vflip (TS i) v).
Hypothesis Inv_set_copy : forall e u v, Inv v -> Inv (set_copy e u v).
Hypothesis Inv_set_state : forall e v, Inv v -> Inv (set_state e v).
Hypothesis Inv_with_state : forall u v, Inv v -> Inv (with_state u v).

Variables Gamma Gamma2 : str -> val -> Prop.
Variable psi : tree.
Variable w : str.
Variable Lab : str -> Prop.
(** on that set, the new context agrees with the old one on the labels in [Lab] ... *)
Hypothesis Hother : forall l v, Lab l -> Inv v -> (Gamma2 l v <-> Gamma l v).

Lemma dom_inv d v : (forall l, d = Some l -> Lab l) -> Inv v ->
  (dom Gamma2 d v <-> dom Gamma d v).
Proof.
  intros Hd Hv. destruct d as [l|]; cbn [dom]; [|reflexivity].
  apply Hother; [apply Hd; reflexivity | exact Hv].
Qed.

(** ... and gives [w] the meaning of [psi] *)
Hypothesis Hw : forall v, Inv v -> (Gamma2 w v <-> sat G names Gamma psi v).

Theorem subst_sat_inv : forall t, labels_outside psi Lab t -> forall v, Inv v ->
  (sat G names Gamma2 (subst_closed psi w t) v <-> sat G names Gamma t v).
Proof.
  induction t as [a | o a IH | o a IHa b IHb | o x d a IH]; intros Hf v Hv;
    cbn [subst_closed labels_outside] in *;
    (destruct (tree_eqb psi _) eqn:E;
     [apply tree_eqb_eq in E; rewrite <- E; cbn [sat]; apply Hw, Hv|]).
  - destruct a as [nm | x | | | l]; cbn [sat]; try reflexivity.
    apply Hother; assumption.
  - apply (sat_unary_rel G G names Gamma2 Gamma (rel_inv Inv) eq_refl (rel_inv_en G G Inv (fun _ _ _ => eq_refl)) (rel_inv_flip Inv Inv_flip));
      [|split; [reflexivity | exact Hv]].
    intros u u' [<- Hu]. apply (IH Hf), Hu.
  - destruct Hf as [Hfa Hfb].
    apply (sat_binary_rel G G names Gamma2 Gamma (rel_inv Inv) eq_refl (rel_inv_en G G Inv (fun _ _ _ => eq_refl)) (rel_inv_flip Inv Inv_flip));
      [| |split; [reflexivity | exact Hv]]; intros u u' [<- Hu]; [apply (IHa Hfa) | apply (IHb Hfb)]; exact Hu.
  - destruct Hf as [Hd Hfa]. specialize (IH Hfa).
    assert (Dw : forall u, dom Gamma2 d (with_state u v) <-> dom Gamma d (with_state u v))
      by (intro u; apply (dom_inv d _ Hd), Inv_with_state, Hv).
    destruct o; cbn [sat]; apply ex_guard_iff; intros e He.
    + rewrite (dom_inv d v Hd Hv), (IH (set_copy e v v) (Inv_set_copy e v v Hv)). reflexivity.
    + apply IH. apply Inv_set_state. exact Hv.
    + split; intros [u [Hdu Hs]]; exists u;
        (split; [apply Dw, Hdu | apply (IH _ (Inv_set_copy e u v Hv)), Hs]).
    + split; intros Hall u Hdu; apply (IH _ (Inv_set_copy e u v Hv)), Hall, Dw, Hdu.
Qed.

End SubstSat.

(** every label of [t] satisfies [Lab] *)
Fixpoint labels_ok (Lab : str -> Prop) (t : tree) : Prop :=
  match t with
  | Terminal (AWild l) => Lab l
  | Terminal _ => True
  | Unary _ a => labels_ok Lab a
  | Binary _ a b => labels_ok Lab a /\ labels_ok Lab b
  | Hybrid _ _ d a => (forall l, d = Some l -> Lab l) /\ labels_ok Lab a
  end.

Fixpoint subst_list (ps : list (tree * str)) (t : tree) : tree :=
  match ps with
  | [] => t
  | (psi, w) :: r => subst_list r (subst_closed psi w t)
  end.

Fixpoint fresh_list (ps : list (tree * str)) (t : tree) : Prop :=
  match ps with
  | [] => True
  | (psi, w) :: r => fresh_outside psi w t /\ fresh_list r (subst_closed psi w t)
  end.

Lemma fresh_label_subst psi w w' : w' <> w -> forall t,
  fresh_label w' t -> fresh_label w' (subst_closed psi w t).
Proof.
  intro Hne. induction t as [a | o a IH | o a IHa b IHb | o x d a IH]; intro H;
    cbn [subst_closed]; (destruct (tree_eqb psi _); [cbn [fresh_label]; congruence|]);
    cbn [fresh_label] in *.
  - exact H.
  - apply IH. exact H.
  - destruct H as [Ha Hb]. split; [apply IHa | apply IHb]; assumption.
  - destruct H as [Hd Ha]. split; [exact Hd | apply IH; exact Ha].
Qed.

(** new, pairwise different labels can be used one after the other *)
Lemma fresh_list_of_labels : forall ps t, NoDup (map snd ps) ->
  (forall q, In q ps -> fresh_label (snd q) t) -> fresh_list ps t.
Proof.
  induction ps as [|[psi w] r IH]; intros t Hnd Hf; cbn [fresh_list]; [exact I|].
  cbn [map snd] in Hnd. inversion Hnd as [|? ? Hnin Hnd']; subst.
  split.
  - apply fresh_label_outside. apply (Hf (psi, w)). left. reflexivity.
  - apply IH; [exact Hnd'|]. intros q Hq. apply fresh_label_subst.
    + intro X. apply Hnin. rewrite <- X. apply in_map. exact Hq.
    + apply Hf. right. exact Hq.
Qed.

Section SubstSatAll.
Variable G : genv.
Variable names : list str.

(** C10, semantic core: re-binding [w] to the meaning of [psi] and replacing [psi] by [%w%]
    does not change the meaning of the formula, at any valuation (closedness is not needed) *)
Theorem substitute_sat Gamma psi w t : fresh_outside psi w t -> forall v,
  sat G names (ctx_with Gamma w (sat G names Gamma psi)) (subst_closed psi w t) v <->
  sat G names Gamma t v.
Proof.
  intros Hf v.
  apply (subst_sat_inv G names (fun _ => True)) with (w := w) (psi := psi) (Lab := fun l => l <> w); auto.
  - intros l v0 Hl _. apply ctx_with_other. exact Hl.
  - intros v0 _. apply ctx_with_same.
Qed.

(** two contexts that agree on the labels of the wild-card propositions in a set [uses] of
    formulae closed under sub-formulae give those formulae the same meaning *)
Lemma sat_ctx_uses Gamma Gamma2 (uses : tree -> Prop) : sub_closed uses ->
  (forall l v, uses (Terminal (AWild l)) -> (Gamma2 l v <-> Gamma l v)) ->
  forall t, uses t -> forall v, sat G names Gamma2 t v <-> sat G names Gamma t v.
Proof.
  intros Us Ho t Hu v.
  apply (sat_inv G G names Gamma2 Gamma (fun _ => True) uses eq_refl eq_refl); auto.
Qed.

Theorem sat_ctx_agree Gamma Gamma2 (Lab : str -> Prop) t :
  (forall l v, Lab l -> (Gamma2 l v <-> Gamma l v)) -> labels_ok Lab t ->
  forall v, sat G names Gamma2 t v <-> sat G names Gamma t v.
Proof.
  intro Ho. apply (sat_ctx_uses Gamma Gamma2 (labels_ok Lab)); [|exact Ho].
  split; [|split]; cbn [labels_ok]; auto.
Qed.

Corollary sat_ctx_equiv Gamma Gamma2 t : (forall l v, Gamma2 l v <-> Gamma l v) ->
  forall v, sat G names Gamma2 t v <-> sat G names Gamma t v.
Proof. intro Ho. apply (sat_ctx_uses Gamma Gamma2 (fun _ => True)); auto using sub_closed_all. Qed.

(** a label the formula does not use can be re-bound at will *)
Corollary sat_ctx_with_fresh Gamma w P t : fresh_label w t -> forall v,
  sat G names (ctx_with Gamma w P) t v <-> sat G names Gamma t v.
Proof.
  apply (sat_ctx_uses Gamma (ctx_with Gamma w P) (fresh_label w)).
  - split; [|split]; cbn [fresh_label]; auto.
    intros o x d a [Hd Ha]. split; [intros l -> E; apply Hd; congruence | exact Ha].
  - intros l v Hl. apply ctx_with_other, Hl.
Qed.

(** the context after several replacements, built one after the other: each sub-formula is
    read in the context of the replacements made before it *)
Fixpoint ctx_list (Gamma : str -> val -> Prop) (ps : list (tree * str)) : str -> val -> Prop :=
  match ps with
  | [] => Gamma
  | (psi, w) :: r => ctx_list (ctx_with Gamma w (sat G names Gamma psi)) r
  end.

Theorem substitute_sat_list : forall ps Gamma t, fresh_list ps t -> forall v,
  sat G names (ctx_list Gamma ps) (subst_list ps t) v <-> sat G names Gamma t v.
Proof.
  induction ps as [|[psi w] r IH]; intros Gamma t Hf v; cbn [ctx_list subst_list].
  - reflexivity.
  - destruct Hf as [Hf1 Hf2]. rewrite (IH _ _ Hf2 v). apply substitute_sat. exact Hf1.
Qed.

(** the context of simultaneous replacements: every sub-formula is read in the ORIGINAL
    context *)
Fixpoint ctx_all (Gamma : str -> val -> Prop) (ps : list (tree * str)) : str -> val -> Prop :=
  fun l v =>
  match ps with
  | [] => Gamma l v
  | (psi, w) :: r => if str_eqb l w then sat G names Gamma psi v else ctx_all Gamma r l v
  end.

Lemma ctx_all_ctx_with Gamma w P : forall r,
  (forall q, In q r -> snd q <> w /\ fresh_label w (fst q)) ->
  forall l v, ctx_all (ctx_with Gamma w P) r l v <->
              (if str_eqb l w then P v else ctx_all Gamma r l v).
Proof.
  induction r as [|[psi2 w2] r IH]; intros Hr l v; cbn [ctx_all].
  - unfold ctx_with. reflexivity.
  - destruct (Hr (psi2, w2) (or_introl eq_refl)) as [Hne Hfr]. cbn [fst snd] in Hne, Hfr.
    destruct (str_eqb l w2) eqn:E2.
    + apply str_eqb_eq in E2. subst l. rewrite (proj2 (str_eqb_neq _ _) Hne).
      apply sat_ctx_with_fresh. exact Hfr.
    + apply IH. intros q Hq. apply Hr. right. exact Hq.
Qed.

Lemma ctx_list_all : forall ps Gamma, NoDup (map snd ps) ->
  (forall q q', In q ps -> In q' ps -> fresh_label (snd q) (fst q')) ->
  forall l v, ctx_list Gamma ps l v <-> ctx_all Gamma ps l v.
Proof.
  induction ps as [|[psi w] r IH]; intros Gamma Hnd Hfr l v; cbn [ctx_list ctx_all].
  - reflexivity.
  - cbn [map snd] in Hnd. inversion Hnd as [|? ? Hnin Hnd']; subst.
    rewrite IH; [| exact Hnd' | intros q q' Hq Hq'; apply Hfr; right; assumption].
    apply ctx_all_ctx_with. intros q Hq. split.
    + intro X. apply Hnin. rewrite <- X. apply in_map. exact Hq.
    + apply (Hfr (psi, w) q); [left; reflexivity | right; exact Hq].
Qed.

(** C10 for several simultaneous replacements: new, pairwise different labels [w_i] that
    occur neither in [t] nor in the sub-formulae [psi_j]; label [w_i] means [psi_i] *)
Theorem substitute_sat_simultaneous ps Gamma t :
  NoDup (map snd ps) ->
  (forall q, In q ps -> fresh_label (snd q) t) ->
  (forall q q', In q ps -> In q' ps -> fresh_label (snd q) (fst q')) ->
  forall v, sat G names (ctx_all Gamma ps) (subst_list ps t) v <-> sat G names Gamma t v.
Proof.
  intros Hnd Hft Hfp v.
  rewrite <- (substitute_sat_list ps Gamma t (fresh_list_of_labels ps t Hnd Hft) v).
  apply sat_ctx_equiv. intros l v0. symmetry. apply ctx_list_all; assumption.
Qed.

End SubstSatAll.

Lemma scoped_weaken G : forall t bound bound', (forall e, In e bound' -> In e bound) ->
  scoped G bound t -> scoped G bound' t.
Proof.
  induction t as [a | o a IH | o a IHa b IHb | o x d a IH]; intros bound bound' Hi H;
    cbn [scoped] in *.
  - exact H.
  - eapply IH; eauto.
  - destruct H as [Ha Hb]. split; [eapply IHa | eapply IHb]; eauto.
  - destruct o;
      try (destruct H as [e [He [Hn Ha]]]; exists e; split; [exact He|]; split; [intro X; apply Hn, Hi, X|];
           eapply IH; [|exact Ha]; destruct d; [|exact Hi];
           intros e' [<-|X]; [left; reflexivity | right; apply Hi; exact X]).
    destruct H as [Hx Ha]. split; [exact Hx | eapply IH; eauto].
Qed.

(** a sub-formula of a well-scoped formula is well scoped at the top level *)
Lemma scoped_subterm G psi : forall t bound, scoped G bound t -> subterm psi t -> scoped G [] psi.
Proof.
  induction t as [a | o a IH | o a IHa b IHb | o x d a IH]; intros bound H Hs;
    cbn [subterm] in Hs;
    (destruct Hs as [->|Hs]; [eapply scoped_weaken; [|exact H]; intros e []|]);
    cbn [scoped] in H.
  - destruct Hs.
  - eapply IH; eauto.
  - destruct H as [Ha Hb]. destruct Hs as [Hs|Hs]; [eapply IHa | eapply IHb]; eauto.
  - destruct o; try (destruct H as [e [_ [_ Ha]]]; eapply IH; eauto).
    destruct H as [_ Ha]. eapply IH; eauto.
Qed.

Lemma scoped_subst G psi w : forall t bound, scoped G bound t ->
  scoped G bound (subst_closed psi w t).
Proof.
  induction t as [a | o a IH | o a IHa b IHb | o x d a IH]; intros bound H;
    cbn [subst_closed]; (destruct (tree_eqb psi _); [exact I|]); cbn [scoped] in *.
  - exact H.
  - apply IH. exact H.
  - destruct H as [Ha Hb]. split; [apply IHa | apply IHb]; assumption.
  - destruct o;
      try (destruct H as [e [He [Hn Ha]]]; exists e; split; [exact He|]; split; [exact Hn | apply IH; exact Ha]).
    destruct H as [Hx Ha]. split; [exact Hx | apply IH; exact Ha].
Qed.

Lemma linkable_subst psi w : linkable (Terminal (AWild w)) -> forall t, linkable t ->
  linkable (subst_closed psi w t).
Proof.
  intro Hw. induction t as [a | o a IH | o a IHa b IHb | o x d a IH]; intro H;
    cbn [subst_closed]; (destruct (tree_eqb psi _); [exact Hw|]); cbn [linkable] in *.
  - exact H.
  - apply IH. exact H.
  - destruct H as [Ha Hb]. split; [apply IHa | apply IHb]; assumption.
  - apply IH. exact H.
Qed.

Fixpoint dom_labels_ok (Lab : str -> Prop) (t : tree) : Prop :=
  match t with
  | Terminal _ => True
  | Unary _ a => dom_labels_ok Lab a
  | Binary _ a b => dom_labels_ok Lab a /\ dom_labels_ok Lab b
  | Hybrid _ _ d a => (forall l, d = Some l -> Lab l) /\ dom_labels_ok Lab a
  end.

Lemma subst_dom_labels psi w : forall t, fresh_outside psi w t ->
  dom_labels_ok (fun l => l <> w) (subst_closed psi w t).
Proof.
  unfold fresh_outside.
  induction t as [a | o a IH | o a IHa b IHb | o x d a IH]; intro H;
    cbn [subst_closed labels_outside] in *; (destruct (tree_eqb psi _); [exact I|]);
    cbn [dom_labels_ok].
  - exact I.
  - apply IH. exact H.
  - destruct H as [Ha Hb]. split; [apply IHa | apply IHb]; assumption.
  - destruct H as [Hd Ha]. split; [exact Hd | apply IH; exact Ha].
Qed.

Section Lookup.
Variable G : genv.
Variable names : list str.
Variable sw : switches.
Variable steady : tt.

Lemma peval_ext_doms_agree wild d1 d2 (Lab : str -> Prop) :
  (forall l, Lab l -> alookup str_eqb l d1 = alookup str_eqb l d2) ->
  forall t U, dom_labels_ok Lab t ->
  peval_ext G names sw steady wild d1 t U = peval_ext G names sw steady wild d2 t U.
Proof.
  intro HL. induction t as [a | o a IH | o a IHa b IHb | o x d a IH]; intros U H; cbn [dom_labels_ok] in H.
  - destruct a; reflexivity.
  - cbn [peval_ext]. rewrite (IH U H). reflexivity.
  - destruct H as [Ha Hb]. cbn [peval_ext]. rewrite (IHa U Ha), (IHb U Hb). reflexivity.
  - destruct H as [Hd Ha].
    rewrite (peval_ext_eq G names sw steady wild d1), (peval_ext_eq G names sw steady wild d2).
    destruct (use_patterns sw && is_attractor_pattern (Hybrid o x d a)); [reflexivity|].
    destruct (use_patterns sw && is_fixed_point_pattern (Hybrid o x d a)); [reflexivity|].
    destruct o; cbn [peval_ext_body]; try (rewrite (IH U Ha); reflexivity);
      (destruct d as [dl|]; [|rewrite (IH U Ha); reflexivity]);
      rewrite (HL dl (Hd dl eq_refl)); (destruct (alookup str_eqb dl d2) as [dset|]; [|reflexivity]);
      (destruct (hctl_var_id G x) as [e| | |]; cbn [bind]; [|reflexivity..]);
      (destruct (is_empty _); [reflexivity|]); rewrite (IH _ Ha); reflexivity.
Qed.

End Lookup.

Section UnitClosed.
Variable G : genv.
Variable names : list str.
Variable Utop : tt.
Hypothesis WF : wf_env G names Utop.
Local Notation L := (g_L G).
Local Notation inUnit v := (mem L Utop v = true).

Lemma inUtop_flip i v : inUnit v -> inUnit (vflip (TS i) v).
Proof. intro H. rewrite (HybridFacts.U_moves G Utop (wf_U_colour _ _ _ WF)). exact H. Qed.

(** the unit reads the colour only *)
Lemma inUtop_colour v v' : (forall j, v' (TP j) = v (TP j)) -> inUnit v -> inUnit v'.
Proof. intros Hc H. rewrite <- H. apply (wf_U_colour _ _ _ WF), Hc. Qed.

Lemma subst_sat_unit Gamma Gamma2 psi w t :
  (forall l v, l <> w -> inUnit v -> (Gamma2 l v <-> Gamma l v)) ->
  (forall v, inUnit v -> (Gamma2 w v <-> sat G names Gamma psi v)) ->
  fresh_outside psi w t -> forall v, inUnit v ->
  (sat G names Gamma2 (subst_closed psi w t) v <-> sat G names Gamma t v).
Proof.
  intros Ho Hw Hf v Hv.
  apply (subst_sat_inv G names (fun v => inUnit v) inUtop_flip
           (fun e u v0 => inUtop_colour v0 _ (fun j => eq_refl)) (fun e v0 => inUtop_colour v0 _ (fun j => eq_refl))
           (fun u v0 => inUtop_colour v0 _ (fun j => eq_refl))
           Gamma Gamma2 psi w (fun l => l <> w) Ho Hw t Hf v Hv).
Qed.

End UnitClosed.

Section SubstEval.
Variable G : genv.
Variable names : list str.
Variable Utop : tt.
Hypothesis WF : wf_env G names Utop.
Variable Gamma : str -> val -> Prop.
Variable sw : switches.
Variable wild doms : list (str * tt).
Hypothesis wild_ok : wild_sets_ok G Gamma wild.
Hypothesis doms_ok : dom_sets_ok G Gamma doms.
Local Notation L := (g_L G).
Local Notation st := (steady_of G Utop).
Local Notation inUnit v := (mem L Utop v = true).

(** the general form: [w] is bound to any set [S] that, INSIDE THE UNIT, is the meaning of
    [psi] (outside it is arbitrary); the other wild-card labels and the domain labels other
    than [w] are bound as before *)
Theorem substitute_eval_gen psi w S t wild' doms' R R' :
  scoped G [] t -> fresh_outside psi w t ->
  shaped L S -> (forall v, inUnit v -> (mem L S v = true <-> sat G names Gamma psi v)) ->
  alookup str_eqb w wild' = Some S ->
  (forall l, l <> w -> alookup str_eqb l wild' = alookup str_eqb l wild) ->
  (forall l, l <> w -> alookup str_eqb l doms' = alookup str_eqb l doms) ->
  peval_ext G names sw st wild doms t Utop = Ok R ->
  peval_ext G names sw st wild' doms' (subst_closed psi w t) Utop = Ok R' ->
  shaped L R' /\ forall v, inUnit v -> mem L R' v = mem L R v.
Proof.
  intros Hsc Hf SS ES Ew Ewild Edoms HR HR'.
  set (Gamma2 := ctx_with Gamma w (fun v => mem L S v = true)).
  assert (W2 : wild_sets_ok G Gamma2 wild').
  { intros l s El. unfold Gamma2, ctx_with. destruct (str_eqb l w) eqn:E.
    - apply str_eqb_eq in E. subst l. rewrite Ew in El. injection El as <-.
      split; [exact SS | intro v; reflexivity].
    - apply str_eqb_neq in E. rewrite (Ewild l E) in El. exact (wild_ok l s El). }
  set (doms2 := aremove str_eqb w doms').
  assert (D2 : dom_sets_ok G Gamma2 doms2).
  { intros l s El. unfold Gamma2, ctx_with, doms2 in *. destruct (str_eqb l w) eqn:E.
    - apply str_eqb_eq in E. subst l.
      rewrite (alookup_aremove_same str_eqb) in El. discriminate.
    - apply str_eqb_neq in E.
      rewrite (alookup_aremove_other str_eqb str_eqb_eq) in El by exact E.
      rewrite (Edoms l E) in El. exact (doms_ok l s El). }
  assert (HR2 : peval_ext G names sw st wild' doms2 (subst_closed psi w t) Utop = Ok R').
  { rewrite <- HR'. symmetry.
    apply (peval_ext_doms_agree G names sw st wild' doms' doms2 (fun l => l <> w));
      [|apply subst_dom_labels; exact Hf].
    intros l Hne. unfold doms2.
    rewrite (alookup_aremove_other str_eqb str_eqb_eq) by exact Hne. reflexivity. }
  destruct (peval_ext_correct G names Utop WF Gamma sw wild doms wild_ok doms_ok t R Hsc HR)
    as [_ ER].
  destruct (peval_ext_correct G names Utop WF Gamma2 sw wild' doms2 W2 D2 _ R'
              (scoped_subst G psi w t [] Hsc) HR2) as [SR' ER'].
  split; [exact SR'|].
  intros v Hv. apply eq_true_iff_eq.
  rewrite (ER' v Hv), (ER v Hv).
  apply (subst_sat_unit G names Utop WF Gamma Gamma2 psi w t); try assumption.
  - intros l v0 Hne _. apply ctx_with_other, Hne.
  - intros v0 Hv0. unfold Gamma2. rewrite ctx_with_same. apply ES, Hv0.
Qed.

(** the usual case: [w] is put in front of the wild-card sets, the domain sets stay *)
Lemma substitute_eval_cons psi w S t R R' :
  scoped G [] t -> fresh_outside psi w t ->
  shaped L S -> (forall v, inUnit v -> (mem L S v = true <-> sat G names Gamma psi v)) ->
  peval_ext G names sw st wild doms t Utop = Ok R ->
  peval_ext G names sw st ((w, S) :: wild) doms (subst_closed psi w t) Utop = Ok R' ->
  shaped L R' /\ forall v, inUnit v -> mem L R' v = mem L R v.
Proof.
  intros Hsc Hf SS ES. apply (substitute_eval_gen psi w S t ((w, S) :: wild) doms R R'); try assumption.
  - cbn [alookup]. rewrite str_eqb_refl. reflexivity.
  - intros l Hne. cbn [alookup]. rewrite (proj2 (str_eqb_neq _ _) Hne). reflexivity.
  - reflexivity.
Qed.

(** C10: [w] is bound to the raw result of [psi] *)
Theorem substitute_eval psi w t Rpsi R R' :
  scoped G [] t -> scoped G [] psi -> fresh_outside psi w t ->
  peval_ext G names sw st wild doms psi Utop = Ok Rpsi ->
  peval_ext G names sw st wild doms t Utop = Ok R ->
  peval_ext G names sw st ((w, Rpsi) :: wild) doms (subst_closed psi w t) Utop = Ok R' ->
  forall v, inUnit v -> mem L R' v = mem L R v.
Proof.
  intros Hsc Hsp Hf HP HR HR'.
  destruct (peval_ext_correct G names Utop WF Gamma sw wild doms wild_ok doms_ok psi Rpsi Hsp HP)
    as [SP EP].
  apply (substitute_eval_cons psi w Rpsi t R R'); assumption.
Qed.

(** inside the unit, for any extended closed formula whose context sets read the colour and
    the state only *)
Theorem closed_result_ignores_copies psi Rpsi :
  (forall l v w, (forall j, v (TP j) = w (TP j)) -> (forall i, v (TS i) = w (TS i)) ->
                 (Gamma l v <-> Gamma l w)) ->
  scoped G [] psi -> closed_copies G psi ->
  peval_ext G names sw st wild doms psi Utop = Ok Rpsi ->
  forall v w, inUnit v -> (forall j, v (TP j) = w (TP j)) -> (forall i, v (TS i) = w (TS i)) ->
    mem L Rpsi v = mem L Rpsi w.
Proof.
  intros HG Hsp Hcl HP v w Hv Hp Hs.
  destruct (peval_ext_correct G names Utop WF Gamma sw wild doms wild_ok doms_ok psi Rpsi Hsp HP)
    as [_ EP].
  assert (Hw : inUnit w) by (rewrite <- Hv; symmetry; apply (wf_U_colour _ _ _ WF); exact Hp).
  apply eq_true_iff_eq. rewrite (EP v Hv), (EP w Hw).
  apply sat_closed_ignores_copies; try assumption.
  apply (wf_upd_extras _ _ _ WF).
Qed.

End SubstEval.

Section Sanitized.
Variable G : genv.
Variable names : list str.
Variable Utop : tt.
Hypothesis WF : wf_env G names Utop.
Variable Gamma : str -> val -> Prop.
Variable sw : switches.
Variable wild doms : list (str * tt).
Hypothesis wild_ok : wild_sets_ok G Gamma wild.
Hypothesis doms_ok : dom_sets_ok G Gamma doms.
Local Notation L := (g_L G).
Local Notation st := (steady_of G Utop).
Local Notation inUnit v := (mem L Utop v = true).

Theorem closed_sanitize_defined psi Rpsi :
  plainf psi -> supported G psi -> closed_copies G psi ->
  peval G names sw st psi Utop = Ok Rpsi ->
  exists S0, sanitize G Rpsi = Ok S0.
Proof.
  intros Hpl Hsup Hcl HP.
  destruct (sanitize_eq_raw G names Utop WF sw psi Rpsi Hpl Hsup Hcl HP) as [S0 [E _]].
  exists S0. exact E.
Qed.

(** whenever the raw result of the plain sub-formula [psi] can be sanitised (it always can
    when [psi] is closed, [closed_sanitize_defined]), the sanitised set, lifted back to the
    layout with spare copies as the entry points lift context sets ([Pipeline.lift] is
    [expand not_extra] of the layout), can stand for [psi] *)
Theorem substitute_sanitized psi w t Rpsi S0 R R' :
  scoped G [] t -> plainf psi -> supported G psi -> fresh_outside psi w t ->
  peval G names sw st psi Utop = Ok Rpsi ->
  sanitize G Rpsi = Ok S0 ->
  peval_ext G names sw st wild doms t Utop = Ok R ->
  peval_ext G names sw st ((w, expand not_extra L S0) :: wild) doms (subst_closed psi w t) Utop
    = Ok R' ->
  forall v, inUnit v -> mem L R' v = mem L R v.
Proof.
  intros Hsc Hpl Hsup Hf HP HS HR HR'.
  destruct (peval_correct G names Utop WF Gamma sw psi Rpsi Hpl Hsup HP) as [SP EP].
  assert (SS : shaped (filter not_extra L) S0).
  { unfold sanitize in HS. destruct (restrict not_extra L Rpsi) as [s|] eqn:E; [|discriminate].
    injection HS as <-. eapply restrict_shaped; eauto. }
  destruct (sanitize_Ok_indep G Rpsi S0 HS) as [EM _].
  apply (substitute_eval_cons G names Utop WF Gamma sw wild doms wild_ok doms_ok
           psi w (expand not_extra L S0) t R R'); try assumption.
  - apply shaped_expand. exact SS.
  - intros v Hv. rewrite (mem_expand not_extra L S0 v SS), (EM v), (EP v). tauto.
Qed.

End Sanitized.

(** C10 for [eval_node], driven as the extended entry points drive it (no sub-formula
    marked as duplicate) *)
Section SubstEvalNode.
Variable G : genv.
Variable names : list str.
Variable Utop : tt.
Hypothesis WF : wf_env G names Utop.
Variable Gamma : str -> val -> Prop.
Variable sw : switches.
Local Notation L := (g_L G).
Local Notation st := (steady_of G Utop).
Local Notation inUnit v := (mem L Utop v = true).

Variable wprops dprops : list (str * tt).
Hypothesis wprops_ok : forall l s, In (l, s) wprops ->
  shaped L s /\ forall v, mem L s v = true <-> Gamma l v.
Hypothesis dprops_ok : forall l s, In (l, s) dprops ->
  shaped L s /\ extras_indep G s /\ forall v, mem L s v = true <-> Gamma l v.

(** eval_node on such a context is [peval_ext] on the stored sets *)
Lemma eval_node_is_peval_ext wp t R c' : linkable t ->
  eval_node G names sw st t Utop (extend_context wp dprops (ctx_new [])) = Ok (R, c') ->
  peval_ext G names sw st (rev wp)
            (fold_left (fun acc pd => ainsert str_eqb (fst pd) (snd pd) acc) dprops []) t Utop
    = Ok R.
Proof.
  intros Hl H.
  set (c := extend_context wp dprops (ctx_new [])) in *.
  destruct (extend_context_store wp dprops) as [HS _]. fold c in HS.
  destruct (eval_node_ext G names sw st (duplicates c) (cache c) (domain_sets c)
              (rev wp) HS t Utop c Hl (conj eq_refl (conj eq_refl eq_refl))) as [c1 [_ E]].
  rewrite E in H.
  assert (ED : domain_sets c =
               fold_left (fun acc pd => ainsert str_eqb (fst pd) (snd pd) acc) dprops []).
  { unfold c, extend_context. cbn [domain_sets set_domsets].
    rewrite extend_props_domsets. reflexivity. }
  rewrite ED in H.
  destruct (peval_ext G names sw st (rev wp) _ t Utop) as [r| | |]; cbn [bind] in H;
    try discriminate.
  injection H as <- _. reflexivity.
Qed.

Theorem substitute_eval_node psi w S t R R' c1 c2 :
  scoped G [] t -> linkable t -> linkable (Terminal (AWild w)) -> fresh_outside psi w t ->
  shaped L S -> (forall v, inUnit v -> (mem L S v = true <-> sat G names Gamma psi v)) ->
  eval_node G names sw st t Utop (extend_context wprops dprops (ctx_new [])) = Ok (R, c1) ->
  eval_node G names sw st (subst_closed psi w t) Utop
            (extend_context (wprops ++ [(w, S)]) dprops (ctx_new [])) = Ok (R', c2) ->
  forall v, inUnit v -> mem L R' v = mem L R v.
Proof.
  intros Hsc Hl Hlw Hf SS ES HR HR'.
  apply eval_node_is_peval_ext in HR; [|exact Hl].
  apply eval_node_is_peval_ext in HR'; [|apply linkable_subst; assumption].
  rewrite rev_app_distr in HR'. cbn [rev app] in HR'.
  set (DS := fold_left (fun acc pd => ainsert str_eqb (fst pd) (snd pd) acc) dprops []) in *.
  assert (W : wild_sets_ok G Gamma (rev wprops)).
  { intros l s El. apply (alookup_in str_eqb str_eqb_eq) in El. apply in_rev in El.
    apply wprops_ok. exact El. }
  assert (D : dom_sets_ok G Gamma DS).
  { intros l s El. destruct (extend_context_store wprops dprops) as [_ HD].
    apply dprops_ok. apply HD. unfold extend_context. cbn [domain_sets set_domsets].
    rewrite extend_props_domsets. exact El. }
  apply (substitute_eval_cons G names Utop WF Gamma sw (rev wprops) DS W D psi w S t R R');
    assumption.
Qed.

End SubstEvalNode.

Lemma extend_context_nil c : extend_context [] [] c = c.
Proof. destruct c. reflexivity. Qed.

Lemma eval_node_empty_context G names sw steady t U c :
  eval_node G names sw steady t U (extend_context [] [] c) = eval_node G names sw steady t U c.
Proof. rewrite extend_context_nil. reflexivity. Qed.

(** [check_trees] with empty contexts does not look at the [m_ext] switch at all: whatever the
    trees, with or without cache *)
Theorem check_trees_empty_context w k m m' ts :
  m_sanitize m = m_sanitize m' -> m_unsafe_ex m = m_unsafe_ex m' ->
  m_nocache m = m_nocache m' -> m_nopatterns m = m_nopatterns m' ->
  check_trees w k m ts [] [] = check_trees w k m' ts [] [].
Proof.
  intros H1 H2 H3 H4. unfold check_trees. rewrite H1, H2, H3, H4.
  cbn [dedup_labels fold_right map]. rewrite !extend_context_nil.
  destruct (m_ext m), (m_ext m'); reflexivity.
Qed.

(** hence the extended entry point on plain trees, in no-cache mode, is correct as the plain
    one is (C01) *)
Theorem check_trees_ext_empty_correct (w : world) (k : nat) :
  List.Forall (shaped (Lpn (w_p w) (w_n w))) (w_upd w) ->
  shaped (Lpn (w_p w) (w_n w)) (w_unit w) ->
  (forall v v', (forall j, v (TP j) = v' (TP j)) ->
     mem (Lpn (w_p w) (w_n w)) (w_unit w) v = mem (Lpn (w_p w) (w_n w)) (w_unit w) v') ->
  length (w_names w) <= w_n w ->
  forall (Gamma : str -> val -> Prop) m ts rs,
  m_ext m = true -> m_sanitize m = false -> m_unsafe_ex m = false -> m_nocache m = true ->
  List.Forall plainf ts -> List.Forall (supported (genv_of w k)) ts ->
  check_trees w k m ts [] [] = Ok rs ->
  List.Forall2 (fun t R => forall v,
     mem (g_L (genv_of w k)) R v = true <->
     (mem (g_L (genv_of w k)) (unit_of w k) v = true /\ sat (genv_of w k) (w_names w) Gamma t v))
    ts rs.
Proof.
  intros Hu Hun Hc Hn Gamma m ts rs He Hs Hx Hnc Hpl Hsup H.
  set (m' := {| m_ext := false; m_sanitize := m_sanitize m; m_unsafe_ex := m_unsafe_ex m;
                m_nocache := m_nocache m; m_nopatterns := m_nopatterns m |}).
  rewrite (check_trees_empty_context w k m m' ts eq_refl eq_refl eq_refl eq_refl) in H.
  apply (check_trees_nocache_correct w k Hu Hun Hc Hn Gamma m' ts rs); try assumption; reflexivity.
Qed.
