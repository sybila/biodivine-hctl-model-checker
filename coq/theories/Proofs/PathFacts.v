(** The fixed-point operators of Spec/Kripke.v coincide with their path definitions of
    Spec/Paths.v (C13b).

    Where a path has to be *constructed* (EG, EW from left to right, AU from right to left)
    the successor must be chosen by a function.  The hypotheses only give decidability in
    Prop ([X u \/ ~ X u]), from which no function [val -> bool] can be extracted directly;
    but the valuations reachable from a fixed valuation differ from it only in the n state
    bits, and a Boolean table of a decidable predicate over those 2^n valuations can be
    built inside a proof of an existential statement ([table]).  The path is then defined by
    recursion on nat with a successor function that uses [find] over [range n]. *)
From HCTL Require Import Base TT Ops Kripke Paths KripkeFacts TTFacts OpsFacts SemFacts Laws.

Lemma veq_refl v : veq v v.
Proof. intro g; reflexivity. Qed.
Lemma veq_sym v w : veq v w -> veq w v.
Proof. intros H g; symmetry; apply H. Qed.
Lemma veq_trans u v w : veq u v -> veq v w -> veq u w.
Proof. intros H1 H2 g; rewrite H1; apply H2. Qed.

Lemma vflip_veq g v w : veq v w -> veq (vflip g v) (vflip g w).
Proof. intros H h. unfold vflip. rewrite (H h). reflexivity. Qed.

Lemma mem_veq L t v w : veq v w -> mem L t v = mem L t w.
Proof. intro H. apply mem_agree. intros g _. apply H. Qed.

Lemma respects_mem L A : respects (fun v => mem L A v = true).
Proof. intros v w H Hv. rewrite <- (mem_veq L A v w H). exact Hv. Qed.

Lemma respects_not (P : val -> Prop) : respects P -> respects (fun w => ~ P w).
Proof. intros RP u w Huw Hu Hw. apply Hu. eapply RP; [apply veq_sym; exact Huw | exact Hw]. Qed.

Lemma respects_and (P Q : val -> Prop) : respects P -> respects Q -> respects (fun w => P w /\ Q w).
Proof. intros RP RQ u w Huw [Hp Hq]. split; [eapply RP | eapply RQ]; eassumption. Qed.

Lemma dec_not (P : val -> Prop) : (forall u, P u \/ ~ P u) -> forall u, ~ P u \/ ~ ~ P u.
Proof. intros PD u. destruct (PD u); tauto. Qed.

Lemma dec_and (P Q : val -> Prop) : (forall u, P u \/ ~ P u) -> (forall u, Q u \/ ~ Q u) ->
  forall u, (P u /\ Q u) \/ ~ (P u /\ Q u).
Proof. intros PD QD u. destruct (PD u); destruct (QD u); tauto. Qed.

(** the closure of a predicate under pointwise equality *)
Definition vcl (X : val -> Prop) (u : val) : Prop := exists u', veq u' u /\ X u'.

Lemma vcl_respects X : respects (vcl X).
Proof. intros v w H [u [Hu Xu]]. exists u. split; [eapply veq_trans; eassumption | exact Xu]. Qed.

Section PathFacts.
Variable G : genv.
Local Notation n := (g_n G).

Lemma enabled_veq i v w : veq v w -> enabled G i v = enabled G i w.
Proof. intro H. unfold enabled. rewrite (mem_veq _ _ v w H), (H (TS i)). reflexivity. Qed.

Lemma vsteady_veq v w : veq v w -> vsteady G v -> vsteady G w.
Proof. intros H Hs i Hi. rewrite <- (enabled_veq i v w H). apply Hs, Hi. Qed.

Lemma step_veq u u' w w' : veq u u' -> veq w w' -> step G u w -> step G u' w'.
Proof.
  intros Hu Hw [[i [Hi [He Hm]]]|[Hs Hm]].
  - left. exists i. split; [exact Hi|]. split; [rewrite <- (enabled_veq i u u' Hu); exact He|].
    eapply veq_trans; [apply veq_sym; exact Hw|]. eapply veq_trans; [exact Hm|]. apply vflip_veq, Hu.
  - right. split; [eapply vsteady_veq; eassumption|].
    eapply veq_trans; [apply veq_sym; exact Hw|]. eapply veq_trans; eassumption.
Qed.

Lemma step_move i v : i < n -> enabled G i v = true -> step G v (vflip (TS i) v).
Proof. intros Hi He. left. exists i. split; [exact Hi|]. split; [exact He | apply veq_refl]. Qed.

Lemma step_loop v : vsteady G v -> step G v v.
Proof. intro Hs. right. split; [exact Hs | apply veq_refl]. Qed.

Lemma EXs_step (X : val -> Prop) u : EXs G X u -> exists w, step G u w /\ X w.
Proof.
  intros [[i [Hi [He Xi]]]|[Hs Xu]].
  - exists (vflip (TS i) u). split; [apply step_move; assumption | exact Xi].
  - exists u. split; [apply step_loop; exact Hs | exact Xu].
Qed.

Lemma step_EXs (X : val -> Prop) u w : respects X -> step G u w -> X w -> EXs G X u.
Proof.
  intros RX [[i [Hi [He Hm]]]|[Hs Hm]] Xw.
  - left. exists i. split; [exact Hi|]. split; [exact He|]. eapply RX; eassumption.
  - right. split; [exact Hs|]. eapply RX; eassumption.
Qed.

Lemma AXs_step (X : val -> Prop) u w : respects X -> AXs G X u -> step G u w -> X w.
Proof.
  intros RX [A1 A2] [[i [Hi [He Hm]]]|[Hs Hm]].
  - eapply RX; [apply veq_sym; exact Hm|]. apply A1; assumption.
  - eapply RX; [apply veq_sym; exact Hm|]. apply A2; assumption.
Qed.

Lemma step_AXs (X : val -> Prop) u : (forall w, step G u w -> X w) -> AXs G X u.
Proof.
  intro H. split.
  - intros i Hi He. apply H. apply step_move; assumption.
  - intro Hs. apply H. apply step_loop; exact Hs.
Qed.

(** the operators of the specification respect pointwise equality: the simulation lemmas
    at the relation [veq] *)
Local Lemma veq_en i v w : i < n -> veq v w -> enabled G i v = enabled G i w.
Proof. intros _. apply enabled_veq. Qed.
Local Lemma veq_flip i v w : veq v w -> veq (vflip (TS i) v) (vflip (TS i) w).
Proof. apply vflip_veq. Qed.

Lemma AXs_respects (X : val -> Prop) : respects X -> respects (AXs G X).
Proof. exact (AXs_sim G G veq eq_refl veq_en veq_flip X X). Qed.

(** closing a set under pointwise equality keeps it a post-fixed point *)
Lemma AXs_vcl (X : val -> Prop) u u' : veq u' u -> AXs G X u' -> AXs G (vcl X) u.
Proof.
  apply (AXs_sim G G veq eq_refl veq_en veq_flip X (vcl X)).
  intros a b Hab Xa. exists a. split; assumption.
Qed.

Section Respect.
Variables P Q : val -> Prop.
Hypothesis RP : respects P.
Hypothesis RQ : respects Q.

Lemma EUs_respects : respects (EUs G P Q).
Proof. intros v w Hvw H. exact (EUs_sim G G veq eq_refl veq_en veq_flip P P Q Q RP RQ v H w Hvw). Qed.

Lemma AUs_respects : respects (AUs G P Q).
Proof. intros v w Hvw H. exact (AUs_sim G G veq eq_refl veq_en veq_flip P P Q Q RP RQ v H w Hvw). Qed.

Lemma EGs_respects : respects (EGs G P).
Proof. exact (EGs_sim G G veq eq_refl veq_en veq_flip P P RP). Qed.

Lemma AGs_respects : respects (AGs G P).
Proof. exact (AGs_sim G G veq eq_refl veq_en veq_flip P P RP). Qed.

Lemma EWs_respects : respects (EWs G P Q).
Proof. exact (EWs_sim G G veq eq_refl veq_en veq_flip P P Q Q RP RQ). Qed.

Lemma AWs_respects : respects (AWs G P Q).
Proof. exact (AWs_sim G G veq eq_refl veq_en veq_flip P P Q Q RP RQ). Qed.
End Respect.

(** the first enabled move; [v] itself if it is steady *)
Definition next (v : val) : val :=
  match find (fun i => enabled G i v) (range n) with
  | Some i => vflip (TS i) v
  | None => v
  end.

(** the first enabled move whose target satisfies [f]; otherwise [next v] *)
Definition nextf (f : val -> bool) (v : val) : val :=
  match find (fun i => enabled G i v && f (vflip (TS i) v)) (range n) with
  | Some i => vflip (TS i) v
  | None => next v
  end.

Lemma step_next v : step G v (next v).
Proof.
  unfold next. destruct (find (fun i => enabled G i v) (range n)) as [i|] eqn:E.
  - apply find_some in E. destruct E as [Hin He]. apply in_range in Hin. apply step_move; assumption.
  - apply step_loop. intros i Hi.
    pose proof (find_none _ _ E i (proj2 (in_range i n) Hi)) as H. exact H.
Qed.

Theorem step_total v : exists w, step G v w.
Proof. exists (next v). apply step_next. Qed.

Lemma next_steady v : vsteady G v -> next v = v.
Proof.
  intro Hs. unfold next. destruct (find (fun i => enabled G i v) (range n)) as [i|] eqn:E; [|reflexivity].
  apply find_some in E. destruct E as [Hin He]. apply in_range in Hin. rewrite (Hs i Hin) in He. discriminate.
Qed.

Lemma step_nextf f v : step G v (nextf f v).
Proof.
  unfold nextf. destruct (find (fun i => enabled G i v && f (vflip (TS i) v)) (range n)) as [i|] eqn:E.
  - apply find_some in E. destruct E as [Hin He]. apply in_range in Hin.
    apply andb_true_iff in He. destruct He as [He _]. apply step_move; assumption.
  - apply step_next.
Qed.

Lemma nextf_steady f v : vsteady G v -> nextf f v = v.
Proof.
  intro Hs. unfold nextf.
  destruct (find (fun i => enabled G i v && f (vflip (TS i) v)) (range n)) as [i|] eqn:E; [|apply next_steady, Hs].
  apply find_some in E. destruct E as [Hin He]. apply in_range in Hin. rewrite (Hs i Hin) in He. discriminate.
Qed.

Lemma nextf_found f v i : i < n -> enabled G i v = true -> f (vflip (TS i) v) = true ->
  f (nextf f v) = true.
Proof.
  intros Hi He Hf. unfold nextf.
  destruct (find (fun i => enabled G i v && f (vflip (TS i) v)) (range n)) as [j|] eqn:E.
  - apply find_some in E. destruct E as [_ Hj]. apply andb_true_iff in Hj. tauto.
  - pose proof (find_none _ _ E i (proj2 (in_range i n) Hi)) as H. cbv beta in H.
    rewrite He, Hf in H. discriminate.
Qed.

(** the path that follows [nextf f] *)
Fixpoint run (f : val -> bool) (v : val) (k : nat) : val :=
  match k with O => v | S k' => nextf f (run f v k') end.

Lemma path_run f v : path G (run f v).
Proof. intro k. cbn [run]. apply step_nextf. Qed.

Theorem path_total v : exists pi, path G pi /\ pi 0 = v.
Proof. exists (run (fun _ => true) v). split; [apply path_run | reflexivity]. Qed.

Definition shift (pi : nat -> val) : nat -> val := fun k => pi (S k).
Definition pcons (v : val) (pi : nat -> val) : nat -> val :=
  fun k => match k with O => v | S k' => pi k' end.

Lemma path_shift pi : path G pi -> path G (shift pi).
Proof. intros H k. apply (H (S k)). Qed.

Lemma path_head pi v : path G pi -> veq (pi 0) v -> step G v (pi 1).
Proof. intros Hp H0. eapply step_veq; [exact H0 | apply veq_refl | apply (Hp 0)]. Qed.

Lemma path_pcons v pi : step G v (pi 0) -> path G pi -> path G (pcons v pi).
Proof. intros Hs H k. destruct k as [|k]; [exact Hs | apply (H k)]. Qed.

(** the valuations reachable from v differ from v in the state bits only *)
Definition same_out (m : nat) (v w : val) : Prop :=
  forall g, (forall i, i < m -> g <> TS i) -> w g = v g.

Lemma same_out_veq m v w : veq w v -> same_out m v w.
Proof. intros H g _. apply H. Qed.

Lemma same_out_step v u w : same_out n v u -> step G u w -> same_out n v w.
Proof.
  intros Hu [[i [Hi [He Hm]]]|[Hs Hm]] g Hg.
  - rewrite (Hm g). unfold vflip.
    assert (E : tag_eqb g (TS i) = false) by (apply tag_eqb_neq; apply Hg; exact Hi).
    rewrite E. apply Hu; exact Hg.
  - rewrite (Hm g). apply Hu; exact Hg.
Qed.

Lemma same_out_move v u i : same_out n v u -> i < n -> enabled G i u = true ->
  same_out n v (vflip (TS i) u).
Proof. intros Hu Hi He. exact (same_out_step v u _ Hu (step_move i u Hi He)). Qed.

Lemma same_out_path v pi : path G pi -> veq (pi 0) v -> forall k, same_out n v (pi k).
Proof.
  intros Hp H0 k. induction k as [|k IH]; [apply same_out_veq; exact H0|].
  eapply same_out_step; [exact IH | apply Hp].
Qed.

Lemma same_out_split m v w : same_out (S m) v w -> same_out m (upd v (TS m) (w (TS m))) w.
Proof.
  intros Hw g Hg. unfold upd. destruct (tag_eqb g (TS m)) eqn:E.
  - apply tag_eqb_eq in E. subst g. reflexivity.
  - apply tag_eqb_neq in E. apply Hw. intros i Hi.
    destruct (Nat.eq_dec i m) as [->|Hne]; [exact E | apply Hg; lia].
Qed.

Lemma same_out_weaken m v b w : same_out m (upd v (TS m) b) w -> same_out (S m) v w.
Proof.
  intros H g Hg. rewrite (H g); [|intros i Hi; apply Hg; lia].
  unfold upd. assert (E : tag_eqb g (TS m) = false) by (apply tag_eqb_neq, Hg; lia).
  rewrite E. reflexivity.
Qed.

Lemma same_out_0 v w : same_out 0 v w -> veq v w.
Proof. intros Hw g. symmetry. apply Hw. intros i Hi. lia. Qed.

(** Boolean predicates that respect pointwise equality *)
Definition bresp (f : val -> bool) : Prop := respects (fun v => f v = true).

(** a Boolean table of a decidable predicate over the valuations that differ from v in the
    first m state bits: no choice principle is needed because there are finitely many *)
Lemma table (D : val -> Prop) : respects D -> (forall u, D u \/ ~ D u) ->
  forall m v, exists f : val -> bool,
    bresp f /\ forall w, same_out m v w -> (f w = true <-> D w).
Proof.
  intros RD Dec m. induction m as [|m IH]; intro v.
  - destruct (Dec v) as [Hd|Hd].
    + exists (fun _ => true). split; [intros u w _ _; reflexivity|]. intros w Hw.
      split; [intros _; eapply RD; [apply same_out_0; exact Hw | exact Hd] | reflexivity].
    + exists (fun _ => false). split; [intros u w _ H; exact H|]. intros w Hw.
      split; [discriminate|]. intro Hdw. exfalso. apply Hd.
      eapply RD; [apply veq_sym, same_out_0; exact Hw | exact Hdw].
  - destruct (IH (upd v (TS m) true)) as [f1 [R1 H1]]. destruct (IH (upd v (TS m) false)) as [f0 [R0 H0]].
    exists (fun w : val => if w (TS m) then f1 w else f0 w). split.
    + intros u w Huw. cbv beta. rewrite <- (Huw (TS m)).
      destruct (u (TS m)); [apply R1 | apply R0]; exact Huw.
    + intros w Hw. pose proof (same_out_split m v w Hw) as So.
      destruct (w (TS m)) eqn:Eb; [apply H1 | apply H0]; exact So.
Qed.

Lemma first_hit (Q : val -> Prop) (pi : nat -> val) : (forall u, Q u \/ ~ Q u) ->
  forall k, (exists j, j <= k /\ Q (pi j) /\ forall i, i < j -> ~ Q (pi i)) \/
            (forall i, i <= k -> ~ Q (pi i)).
Proof.
  intros Dec k. induction k as [|k IH].
  - destruct (Dec (pi 0)) as [Hq|Hq].
    + left. exists 0. split; [lia|]. split; [exact Hq|]. intros i Hi. lia.
    + right. intros i Hi. assert (i = 0) as -> by lia. exact Hq.
  - destruct IH as [[j [Hj [Hq Hb]]]|Hn].
    + left. exists j. split; [lia|]. split; assumption.
    + destruct (Dec (pi (S k))) as [Hq|Hq].
      * left. exists (S k). split; [lia|]. split; [exact Hq|]. intros i Hi. apply Hn. lia.
      * right. intros i Hi. destruct (Nat.eq_dec i (S k)) as [->|Hne]; [exact Hq | apply Hn; lia].
Qed.

Lemma until_wuntil (P Q : val -> Prop) (pi : nat -> val) : until P Q pi \/ always P pi -> wuntil P Q pi.
Proof.
  intros [[j [Hq Hp]]|Ha] k Hk; [|apply Ha].
  destruct (Nat.lt_ge_cases k j) as [Hlt|Hge]; [apply Hp; exact Hlt|].
  exfalso. apply (Hk j Hge). exact Hq.
Qed.

(** [wuntil] is the double negation of "until or always" *)
Lemma wuntil_nn (P Q : val -> Prop) (pi : nat -> val) : (forall u, Q u \/ ~ Q u) ->
  wuntil P Q pi -> ~ ~ (until P Q pi \/ always P pi).
Proof.
  intros QD Hw Hn. apply Hn. right. intro k.
  destruct (first_hit Q pi QD k) as [[j [Hj [Hq Hb]]]|Hnq]; [|apply Hw; exact Hnq].
  exfalso. apply Hn. left. exists j. split; [exact Hq|].
  intros i Hi. apply Hw. intros i' Hi'. apply Hb. lia.
Qed.

Lemma nn_wuntil (P Q : val -> Prop) (pi : nat -> val) : (forall u, P u \/ ~ P u) ->
  ~ ~ (until P Q pi \/ always P pi) -> wuntil P Q pi.
Proof.
  intros PD Hnn k Hk. destruct (PD (pi k)) as [Hp|Hp]; [exact Hp|].
  exfalso. apply Hnn. intro H. apply Hp. exact (until_wuntil P Q pi H k Hk).
Qed.

(** with the (omniscient) knowledge whether Q ever holds on the path, the disjunction *)
Lemma wuntil_until (P Q : val -> Prop) (pi : nat -> val) : (forall u, Q u \/ ~ Q u) ->
  ((exists j, Q (pi j)) \/ (forall j, ~ Q (pi j))) ->
  wuntil P Q pi -> until P Q pi \/ always P pi.
Proof.
  intros QD [[j Hq]|Hn] Hw.
  - left. destruct (first_hit Q pi QD j) as [[j' [Hj [Hq' Hb]]]|Hnq].
    + exists j'. split; [exact Hq'|]. intros i Hi. apply Hw. intros i' Hi'. apply Hb. lia.
    + exfalso. apply (Hnq j (Nat.le_refl j)). exact Hq.
  - right. intro k. apply Hw. intros i _. apply Hn.
Qed.

Lemma until_shift (P Q : val -> Prop) (pi : nat -> val) : ~ Q (pi 0) -> until P Q pi -> until P Q (shift pi).
Proof.
  intros Hn [j [Hq Hp]]. destruct j as [|j]; [contradiction|].
  exists j. split; [exact Hq|]. intros i Hi. apply (Hp (S i)). lia.
Qed.

Lemma until_pcons (P Q : val -> Prop) (v : val) (pi : nat -> val) : P v -> until P Q pi -> until P Q (pcons v pi).
Proof.
  intros Hv [j [Hq Hp]]. exists (S j). split; [exact Hq|].
  intros i Hi. destruct i as [|i]; [exact Hv | apply Hp; lia].
Qed.

(** a path inside a decidable set [X] that is post-fixed for EX wherever the guard [Gd]
    holds: it stays in [X] as long as the guard has held *)
Lemma postfixed_path (X Gd : val -> Prop) v : respects X -> (forall u, X u \/ ~ X u) ->
  (forall u, X u -> Gd u -> EXs G X u) -> X v ->
  exists pi, path G pi /\ pi 0 = v /\ forall k, (forall i, i < k -> Gd (pi i)) -> X (pi k).
Proof.
  intros RX DX HX Xv. destruct (table X RX DX n v) as [f [_ Hf]].
  exists (run f v). split; [apply path_run|]. split; [reflexivity|].
  assert (Hso : forall k, same_out n v (run f v k)).
  { apply same_out_path; [apply path_run | apply veq_refl]. }
  intro k. induction k as [|k IH]; intro Hg; [exact Xv|].
  assert (Xk : X (run f v k)) by (apply IH; intros i Hi; apply Hg; lia).
  pose proof (Hg k (Nat.lt_succ_diag_r k)) as Gk.
  cbn [run]. set (u := run f v k) in *.
  destruct (HX u Xk Gk) as [[i [Hi [He Xi]]]|[Hs _]].
  - assert (Si : same_out n v (vflip (TS i) u)).
    { apply same_out_move; [apply (Hso k) | assumption | assumption]. }
    apply (Hf _ (Hso (S k))). apply nextf_found with (i := i); [exact Hi | exact He | apply (Hf _ Si); exact Xi].
  - rewrite (nextf_steady f u Hs). exact Xk.
Qed.

Section Operators.
Variables P Q : val -> Prop.

Theorem EUs_EU_p v : EUs G P Q v -> EU_p G P Q v.
Proof.
  intro H. induction H as [v Hq | v i Hp Hi He _ [pi [Hpath [H0 Hu]]]].
  - destruct (path_total v) as [pi [Hpath H0]]. exists pi. split; [exact Hpath|].
    split; [rewrite H0; apply veq_refl|]. exists 0. split; [rewrite H0; exact Hq|]. intros i Hi. lia.
  - exists (pcons v pi). split; [|split; [apply veq_refl | apply until_pcons; assumption]].
    apply path_pcons; [|exact Hpath]. left. exists i. split; [exact Hi|]. split; [exact He | exact H0].
Qed.

Theorem EU_p_EUs v : respects P -> respects Q -> EU_p G P Q v -> EUs G P Q v.
Proof.
  intros RP RQ [pi [Hpath [H0 [j [Hq Hp]]]]]. revert pi v Hpath H0 Hq Hp.
  induction j as [|j IH]; intros pi v Hpath H0 Hq Hp.
  - apply EUs_here. eapply RQ; eassumption.
  - assert (Pv : P v) by (eapply RP; [exact H0 | apply Hp; lia]).
    pose proof (path_head pi v Hpath H0) as St.
    assert (T : forall w, veq (pi 1) w -> EUs G P Q w).
    { intros w Hw. apply (IH (shift pi) w); [apply path_shift; exact Hpath | exact Hw | exact Hq |].
      intros i Hi. apply (Hp (S i)). lia. }
    destruct St as [[i [Hi [He Hm]]]|[Hs Hm]].
    + apply EUs_step with (i := i); [exact Pv | exact Hi | exact He | apply T; exact Hm].
    + apply T. exact Hm.
Qed.

Theorem AUs_AU_p v : respects P -> respects Q -> AUs G P Q v -> AU_p G P Q v.
Proof.
  intros RP RQ H. induction H as [v Hq | v Hp Hm IHm Hs IHs]; intros pi Hpath H0.
  - exists 0. split; [eapply RQ; [apply veq_sym; exact H0 | exact Hq]|]. intros i Hi. lia.
  - pose proof (path_head pi v Hpath H0) as St.
    assert (T : until P Q (shift pi) -> until P Q pi).
    { intro Hu. assert (E : until P Q (pcons (pi 0) (shift pi))).
      { apply until_pcons; [eapply RP; [apply veq_sym; exact H0 | exact Hp] | exact Hu]. }
      destruct E as [j [Hq Hb]]. exists j. split.
      - destruct j as [|j]; exact Hq.
      - intros i Hi. specialize (Hb i Hi). destruct i as [|i]; exact Hb. }
    apply T. destruct St as [[i [Hi [He Hmv]]]|[Hst Hmv]].
    + apply (IHm i Hi He); [apply path_shift; exact Hpath | exact Hmv].
    + apply (IHs Hst); [apply path_shift; exact Hpath | exact Hmv].
Qed.

(** the converse constructs a path that violates the until from a valuation outside AUs:
    this needs to know, at every valuation, whether it belongs to AUs *)
Theorem AU_p_AUs v : respects P -> respects Q -> (forall u, AUs G P Q u \/ ~ AUs G P Q u) ->
  AU_p G P Q v -> AUs G P Q v.
Proof.
  intros RP RQ Dec H. destruct (Dec v) as [Hv|Hv]; [exact Hv | exfalso].
  destruct (postfixed_path (fun u => ~ AUs G P Q u) P v
              (respects_not _ (AUs_respects P Q RP RQ)) (dec_not _ Dec)) as [pi [Hpath [H0 Inv]]]; [|exact Hv|].
  - (* outside AUs, with P: some successor is outside AUs *)
    intros u Yu Pu.
    destruct (finite_search (fun i => enabled G i u = true -> AUs G P Q (vflip (TS i) u)) n) as [All|[i [Hi Hni]]].
    + intros i Hi. destruct (enabled G i u) eqn:He.
      * destruct (Dec (vflip (TS i) u)) as [X|X]; [left; intros _; exact X | right; intro Z; apply X, Z; reflexivity].
      * left. discriminate.
    + destruct (vsteady_dec G u) as [Hs|Hs]; [right; split; assumption | exfalso].
      apply Yu. apply AUs_step; [exact Pu | exact All | intro; contradiction].
    + destruct (enabled G i u) eqn:He; [|exfalso; apply Hni; discriminate].
      left. exists i. split; [exact Hi|]. split; [exact He|]. intro Z. apply Hni. intros _. exact Z.
  - destruct (H pi Hpath) as [j [Hq Hb]]; [rewrite H0; apply veq_refl|].
    apply (Inv j Hb). apply AUs_here. exact Hq.
Qed.

End Operators.

Section OperatorsG.
Variable P : val -> Prop.

Theorem EGs_EG_p v : respects P -> (forall u, EGs G P u \/ ~ EGs G P u) ->
  EGs G P v -> EG_p G P v.
Proof.
  intros RP Dec Hv.
  destruct (postfixed_path (EGs G P) (fun _ => True) v (EGs_respects P RP) Dec) as [pi [Hpath [H0 Hk]]].
  - intros u Hu _. apply (EGs_unfold G P u) in Hu. tauto.
  - exact Hv.
  - exists pi. split; [exact Hpath|]. split; [rewrite H0; apply veq_refl|].
    intro k. specialize (Hk k (fun _ _ => I)). apply (EGs_unfold G P) in Hk. tauto.
Qed.

Theorem EG_p_EGs v : respects P -> EG_p G P v -> EGs G P v.
Proof.
  intros RP Hv. exists (EG_p G P). split; [exact Hv|].
  intros u [pi [Hpath [H0 Ha]]]. split; [eapply RP; [exact H0 | apply Ha]|].
  pose proof (path_head pi u Hpath H0) as St.
  assert (T : forall w, veq (pi 1) w -> EG_p G P w).
  { intros w Hw. exists (shift pi). split; [apply path_shift; exact Hpath|]. split; [exact Hw|].
    intro k. apply (Ha (S k)). }
  destruct St as [[i [Hi [He Hm]]]|[Hs Hm]].
  - left. exists i. split; [exact Hi|]. split; [exact He | apply T; exact Hm].
  - right. split; [exact Hs | apply T; exact Hm].
Qed.

End OperatorsG.

Section OperatorsW.
Variables P Q : val -> Prop.

Theorem EW_p_EWs v : respects P -> respects Q -> EW_p G P Q v -> EWs G P Q v.
Proof.
  intros RP RQ [pi [Hpath [H0 [Hu|Ha]]]].
  - assert (E : EUs G P Q v) by (apply EU_p_EUs; [exact RP | exact RQ | exists pi; auto]).
    exists (EUs G P Q). split; [exact E|]. intros u Hu'. apply (EUs_unfold G P Q u). exact Hu'.
  - assert (E : EGs G P v) by (apply EG_p_EGs; [exact RP | exists pi; auto]).
    destruct E as [X [Xv HX]]. exists X. split; [exact Xv|]. intros u Xu. right. apply HX, Xu.
Qed.

(** left to right a path is constructed, and one of the two disjuncts has to be announced
    for it: decide E[P U Q] at the start, then stay inside EG P *)
Theorem EWs_EW_p v : respects P ->
  (forall u, EUs G P Q u \/ ~ EUs G P Q u) -> (forall u, EGs G P u \/ ~ EGs G P u) ->
  EWs G P Q v -> EW_p G P Q v.
Proof.
  intros RP DU DG Hv. apply (EW_split G P Q v DU) in Hv. destruct Hv as [Hu|Hg].
  - destruct (EUs_EU_p P Q v Hu) as [pi [Hpath [H0 H]]]. exists pi. auto.
  - destruct (EGs_EG_p P v RP DG Hg) as [pi [Hpath [H0 H]]]. exists pi. auto.
Qed.

Theorem AWs_AW_w v : respects P -> respects Q -> AWs G P Q v -> AW_w G P Q v.
Proof.
  intros RP RQ [X [Xv HX]] pi Hpath H0.
  assert (Inv : forall k, (forall i, i < k -> ~ Q (pi i)) -> vcl X (pi k)).
  { induction k as [|k IH]; intro Hn; [exists v; split; [apply veq_sym; exact H0 | exact Xv]|].
    destruct IH as [u [Hu Xu]]; [intros i Hi; apply Hn; lia|].
    destruct (HX u Xu) as [Qu|[_ HA]].
    - exfalso. apply (Hn k (Nat.lt_succ_diag_r k)). eapply RQ; eassumption.
    - eapply AXs_step; [apply vcl_respects | eapply AXs_vcl; [exact Hu | exact HA] | apply Hpath]. }
  intros k Hk. destruct (Inv k) as [u [Hu Xu]]; [intros i Hi; apply Hk; lia|].
  destruct (HX u Xu) as [Qu|[Pu _]].
  - exfalso. apply (Hk k (Nat.le_refl k)). eapply RQ; eassumption.
  - eapply RP; eassumption.
Qed.

Theorem AW_w_AWs v : (forall u, Q u \/ ~ Q u) -> AW_w G P Q v -> AWs G P Q v.
Proof.
  intros QD Hv. exists (AW_w G P Q). split; [exact Hv|].
  intros u Hu. destruct (QD u) as [Qu|Qu]; [left; exact Qu | right]. split.
  - destruct (path_total u) as [pi [Hpath H0]].
    pose proof (Hu pi Hpath) as H. rewrite H0 in H. specialize (H (veq_refl u) 0). rewrite H0 in H.
    apply H. intros i Hi. assert (i = 0) as -> by lia. rewrite H0. exact Qu.
  - apply step_AXs. intros w Hs pi Hpath H0 k Hk.
    assert (Hp : path G (pcons u pi)).
    { apply path_pcons; [|exact Hpath]. eapply step_veq; [apply veq_refl | apply veq_sym; exact H0 | exact Hs]. }
    apply (Hu (pcons u pi) Hp (veq_refl u) (S k)).
    intros i Hi. destruct i as [|i]; [exact Qu | apply Hk; lia].
Qed.

Theorem AW_p_AW_w v : AW_p G P Q v -> AW_w G P Q v.
Proof. intros H pi Hpath H0. apply until_wuntil. apply H; assumption. Qed.

Theorem AW_p_AWs v : (forall u, Q u \/ ~ Q u) -> AW_p G P Q v -> AWs G P Q v.
Proof. intros QD H. apply AW_w_AWs; [exact QD | apply AW_p_AW_w; exact H]. Qed.

Theorem AWs_AW_nn v : respects P -> respects Q -> (forall u, Q u \/ ~ Q u) ->
  AWs G P Q v -> AW_nn G P Q v.
Proof.
  intros RP RQ QD H pi Hpath H0. apply wuntil_nn; [exact QD|].
  apply (AWs_AW_w v RP RQ H); assumption.
Qed.

Theorem AW_nn_AWs v : (forall u, P u \/ ~ P u) -> (forall u, Q u \/ ~ Q u) ->
  AW_nn G P Q v -> AWs G P Q v.
Proof.
  intros PD QD H. apply AW_w_AWs; [exact QD|]. intros pi Hpath H0.
  apply nn_wuntil; [exact PD | apply H; assumption].
Qed.

(** the disjunctive form for all paths needs to know, for every path, whether Q ever holds
    on it; this instance of the limited principle of omniscience is not provable (see the
    comment at C13b_aw_partial) *)
Theorem AWs_AW_p v : respects P -> respects Q -> (forall u, Q u \/ ~ Q u) ->
  (forall pi, path G pi -> (exists j, Q (pi j)) \/ (forall j, ~ Q (pi j))) ->
  AWs G P Q v -> AW_p G P Q v.
Proof.
  intros RP RQ QD Omn H pi Hpath H0. apply wuntil_until; [exact QD | apply Omn; exact Hpath|].
  apply (AWs_AW_w v RP RQ H); assumption.
Qed.

End OperatorsW.
(** AG P is A[P W false] *)
Theorem AGs_AG_p P v : respects P -> AGs G P v -> AG_p G P v.
Proof.
  intros RP H pi Hpath H0 k.
  apply (AWs_AW_w P (fun _ => False) v RP (fun _ _ _ F => F) (proj1 (AGs_AWs G P v) H) pi Hpath H0 k).
  intros i _ F. exact F.
Qed.

Theorem AG_p_AGs P v : AG_p G P v -> AGs G P v.
Proof.
  intro H. apply AGs_AWs, AW_w_AWs; [right; intro F; exact F|].
  intros pi Hpath H0 k _. exact (H pi Hpath H0 k).
Qed.

End PathFacts.
