(** Semantic characterisation of the symbolic operators of Model/Ops.v against Spec/Kripke.v. *)
From HCTL Require Import Base TT Ops Kripke TTFacts.

Lemma in_range i m : In i (range m) <-> i < m.
Proof.
  induction m as [|m IH]; simpl; [split; [tauto|lia]|].
  rewrite in_app_iff, IH. simpl. split; [intros [H|[H|[]]]; lia | intro H].
  destruct (Nat.eq_dec i m); [right; left; congruence | left; lia].
Qed.

Section OpsFacts.
Variable G : genv.
Let L := g_L G.
Let n := g_n G.

Hypothesis L_nodup : NoDup L.
Hypothesis upd_shaped : forall i, shaped L (upd_of G i).
Hypothesis TS_in : forall i, i < n -> In (TS i) L.

Lemma shaped_empty : shaped L (empty G).
Proof. apply shaped_const. Qed.
Lemma shaped_full : shaped L (full G).
Proof. apply shaped_const. Qed.
Lemma mem_empty v : mem L (empty G) v = false.
Proof. apply mem_const. Qed.
Lemma mem_full v : mem L (full G) v = true.
Proof. apply mem_const. Qed.

Lemma shaped_can_update i : shaped L (can_update G i).
Proof. unfold can_update. auto with shaped. Qed.

Lemma mem_can_update i v : i < n -> mem L (can_update G i) v = enabled G i v.
Proof.
  intro Hi. unfold can_update, enabled. fold L.
  rewrite mem_txor by auto with shaped.
  rewrite mem_lit by auto. reflexivity.
Qed.

Lemma shaped_var_pre i S : shaped L S -> shaped L (var_pre G i S).
Proof. intro H. unfold var_pre. auto using shaped_can_update with shaped. Qed.

Lemma mem_var_pre i S v : i < n -> shaped L S ->
  mem L (var_pre G i S) v = mem L S (vflip (TS i) v) && enabled G i v.
Proof.
  intros Hi HS. unfold var_pre. fold L.
  rewrite mem_tand by auto using shaped_can_update with shaped.
  rewrite mem_flip by assumption. rewrite mem_can_update by assumption. reflexivity.
Qed.

Lemma mem_fold_tor (f : nat -> tt) l : forall acc v,
  shaped L acc -> (forall i, shaped L (f i)) ->
  (mem L (fold_left (fun a i => tor a (f i)) l acc) v = true <->
   mem L acc v = true \/ exists i, In i l /\ mem L (f i) v = true).
Proof.
  induction l as [|x l IH]; intros acc v Ha Hf; simpl.
  - split; [auto | intros [H|[i [[] _]]]; assumption].
  - rewrite IH by auto with shaped.
    rewrite mem_tor by auto. rewrite orb_true_iff. split.
    + intros [[H|H]|[i [Hi H]]]; [left; assumption | right; exists x; auto | right; exists i; auto].
    + intros [H|[i [[->|Hi] H]]]; [left; left; assumption | left; right; assumption | right; exists i; auto].
Qed.

Lemma shaped_pre S : shaped L S -> shaped L (pre G S).
Proof.
  intro H. unfold pre. apply shaped_fold_map2; [apply shaped_empty | intro i; apply shaped_var_pre; exact H].
Qed.

Lemma mem_pre S v : shaped L S ->
  (mem L (pre G S) v = true <-> moves G (fun w => mem L S w = true) v).
Proof.
  intro HS. unfold pre. fold L.
  rewrite mem_fold_tor by (try apply shaped_empty; intro; apply shaped_var_pre; assumption).
  rewrite mem_empty. unfold moves. fold n. split.
  - intros [H|[i [Hi H]]]; [discriminate|].
    apply in_range in Hi. rewrite mem_var_pre in H by assumption.
    apply andb_true_iff in H. destruct H as [H1 H2]. exists i; auto.
  - intros [i [Hi [He Hm]]]. right. exists i. split; [apply in_range; exact Hi|].
    rewrite mem_var_pre by assumption. fold L in Hm. rewrite Hm, He. reflexivity.
Qed.

Lemma mem_fold_minus (f : nat -> tt) l : forall acc v,
  shaped L acc -> (forall i, shaped L (f i)) ->
  (mem L (fold_left (fun a i => tminus a (f i)) l acc) v = true <->
   mem L acc v = true /\ forall i, In i l -> mem L (f i) v = false).
Proof.
  intros acc v Ha Hf. unfold tminus.
  rewrite (mem_fold_map2_and _ negb L f l (fun _ _ => eq_refl)) by assumption.
  split; intros [H1 H2]; (split; [exact H1|]); intros i Hi; apply negb_true_iff, H2, Hi.
Qed.

Lemma shaped_steady_of U : shaped L U -> shaped L (steady_of G U).
Proof.
  intro H. unfold steady_of. apply shaped_fold_map2; [exact H | intro; apply shaped_can_update].
Qed.

Lemma mem_steady_of U v : shaped L U ->
  (mem L (steady_of G U) v = true <-> mem L U v = true /\ vsteady G v).
Proof.
  intro HU. unfold steady_of. fold L.
  rewrite mem_fold_minus by (try assumption; intro; apply shaped_can_update).
  unfold vsteady. fold n. split; intros [H1 H2]; split; try assumption.
  - intros i Hi. rewrite <- mem_can_update by assumption. apply H2, in_range, Hi.
  - intros i Hi. apply in_range in Hi. rewrite mem_can_update by assumption. auto.
Qed.

Lemma shaped_eval_neg U S : shaped L U -> shaped L S -> shaped L (eval_neg U S).
Proof. intros; unfold eval_neg; auto with shaped. Qed.

Lemma mem_eval_neg U S v : shaped L U -> shaped L S ->
  mem L (eval_neg U S) v = mem L U v && negb (mem L S v).
Proof. intros; unfold eval_neg; apply mem_tminus; assumption. Qed.

Lemma shaped_eval_ex S st : shaped L S -> shaped L st -> shaped L (eval_ex G S st).
Proof. intros; unfold eval_ex; auto using shaped_pre with shaped. Qed.

Lemma mem_eval_ex S st v : shaped L S -> shaped L st ->
  (mem L (eval_ex G S st) v = true <->
   moves G (fun w => mem L S w = true) v \/ (mem L S v = true /\ mem L st v = true)).
Proof.
  intros HS Hst. unfold eval_ex. fold L.
  rewrite mem_tor by auto using shaped_pre with shaped.
  rewrite orb_true_iff, mem_pre by assumption.
  rewrite mem_tand by assumption. rewrite andb_true_iff. reflexivity.
Qed.

Lemma shaped_eval_ax U S st : shaped L U -> shaped L S -> shaped L st -> shaped L (eval_ax G U S st).
Proof. intros; unfold eval_ax; auto using shaped_eval_neg, shaped_eval_ex. Qed.

End OpsFacts.

#[export] Hint Resolve shaped_empty shaped_full shaped_can_update shaped_var_pre shaped_pre
  shaped_steady_of shaped_eval_neg shaped_eval_ex shaped_eval_ax : shaped.
