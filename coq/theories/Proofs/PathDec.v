(** The fixed-point operators of Spec/Kripke.v are decidable for decidable arguments.

    The valuations reachable from a valuation v differ from it only in the n state bits, so
    a least fixed point over them is reached after at most 2^n rounds of the unfolding;
    the count uses a cardinality defined by recursion over the state bits (no lists, no
    pigeonhole).  Greatest fixed points follow through the dualities of SemFacts.

    With this, the path characterisations of PathFacts need only that the argument
    predicates are decidable and respect pointwise equality. *)
From HCTL Require Import Base TT Ops Kripke Paths KripkeFacts TTFacts OpsFacts SemFacts Laws PathFacts.

Lemma iff_dec (A B : Prop) : (A <-> B) -> A \/ ~ A -> B \/ ~ B.
Proof. tauto. Qed.

(** number of valuations, among those differing from v in the first m state bits, that
    satisfy f *)
Fixpoint count_sat (m : nat) (v : val) (f : val -> bool) : nat :=
  match m with
  | O => if f v then 1 else 0
  | S m' => count_sat m' (upd v (TS m') true) f + count_sat m' (upd v (TS m') false) f
  end.

Lemma count_sat_le_pow m : forall v f, count_sat m v f <= 2 ^ m.
Proof.
  induction m as [|m IH]; intros v f; cbn [count_sat].
  - destruct (f v); simpl; lia.
  - rewrite Nat.pow_succ_r'. pose proof (IH (upd v (TS m) true) f). pose proof (IH (upd v (TS m) false) f). lia.
Qed.

Lemma count_sat_mono m : forall v f g,
  (forall w, same_out m v w -> f w = true -> g w = true) -> count_sat m v f <= count_sat m v g.
Proof.
  induction m as [|m IH]; intros v f g H; cbn [count_sat].
  - destruct (f v) eqn:Ef; [|destruct (g v); lia].
    rewrite (H v (same_out_veq 0 v v (veq_refl v)) Ef). lia.
  - apply Nat.add_le_mono; apply IH; intros w Hw; apply H; eapply same_out_weaken; exact Hw.
Qed.

(** a subset with at least as many elements is the whole set *)
Lemma count_sat_full m : forall v f g, bresp f -> bresp g ->
  (forall w, same_out m v w -> f w = true -> g w = true) -> count_sat m v g <= count_sat m v f ->
  forall w, same_out m v w -> g w = true -> f w = true.
Proof.
  induction m as [|m IH]; intros v f g Rf Rg Hfg Hc w Hw Hg.
  - pose proof (same_out_0 v w Hw) as E. cbn [count_sat] in Hc.
    assert (Gv : g v = true) by (eapply Rg; [apply veq_sym; exact E | exact Hg]).
    rewrite Gv in Hc. destruct (f v) eqn:Ef; [|lia]. eapply Rf; [exact E | exact Ef].
  - cbn [count_sat] in Hc.
    assert (M : forall b, count_sat m (upd v (TS m) b) f <= count_sat m (upd v (TS m) b) g).
    { intro b. apply count_sat_mono. intros u Hu. apply Hfg. eapply same_out_weaken; exact Hu. }
    pose proof (M true). pose proof (M false).
    apply (IH (upd v (TS m) (w (TS m))) f g Rf Rg).
    + intros u Hu. apply Hfg. eapply same_out_weaken; exact Hu.
    + destruct (w (TS m)); lia.
    + apply same_out_split; exact Hw.
    + exact Hg.
Qed.

(** least fixed points over the valuations reachable from v0 *)
Section Lfp.
Variable G : genv.
Local Notation n := (g_n G).
Variable v0 : val.
Local Notation region u := (same_out n v0 u).
Variable F : (val -> bool) -> (val -> bool).
Hypothesis F_resp : forall X, bresp X -> bresp (F X).
Hypothesis F_mono : forall X Y : val -> bool, (forall u, region u -> X u = true -> Y u = true) ->
  forall u, region u -> F X u = true -> F Y u = true.

Fixpoint iter (k : nat) : val -> bool :=
  match k with O => fun _ => false | S k' => F (iter k') end.

Lemma iter_resp k : bresp (iter k).
Proof. induction k as [|k IH]; [intros u w _ H; exact H | apply F_resp, IH]. Qed.

Lemma iter_incr k : forall u, region u -> iter k u = true -> iter (S k) u = true.
Proof.
  induction k as [|k IH]; intros u Hu H; [discriminate|].
  cbn [iter] in *. eapply F_mono; [exact IH | exact Hu | exact H].
Qed.

Definition stable (k : nat) : Prop := forall u, region u -> iter (S k) u = true -> iter k u = true.

Lemma grow k : (exists j, j < k /\ stable j) \/ k <= count_sat n v0 (iter k).
Proof.
  induction k as [|k IH]; [right; lia|].
  destruct IH as [[j [Hj Hs]]|Hc]; [left; exists j; split; [lia | exact Hs]|].
  destruct (Nat.le_gt_cases (count_sat n v0 (iter (S k))) (count_sat n v0 (iter k))) as [Hle|Hgt]; [|right; lia].
  left. exists k. split; [lia|]. intros u Hu H.
  eapply (count_sat_full n v0 (iter k) (iter (S k))); [apply iter_resp | apply iter_resp | apply iter_incr | exact Hle | exact Hu | exact H].
Qed.

Lemma exists_stable : exists k, stable k.
Proof.
  destruct (grow (S (2 ^ n))) as [[j [_ Hs]]|Hc]; [exists j; exact Hs|].
  pose proof (count_sat_le_pow n v0 (iter (S (2 ^ n)))). lia.
Qed.
(** a predicate [I] that is the least one closed under the unfolding, on the region, is
    decided at [v0] by the stable iterate: sound by induction on the iterate, complete by
    the induction principle of [I] *)
Variable I : val -> Prop.
Hypothesis I_closed : forall X : val -> bool, (forall u, region u -> X u = true -> I u) ->
  forall u, region u -> F X u = true -> I u.
Hypothesis I_least : forall X : val -> bool, (forall u, region u -> F X u = true -> X u = true) ->
  forall u, I u -> region u -> X u = true.

Lemma lfp_dec : I v0 \/ ~ I v0.
Proof.
  destruct exists_stable as [k Hk].
  assert (Sound : forall j u, region u -> iter j u = true -> I u).
  { induction j as [|j IH]; intros u Hu H; [discriminate | exact (I_closed (iter j) IH u Hu H)]. }
  pose proof (same_out_veq n v0 v0 (veq_refl v0)) as Hv.
  destruct (iter k v0) eqn:E; [left; exact (Sound k v0 Hv E) | right].
  intro H. rewrite (I_least (iter k) Hk v0 H Hv) in E. discriminate.
Qed.
End Lfp.

Section Unfoldings.
Variable G : genv.
Local Notation n := (g_n G).

Definition FEU (p q : val -> bool) (X : val -> bool) (u : val) : bool :=
  q u || (p u && existsb (fun i => enabled G i u && X (vflip (TS i) u)) (range n)).

Definition FAU (p q : val -> bool) (X : val -> bool) (u : val) : bool :=
  q u || (p u && (forallb (fun i => negb (enabled G i u) || X (vflip (TS i) u)) (range n)
                  && (negb (forallb (fun i => negb (enabled G i u)) (range n)) || X u))).

Lemma FEU_spec p q X u : FEU p q X u = true <->
  q u = true \/ (p u = true /\ exists i, i < n /\ enabled G i u = true /\ X (vflip (TS i) u) = true).
Proof.
  unfold FEU. rewrite orb_true_iff, andb_true_iff, existsb_exists. split.
  - intros [Hq|[Hp [i [Hin Hi]]]]; [left; exact Hq | right]. split; [exact Hp|].
    apply andb_true_iff in Hi. exists i. split; [apply in_range; exact Hin | exact Hi].
  - intros [Hq|[Hp [i [Hi [He Hx]]]]]; [left; exact Hq | right]. split; [exact Hp|].
    exists i. split; [apply in_range; exact Hi | rewrite He, Hx; reflexivity].
Qed.

Lemma steadyb_spec u : forallb (fun i => negb (enabled G i u)) (range n) = true <-> vsteady G u.
Proof.
  rewrite forallb_forall. split.
  - intros H i Hi. specialize (H i (proj2 (in_range i n) Hi)). apply negb_true_iff in H. exact H.
  - intros H i Hi. apply in_range in Hi. rewrite (H i Hi). reflexivity.
Qed.

Lemma FAU_spec p q X u : FAU p q X u = true <->
  q u = true \/ (p u = true /\ AXs G (fun w => X w = true) u).
Proof.
  unfold FAU, AXs. rewrite orb_true_iff, !andb_true_iff, forallb_forall, orb_true_iff, negb_true_iff.
  split.
  - intros [Hq|[Hp [Hm Hs]]]; [left; exact Hq | right]. split; [exact Hp|]. split.
    + intros i Hi He. specialize (Hm i (proj2 (in_range i n) Hi)). rewrite He in Hm. exact Hm.
    + intro Hst. destruct Hs as [Hs|Hs]; [|exact Hs]. apply steadyb_spec in Hst. congruence.
  - intros [Hq|[Hp [Hm Hs]]]; [left; exact Hq | right]. split; [exact Hp|]. split.
    + intros i Hi. apply in_range in Hi. destruct (enabled G i u) eqn:He; [|reflexivity].
      cbn [negb orb]. apply Hm; assumption.
    + destruct (forallb (fun i => negb (enabled G i u)) (range n)) eqn:E; [|left; reflexivity].
      right. apply Hs. apply steadyb_spec. exact E.
Qed.

Lemma FEU_resp p q X : bresp p -> bresp q -> bresp X -> bresp (FEU p q X).
Proof.
  intros Rp Rq RX u w Huw H. apply FEU_spec in H. apply FEU_spec.
  destruct H as [Hq|[Hp [i [Hi [He Hx]]]]]; [left; eapply Rq; eassumption | right].
  split; [eapply Rp; eassumption|]. exists i. split; [exact Hi|]. split.
  - rewrite <- (enabled_veq G i u w Huw). exact He.
  - eapply RX; [apply vflip_veq; exact Huw | exact Hx].
Qed.

Lemma FAU_resp p q X : bresp p -> bresp q -> bresp X -> bresp (FAU p q X).
Proof.
  intros Rp Rq RX u w Huw H. apply FAU_spec in H. apply FAU_spec.
  destruct H as [Hq|[Hp Ha]]; [left; eapply Rq; eassumption | right].
  split; [eapply Rp; eassumption | exact (AXs_respects G _ RX u w Huw Ha)].
Qed.

Lemma FEU_mono v0 p q (X Y : val -> bool) :
  (forall u, same_out n v0 u -> X u = true -> Y u = true) ->
  forall u, same_out n v0 u -> FEU p q X u = true -> FEU p q Y u = true.
Proof.
  intros HXY u Hu H. apply FEU_spec in H. apply FEU_spec.
  destruct H as [Hq|[Hp [i [Hi [He Hx]]]]]; [left; exact Hq | right].
  split; [exact Hp|]. exists i. split; [exact Hi|]. split; [exact He|].
  apply HXY; [|exact Hx]. apply same_out_move; assumption.
Qed.

Lemma FAU_mono v0 p q (X Y : val -> bool) :
  (forall u, same_out n v0 u -> X u = true -> Y u = true) ->
  forall u, same_out n v0 u -> FAU p q X u = true -> FAU p q Y u = true.
Proof.
  intros HXY u Hu H. apply FAU_spec in H. apply FAU_spec.
  destruct H as [Hq|[Hp [Hm Hs]]]; [left; exact Hq | right].
  split; [exact Hp|]. split.
  - intros i Hi He. apply HXY; [|apply Hm; assumption].
    apply same_out_move; assumption.
  - intro Hst. apply HXY; [exact Hu | apply Hs; exact Hst].
Qed.

Section Dec.
Variables P Q : val -> Prop.
Hypothesis RP : respects P.
Hypothesis RQ : respects Q.
Hypothesis PD : forall u, P u \/ ~ P u.
Hypothesis QD : forall u, Q u \/ ~ Q u.

Theorem EUs_dec v : EUs G P Q v \/ ~ EUs G P Q v.
Proof.
  destruct (table P RP PD n v) as [p [Rp Hp]]. destruct (table Q RQ QD n v) as [q [Rq Hq]].
  apply (lfp_dec G v (FEU p q)).
  - intros X RX. apply FEU_resp; assumption.
  - intros X Y. apply FEU_mono.
  - intros X HX u Hu H. apply FEU_spec in H. destruct H as [H|[H [i [Hi [He Hx]]]]].
    + apply EUs_here. apply (Hq u Hu). exact H.
    + apply EUs_step with (i := i); [apply (Hp u Hu); exact H | exact Hi | exact He|].
      apply HX; [|exact Hx]. apply same_out_move; assumption.
  - intros X HX u H. induction H as [u Hqu | u i Hpu Hi He _ IH]; intro Hu; apply (HX u Hu), FEU_spec.
    + left. apply (Hq u Hu). exact Hqu.
    + right. split; [apply (Hp u Hu); exact Hpu|]. exists i. split; [exact Hi|]. split; [exact He|].
      apply IH. apply same_out_move; assumption.
Qed.

Theorem AUs_dec v : AUs G P Q v \/ ~ AUs G P Q v.
Proof.
  destruct (table P RP PD n v) as [p [Rp Hp]]. destruct (table Q RQ QD n v) as [q [Rq Hq]].
  apply (lfp_dec G v (FAU p q)).
  - intros X RX. apply FAU_resp; assumption.
  - intros X Y. apply FAU_mono.
  - intros X HX u Hu H. apply FAU_spec in H. destruct H as [H|[H [Hm Hs]]].
    + apply AUs_here. apply (Hq u Hu). exact H.
    + apply AUs_step; [apply (Hp u Hu); exact H | |].
      * intros i Hi He. apply HX; [|apply Hm; assumption].
        apply same_out_move; assumption.
      * intro Hst. apply HX; [exact Hu | apply Hs; exact Hst].
  - intros X HX u H. induction H as [u Hqu | u Hpu Hm IHm Hs IHs]; intro Hu; apply (HX u Hu), FAU_spec.
    + left. apply (Hq u Hu). exact Hqu.
    + right. split; [apply (Hp u Hu); exact Hpu|]. split.
      * intros i Hi He. apply (IHm i Hi He). apply same_out_move; assumption.
      * intro Hst. apply (IHs Hst Hu).
Qed.
End Dec.

(** greatest fixed points, through the dualities (SemFacts, with the trivial unit) *)
Section DecGfp.
Variables P Q : val -> Prop.
Hypothesis RP : respects P.
Hypothesis RQ : respects Q.
Hypothesis PD : forall u, P u \/ ~ P u.
Hypothesis QD : forall u, Q u \/ ~ Q u.

Let nQ := fun w => ~ Q w.
Let nPQ := fun w => ~ P w /\ ~ Q w.

Let nQ_respects : respects nQ := respects_not Q RQ.
Let nPQ_respects : respects nPQ := respects_and _ _ (respects_not P RP) (respects_not Q RQ).
Let nQ_dec : forall u, nQ u \/ ~ nQ u := dec_not Q QD.
Let nPQ_dec : forall u, nPQ u \/ ~ nPQ u := dec_and _ _ (dec_not P PD) (dec_not Q QD).

Theorem EWs_dec v : EWs G P Q v \/ ~ EWs G P Q v.
Proof.
  assert (D : forall w, AUs G nQ nPQ w \/ ~ AUs G nQ nPQ w).
  { intro w. apply AUs_dec; [apply nQ_respects | apply nPQ_respects | apply nQ_dec | apply nPQ_dec]. }
  apply (iff_dec _ _ (EW_dual G (Leaf true) (fun v0 i => eq_trans (mem_leaf _ _ _) (eq_sym (mem_leaf _ _ _))) P Q
                        (fun w _ => PD w) (fun w _ => QD w) v (fun w _ => D w) (mem_leaf _ _ _))).
  destruct (D v); tauto.
Qed.

Theorem AWs_dec v : AWs G P Q v \/ ~ AWs G P Q v.
Proof.
  assert (D : forall w, EUs G nQ nPQ w \/ ~ EUs G nQ nPQ w).
  { intro w. apply EUs_dec; [apply nQ_respects | apply nPQ_respects | apply nQ_dec | apply nPQ_dec]. }
  apply (iff_dec _ _ (AW_dual G (Leaf true) (fun v0 i => eq_trans (mem_leaf _ _ _) (eq_sym (mem_leaf _ _ _))) P Q
                        (fun w _ => PD w) (fun w _ => QD w) v (mem_leaf _ _ _))).
  destruct (D v); tauto.
Qed.
End DecGfp.

Theorem EGs_dec P v : respects P -> (forall u, P u \/ ~ P u) -> EGs G P v \/ ~ EGs G P v.
Proof.
  intros RP PD. apply (iff_dec _ _ (iff_sym (EGs_EWs G P v))).
  exact (EWs_dec P (fun _ => False) RP (fun _ _ _ H => H) PD (fun _ => or_intror (fun H => H)) v).
Qed.

Theorem AGs_dec P v : respects P -> (forall u, P u \/ ~ P u) -> AGs G P v \/ ~ AGs G P v.
Proof.
  intros RP PD. apply (iff_dec _ _ (iff_sym (AGs_AWs G P v))).
  exact (AWs_dec P (fun _ => False) RP (fun _ _ _ H => H) PD (fun _ => or_intror (fun H => H)) v).
Qed.

Section Main.
Variables P Q : val -> Prop.
Hypothesis RP : respects P.
Hypothesis RQ : respects Q.

Theorem EU_paths v : EUs G P Q v <-> EU_p G P Q v.
Proof. split; [apply EUs_EU_p | apply EU_p_EUs; assumption]. Qed.

Theorem AG_paths v : AGs G P v <-> AG_p G P v.
Proof. split; [apply AGs_AG_p; assumption | apply AG_p_AGs]. Qed.

Theorem AU_paths_lr v : AUs G P Q v -> AU_p G P Q v.
Proof. apply AUs_AU_p; assumption. Qed.

Theorem AW_weak_lr v : AWs G P Q v -> AW_w G P Q v.
Proof. apply AWs_AW_w; assumption. Qed.

Hypothesis PD : forall u, P u \/ ~ P u.

Theorem EG_paths v : EGs G P v <-> EG_p G P v.
Proof.
  split; [apply EGs_EG_p; [exact RP|] | apply EG_p_EGs; exact RP].
  intro u. apply EGs_dec; assumption.
Qed.

Hypothesis QD : forall u, Q u \/ ~ Q u.

Theorem AU_paths v : AUs G P Q v <-> AU_p G P Q v.
Proof.
  split; [apply AUs_AU_p; assumption | apply AU_p_AUs; try assumption].
  intro u. apply AUs_dec; assumption.
Qed.

Theorem EW_paths v : EWs G P Q v <-> EW_p G P Q v.
Proof.
  split; [apply EWs_EW_p; [exact RP | |] | apply EW_p_EWs; assumption].
  - intro u. apply EUs_dec; assumption.
  - intro u. apply EGs_dec; assumption.
Qed.

Theorem AW_weak_paths v : AWs G P Q v <-> AW_w G P Q v.
Proof. split; [apply AWs_AW_w; assumption | apply AW_w_AWs; exact QD]. Qed.

Theorem AW_nn_paths v : AWs G P Q v <-> AW_nn G P Q v.
Proof. split; [apply AWs_AW_nn; assumption | apply AW_nn_AWs; assumption]. Qed.

Theorem AW_paths_rl v : AW_p G P Q v -> AWs G P Q v.
Proof. apply AW_p_AWs; exact QD. Qed.

Theorem AW_paths_omniscient v :
  (forall pi, path G pi -> (exists j, Q (pi j)) \/ (forall j, ~ Q (pi j))) ->
  (AWs G P Q v <-> AW_p G P Q v).
Proof. intro Omn. split; [apply AWs_AW_p; assumption | apply AW_p_AWs; exact QD]. Qed.
End Main.

End Unfoldings.

Lemma Mem_dec L A u : mem L A u = true \/ ~ mem L A u = true.
Proof. destruct (mem L A u); [left; reflexivity | right; discriminate]. Qed.

(** a set that denotes a fixed-point operator denotes its path form *)
Lemma spec_paths G U R (P P' : val -> Prop) : spec_of G U R P -> (forall v, P v <-> P' v) ->
  forall v, mem (g_L G) R v = true <-> (mem (g_L G) U v = true /\ P' v).
Proof. intros [_ E] H v. rewrite E, H. reflexivity. Qed.
