(** Printing and parsing are inverse (property C06): the stored text and height of the node
    record agree with [render] and [height]; [parse_tokens (tokens_of t) = Ok t]; for
    well-named trees [tokenize ext (render t) = Ok (tokens_of t)], hence
    [parse_formula ext (render t) = Ok t], and [render] is injective on them. *)
From HCTL Require Import Base Syntax Tokenizer Parser Pipeline ParserFacts SpacingFacts.
From HCTL Require Import BaseFacts.

(** every node of [s] stores the text and the height of the tree it represents *)
Fixpoint consistent (s : snode) : Prop :=
  stext s = render (forget s) /\ sheight s = height (forget s) /\
  match s with
  | SNode _ _ sh =>
      match sh with
      | STerminal _ => True
      | SUnary _ c => consistent c
      | SBinary _ l r => consistent l /\ consistent r
      | SHybrid _ _ _ c => consistent c
      end
  end.

Lemma consistent_text : forall s, consistent s -> stext s = render (forget s).
Proof. intros [tx h sh] H. exact (proj1 H). Qed.

Lemma consistent_height : forall s, consistent s -> sheight s = height (forget s).
Proof. intros [tx h sh] H. exact (proj1 (proj2 H)). Qed.

Lemma consistent_mk_atom : forall a, consistent (mk_atom a).
Proof. intros a. repeat split. Qed.

Lemma consistent_mk_unary : forall c o, consistent c -> consistent (mk_unary c o).
Proof.
  intros c o Hc. pose proof (consistent_text c Hc) as Ht.
  pose proof (consistent_height c Hc) as Hh.
  unfold mk_unary.
  cbn [consistent stext sheight forget render height].
  rewrite Ht, Hh. repeat split; try assumption.
Qed.

Lemma consistent_mk_binary : forall l r o,
  consistent l -> consistent r -> consistent (mk_binary l r o).
Proof.
  intros l r o Hl Hr.
  pose proof (consistent_text l Hl) as Htl. pose proof (consistent_height l Hl) as Hhl.
  pose proof (consistent_text r Hr) as Htr. pose proof (consistent_height r Hr) as Hhr.
  unfold mk_binary.
  cbn [consistent stext sheight forget render height].
  rewrite Htl, Hhl, Htr, Hhr. repeat split; assumption.
Qed.

Lemma consistent_mk_hybrid : forall c x d o, consistent c -> consistent (mk_hybrid c x d o).
Proof.
  intros c x d o Hc. pose proof (consistent_text c Hc) as Ht.
  pose proof (consistent_height c Hc) as Hh.
  unfold mk_hybrid.
  cbn [consistent stext sheight forget render height].
  rewrite Ht, Hh. repeat split; assumption.
Qed.

Lemma forget_mk_atom : forall a, forget (mk_atom a) = Terminal a.
Proof. reflexivity. Qed.
Lemma forget_mk_unary : forall c o, forget (mk_unary c o) = Unary o (forget c).
Proof. reflexivity. Qed.
Lemma forget_mk_binary : forall l r o,
  forget (mk_binary l r o) = Binary o (forget l) (forget r).
Proof. reflexivity. Qed.
Lemma forget_mk_hybrid : forall c x d o,
  forget (mk_hybrid c x d o) = Hybrid o x d (forget c).
Proof. reflexivity. Qed.

Lemma forget_annotate : forall t, forget (annotate t) = t.
Proof.
  induction t as [a|o c IH|o l IHl r IHr|o x d c IH]; cbn [annotate].
  - reflexivity.
  - rewrite forget_mk_unary, IH. reflexivity.
  - rewrite forget_mk_binary, IHl, IHr. reflexivity.
  - rewrite forget_mk_hybrid, IH. reflexivity.
Qed.

Lemma consistent_annotate : forall t, consistent (annotate t).
Proof.
  induction t as [a|o c IH|o l IHl r IHr|o x d c IH]; cbn [annotate].
  - apply consistent_mk_atom.
  - apply consistent_mk_unary; assumption.
  - apply consistent_mk_binary; assumption.
  - apply consistent_mk_hybrid; assumption.
Qed.

Lemma annotate_text : forall t, stext (annotate t) = render t.
Proof.
  intros t. rewrite (consistent_text _ (consistent_annotate t)), forget_annotate. reflexivity.
Qed.

Lemma annotate_height : forall t, sheight (annotate t) = height t.
Proof.
  intros t. rewrite (consistent_height _ (consistent_annotate t)), forget_annotate. reflexivity.
Qed.

(** the token a rendered (sub)formula is read as: an atom, or one group *)
Definition atom_tok (a : atom) : token :=
  match a with
  | ATrue => TAtom (AProp s_True)
  | AFalse => TAtom (AProp s_False)
  | _ => TAtom a
  end.

Fixpoint tok_of (t : tree) : token :=
  match t with
  | Terminal a => atom_tok a
  | Unary o c => TGroup [TUn o; tok_of c]
  | Binary o l r => TGroup [tok_of l; TBin o; tok_of r]
  | Hybrid o x d c => TGroup [THyb o x d; tok_of c]
  end.

Definition tokens_of (t : tree) : list token := [tok_of t].

(** proposition names that the parser does not turn into constants *)
Fixpoint unreserved (t : tree) : Prop :=
  match t with
  | Terminal (AProp n) => atom_of_prop_name n = AProp n
  | Terminal _ => True
  | Unary _ c => unreserved c
  | Binary _ l r => unreserved l /\ unreserved r
  | Hybrid _ _ _ c => unreserved c
  end.

Lemma U_tok_of : forall t, unreserved t -> U [tok_of t] t.
Proof.
  induction t as [a|o c IH|o l IHl r IHr|o x d c IH]; intros Hu; cbn [tok_of].
  - destruct a as [n|x| | |p]; cbn [atom_tok].
    + cbn [unreserved] in Hu.
      pose proof (U_prop n) as H. rewrite Hu in H. exact H.
    + apply U_var.
    + exact (U_prop s_True).
    + exact (U_prop s_False).
    + apply U_wild.
  - cbn [unreserved] in Hu. apply U_group, U_G, U_un, IH; exact Hu.
  - cbn [unreserved] in Hu. destruct Hu as (Hl & Hr).
    apply U_group, G_expr.
    apply (L_mono (S (op_level o))); [|pose proof (op_level_lt_6 o); lia].
    change [tok_of l; TBin o; tok_of r] with ([tok_of l] ++ TBin o :: [tok_of r]).
    apply L_bin; [reflexivity| |].
    + apply U_L, IHl; exact Hl.
    + apply U_L, IHr; exact Hr.
  - cbn [unreserved] in Hu. apply U_group, G_hyb, U_G, IH; exact Hu.
Qed.

Theorem G_tokens_of : forall t, unreserved t -> G (tokens_of t) t.
Proof. intros t Hu. apply U_G, U_tok_of; exact Hu. Qed.

Theorem parse_tokens_of : forall t, unreserved t -> parse_tokens (tokens_of t) = Ok t.
Proof. intros t Hu. apply parse_complete, G_tokens_of; exact Hu. Qed.

(** the words the tokenizer reads as operators when they stand alone *)
Definition op_words : list str :=
  [unop_str EX; unop_str AX; unop_str EF; unop_str AF; unop_str EG; unop_str AG;
   binop_str EU; binop_str AU; binop_str EW; binop_str AW;
   hybop_str Exists; hybop_str Forall].

Definition head_not_ws (n : str) : Prop :=
  match n with c :: _ => is_ws c = false | [] => True end.

Section Chars.
Variable ext_alnum : N -> bool.

Local Notation nchar := (is_name_char ext_alnum).
Local Notation cname := (collect_name ext_alnum).
Local Notation pnc := (peek_name_char ext_alnum).
Local Notation cvd := (collect_var_dom ext_alnum).
Local Notation tk := (tok ext_alnum).

(** a non-empty word of name characters *)
Definition name_ok (n : str) : Prop :=
  n <> [] /\ List.Forall (fun c => nchar c = true) n.

Lemma name_chars_forallb (n : str) :
  List.Forall (fun c => nchar c = true) n <-> forallb nchar n = true.
Proof. rewrite forallb_forall, Forall_forall. reflexivity. Qed.

Lemma name_ok_str (n : str) : name_ok n <-> name_str ext_alnum n.
Proof. unfold name_ok, name_str. rewrite name_chars_forallb. reflexivity. Qed.

(** A proposition name is printed bare, so besides being a name it must
    - not start with a character that is also white space (impossible below code point 128,
      and for real Unicode; possible for an arbitrary classification [ext_alnum]),
    - not be one of true/True/1/false/False/0 (the parser reads those as constants),
    - not be exactly an operator word EX AX EF AF EG AG EU AU EW AW 3 V
      (longer names starting with these, e.g. "EXa" or "3x", are read as names). *)
Definition prop_ok (n : str) : Prop :=
  name_ok n /\ head_not_ws n /\ atom_of_prop_name n = AProp n /\ ~ In n op_words.

Definition atom_ok (ext : bool) (a : atom) : Prop :=
  match a with
  | AProp n => prop_ok n
  | AVar x => name_ok x
  | AWild p => ext = true /\ name_ok p
  | ATrue | AFalse => True
  end.

(** domains need the extended syntax and are never read after a jump *)
Definition dom_ok (ext : bool) (o : hybop) (d : option str) : Prop :=
  match d with
  | None => True
  | Some l => ext = true /\ o <> Jump /\ name_ok l
  end.

Fixpoint well_named (ext : bool) (t : tree) : Prop :=
  match t with
  | Terminal a => atom_ok ext a
  | Unary _ c => well_named ext c
  | Binary _ l r => well_named ext l /\ well_named ext r
  | Hybrid o x d c => name_ok x /\ dom_ok ext o d /\ well_named ext c
  end.

Lemma well_named_unreserved : forall ext t, well_named ext t -> unreserved t.
Proof.
  intros ext; induction t as [a|o c IH|o l IHl r IHr|o x d c IH]; intros H;
    cbn [well_named unreserved] in *.
  - destruct a as [n|x| | |p]; try exact I. exact (proj1 (proj2 (proj2 H))).
  - auto.
  - destruct H; auto.
  - destruct H as (_ & _ & H); auto.
Qed.

Lemma name_char_cases : forall c, nchar c = true ->
  (48 <= c <= 57 \/ 65 <= c <= 90 \/ 97 <= c <= 122 \/ c = 95 \/ 128 <= c)%N.
Proof.
  assert (R : forall lo hi c, in_range lo hi c = true -> (lo <= c <= hi)%N).
  { intros lo hi c H. apply andb_prop in H. destruct H as [H1 H2].
    apply N.leb_le in H1, H2. split; assumption. }
  intros c H. unfold is_name_char, is_alnum in H.
  destruct (N.ltb_spec c 128) as [Hlt|Hge]; [|lia].
  apply orb_prop in H. destruct H as [H|H]; [|apply N.eqb_eq in H; unfold c_underscore in H; lia].
  apply orb_prop in H. destruct H as [H|H]; [|apply R in H; lia].
  apply orb_prop in H. destruct H as [H|H]; apply R in H; lia.
Qed.

Lemma ascii_name_char_not_ws : forall c, (c < 128)%N -> nchar c = true -> is_ws c = false.
Proof.
  intros c Hlt H. destruct (is_ws c) eqn:W; [|reflexivity].
  rewrite (ws_ascii_not_name ext_alnum c W Hlt) in H. discriminate H.
Qed.

Lemma head_not_ws_ascii : forall n,
  List.Forall (fun c => (c < 128)%N) n -> List.Forall (fun c => nchar c = true) n -> head_not_ws n.
Proof.
  intros n Ha Hn. destruct n as [|c n]; [exact I|]. cbn [head_not_ws].
  inversion Ha; inversion Hn; subst. apply ascii_name_char_not_ws; assumption.
Qed.

Lemma collect_name_word : forall n rest,
  List.Forall (fun c => nchar c = true) n -> pnc rest = false ->
  cname (n ++ rest) = (n, rest).
Proof.
  intros n rest Hn Hr. apply collect_name_name; [apply name_chars_forallb, Hn | exact Hr].
Qed.

(** the words that are not read as a proposition name are the operator words *)
Lemma reserved_op_word : forall n, reserved n = true -> In n op_words.
Proof.
  assert (forall a b, N.eqb a b = true -> a = b) as Q by (intros a b; apply N.eqb_eq).
  intros [|c [|c2 [|c3 n]]]; cbn [reserved]; try discriminate; intro H; apply existsb_str_in.
  - apply orb_prop in H. destruct H as [H|H]; apply Q in H; subst c; reflexivity.
  - apply andb_prop in H. destruct H as [H1 H2]. apply orb_prop in H1.
    unfold is_temp_op_char in H2. repeat (apply orb_prop in H2; destruct H2 as [H2|H2]).
    all: apply Q in H2; subst c2; destruct H1 as [H1|H1]; apply Q in H1; subst c; reflexivity.
Qed.

Lemma prop_text_intro : forall n,
  name_ok n -> head_not_ws n -> ~ In n op_words -> prop_text ext_alnum n.
Proof.
  intros n Hn Hws Hop. split; [apply name_ok_str, Hn|]. split.
  - destruct n; [reflexivity | exact Hws].
  - destruct (reserved n) eqn:R; [|reflexivity]. destruct (Hop (reserved_op_word n R)).
Qed.

Lemma dom_ok_pd : forall ext o d, dom_ok ext o d -> SpacingFacts.dom_ok ext_alnum (hyb_pd ext o) d.
Proof.
  intros ext o [l|] H; [|exact I]. destruct H as (-> & Hj & Hl).
  split; [destruct o; cbn [hyb_pd]; congruence | apply name_ok_str, Hl].
Qed.

Lemma pnc_rpar : forall cs, pnc (c_rpar :: cs) = false.
Proof. reflexivity. Qed.
Lemma pnc_space : forall cs, pnc (c_space :: cs) = false.
Proof. reflexivity. Qed.
Lemma pnc_nil : pnc [] = false.
Proof. reflexivity. Qed.

(** what stands between '(' and the operand of a unary operator as it is printed: "~", or the
    operator word and a space *)
Definition un_pre (o : unop) : str * N :=
  match o with Not => ([], c_tilde) | _ => (unop_str o, c_space) end.
Definition unop_steps (o : unop) : nat := match o with Not => 1 | _ => 2 end.

Lemma tok_unop_pre : forall o f cs top ext acc,
  tk (unop_steps o + f) (fst (un_pre o) ++ snd (un_pre o) :: cs) top ext acc
  = tk f cs top ext (TUn o :: acc).
Proof. intros o f cs top ext acc; destruct o; reflexivity. Qed.

Lemma tok_binop_sp : forall o f cs top ext acc,
  tk (S (S (S f))) (c_space :: binop_str o ++ c_space :: cs) top ext acc =
  tk f cs top ext (TBin o :: acc).
Proof. intros o f cs top ext acc; destruct o; reflexivity. Qed.

Lemma tok_atom : forall ext a f rest top acc,
  atom_ok ext a -> pnc rest = false ->
  tk (S f) (atom_str a ++ rest) top ext acc = tk f rest top ext (atom_tok a :: acc).
Proof.
  intros ext a f rest top acc Ha Hr.
  apply (tok_step ext_alnum ext f _ top acc (APush (atom_tok a) rest)).
  destruct a as [n|x| | |p]; cbn [atom_ok atom_tok atom_str] in *.
  - destruct Ha as (Hn & Hws & _ & Hop).
    apply nexts_prop; [apply prop_text_intro; assumption | exact Hr].
  - cbn [app]. rewrite <- app_assoc. apply nexts_var, name_ok_str, Ha.
  - apply nexts_prop; [|exact Hr]. repeat split. discriminate.
  - apply nexts_prop; [|exact Hr]. repeat split. discriminate.
  - destruct Ha as (-> & Hp). cbn [app]. rewrite <- app_assoc.
    apply nexts_wild; [reflexivity | apply name_ok_str, Hp].
Qed.

Lemma domain_str_app : forall l cs,
  domain_str (Some l) ++ cs = c_space :: c_i :: c_n :: c_space :: c_pct :: l ++ c_pct :: cs.
Proof.
  intros l cs. cbn [domain_str s_in app]. rewrite <- app_assoc. reflexivity.
Qed.

(** the printed segment is a segment with a single space where the printer puts one *)
Lemma render_seg : forall x d cs,
  c_lbrace :: x ++ c_rbrace :: domain_str d ++ c_colon :: cs
  = seg_txt x d [] (match d with Some _ => [c_space] | None => [] end) [c_space] [] cs.
Proof. intros x [l|] cs; [rewrite domain_str_app|]; reflexivity. Qed.

Lemma tok_hybrid_head : forall ext o x d f cs top acc,
  name_ok x -> dom_ok ext o d ->
  tk (S f) (hybop_str o ++ c_lbrace :: x ++ c_rbrace :: domain_str d ++ c_colon :: cs)
     top ext acc
  = tk f cs top ext (THyb o x d :: acc).
Proof.
  intros ext o x d f cs top acc Hx Hd. rewrite render_seg.
  apply (tok_step ext_alnum ext f _ top acc (APush (THyb o x d) cs)).
  apply nexts_hyb; try reflexivity.
  - destruct o; cbn [hyb_heads hybop_str In]; auto 10.
  - destruct d; reflexivity.
  - apply name_ok_str, Hx.
  - apply dom_ok_pd, Hd.
Qed.

Lemma render_unary_pre o c rest :
  render (Unary o c) ++ rest
  = c_lpar :: fst (un_pre o) ++ snd (un_pre o) :: render c ++ c_rpar :: rest.
Proof.
  destruct o; cbn [render unop_str un_pre fst snd app]; rewrite <- app_assoc; reflexivity.
Qed.

Lemma render_binary_app : forall o l r rest,
  render (Binary o l r) ++ rest =
  c_lpar :: render l ++ c_space :: binop_str o ++ c_space :: render r ++ c_rpar :: rest.
Proof.
  intros o l r rest. cbn [render app]. f_equal.
  rewrite <- app_assoc. cbn [app]. f_equal. f_equal.
  rewrite <- app_assoc. cbn [app]. f_equal. f_equal.
  rewrite <- app_assoc. reflexivity.
Qed.

Lemma render_hybrid_app : forall o x d c rest,
  render (Hybrid o x d c) ++ rest =
  c_lpar :: hybop_str o ++ c_lbrace :: x ++ c_rbrace :: domain_str d
    ++ c_colon :: c_space :: render c ++ c_rpar :: rest.
Proof.
  intros o x d c rest. cbn [render app]. f_equal.
  rewrite <- app_assoc. cbn [app]. f_equal. f_equal.
  rewrite <- app_assoc. cbn [app]. f_equal. f_equal.
  rewrite <- app_assoc. cbn [app]. f_equal. f_equal. f_equal.
  rewrite <- app_assoc. reflexivity.
Qed.

(** fuel needed below the step that reads [render t]: one unit per iteration of the loop
    inside the parentheses -- operator ([unop_steps]), operand, ')' for a unary node; operand,
    ' ', operator, ' ', operand, ')' for a binary one; head, ' ', operand, ')' for a hybrid
    one -- and what the operands need below their own step *)
Fixpoint need (t : tree) : nat :=
  match t with
  | Terminal _ => 0
  | Unary o c => 2 + unop_steps o + need c
  | Binary _ l r => 6 + Nat.max (need l) (need r)
  | Hybrid _ _ _ c => 4 + need c
  end.

Lemma tok_render : forall ext t,
  well_named ext t ->
  forall f rest top acc, pnc rest = false -> need t <= f ->
  tk (S f) (render t ++ rest) top ext acc = tk f rest top ext (tok_of t :: acc).
Proof.
  intros ext; induction t as [a|o c IH|o l IHl r IHr|o x d c IH];
    intros Hw f rest top acc Hr Hf; cbn [well_named tok_of] in *.
  - cbn [render]. apply tok_atom; assumption.
  - rewrite render_unary_pre, tok_lpar. cbn [need] in Hf.
    replace f with (unop_steps o + S (S (f - unop_steps o - 2))) by lia.
    rewrite tok_unop_pre.
    rewrite (IH Hw _ (c_rpar :: rest) false [TUn o] (pnc_rpar _)) by lia.
    rewrite tok_rpar. reflexivity.
  - destruct Hw as (Hwl & Hwr). cbn [need] in Hf.
    rewrite render_binary_app, tok_lpar.
    destruct (Nat.le_exists_sub 6 f) as (k & -> & _); [lia|]. rewrite (Nat.add_comm k). cbn [Nat.add].
    rewrite (IHl Hwl (S (S (S (S (S k))))) _ false [] (pnc_space _)) by lia.
    rewrite tok_binop_sp.
    rewrite (IHr Hwr (S k) (c_rpar :: rest) false _ (pnc_rpar _)) by lia.
    rewrite tok_rpar. reflexivity.
  - destruct Hw as (Hx & Hd & Hw). cbn [need] in Hf.
    rewrite render_hybrid_app, tok_lpar.
    destruct (Nat.le_exists_sub 4 f) as (k & -> & _); [lia|]. rewrite (Nat.add_comm k). cbn [Nat.add].
    rewrite (tok_hybrid_head ext o x d _ _ false [] Hx Hd).
    rewrite tok_ws by reflexivity.
    rewrite (IH Hw (S k) (c_rpar :: rest) false _ (pnc_rpar _)) by lia.
    rewrite tok_rpar. reflexivity.
Qed.

(** the fuel [tokenize] provides is enough *)
Lemma need_lt : forall ext t, well_named ext t -> need t < length (render t).
Proof.
  intros ext; induction t as [a|o c IH|o l IHl r IHr|o x d c IH]; intros Hw;
    cbn [well_named need] in *.
  - cbn [render].
    assert (Hpos : forall n : str, name_ok n -> 0 < length n).
    { intros n (Hne & _). destruct n; [congruence|cbn [length]; lia]. }
    destruct a as [n|x| | |p]; cbn [atom_ok atom_str length] in *; try lia.
    + destruct Hw as (Hn & _). exact (Hpos n Hn).
    + unfold s_True; cbn [length]; lia.
    + unfold s_False; cbn [length]; lia.
  - specialize (IH Hw).
    destruct o; cbn [render unop_str unop_steps app length]; rewrite app_length; cbn [length]; lia.
  - destruct Hw as (Hwl & Hwr). specialize (IHl Hwl). specialize (IHr Hwr).
    cbn [render length]. rewrite !app_length. cbn [length]. rewrite !app_length.
    cbn [length]. rewrite !app_length. cbn [length].
    assert (1 <= length (binop_str o)) by (destruct o; cbn [binop_str length]; lia). lia.
  - destruct Hw as (_ & _ & Hw). specialize (IH Hw).
    cbn [render length]. rewrite !app_length. cbn [length]. rewrite !app_length.
    cbn [length]. rewrite !app_length. cbn [length]. rewrite !app_length. cbn [length]. lia.
Qed.

Theorem tokenize_render : forall ext t,
  well_named ext t -> tokenize ext_alnum ext (render t) = Ok (tokens_of t).
Proof.
  intros ext t Hw. unfold tokenize, tokens_of.
  pose proof (need_lt ext t Hw) as Hlt.
  pose proof (tok_render ext t Hw (length (render t)) [] true [] pnc_nil) as H.
  rewrite app_nil_r in H. rewrite H by lia.
  destruct (length (render t)) as [|k]; [exfalso; lia|].
  rewrite tok_nil. reflexivity.
Qed.

Theorem parse_formula_render : forall ext t,
  well_named ext t -> parse_formula ext_alnum ext (render t) = Ok t.
Proof.
  intros ext t Hw. unfold parse_formula.
  rewrite (tokenize_render ext t Hw). cbn [bind].
  apply parse_tokens_of. eapply well_named_unreserved; exact Hw.
Qed.

Theorem render_injective : forall ext t t',
  well_named ext t -> well_named ext t' -> render t = render t' -> t = t'.
Proof.
  intros ext t t' Hw Hw' E.
  pose proof (parse_formula_render ext t Hw) as H.
  pose proof (parse_formula_render ext t' Hw') as H'.
  rewrite E in H. rewrite H in H'. injection H' as ->. reflexivity.
Qed.

(** ** the side condition on proposition names is exact

    For a non-empty word [n] of name characters that does not start with a white-space
    character, the text [n] is read back as the proposition [n] exactly when [n] is neither
    reserved (true/True/1/false/False/0) nor an operator word.  If it does start with a
    white-space character (only possible above code point 127 for an [ext_alnum] that
    classifies such a character as alphanumeric) that character is simply dropped. *)

Lemma parse_bare : forall ext n,
  name_ok n -> head_not_ws n -> ~ In n op_words ->
  parse_formula ext_alnum ext n = Ok (Terminal (atom_of_prop_name n)).
Proof.
  intros ext n Hn Hws Hop. unfold parse_formula, tokenize.
  pose proof (tok_step ext_alnum ext (length n) (n ++ []) true [] _
                (nexts_prop ext_alnum ext n [] (prop_text_intro n Hn Hws Hop) pnc_nil)) as H.
  rewrite app_nil_r in H. rewrite H. cbn [continue].
  destruct Hn as (Hne & _). destruct n as [|c n]; [congruence|].
  cbn [length]. rewrite tok_nil. cbn [bind rev app].
  apply parse_complete, U_G, U_prop.
Qed.

Lemma op_word_no_roundtrip : forall ext n,
  In n op_words -> parse_formula ext_alnum ext n <> Ok (Terminal (AProp n)).
Proof.
  intros ext n H. unfold op_words in H. cbn [In] in H.
  repeat match type of H with _ \/ _ => destruct H as [<-|H] end;
    try contradiction; destruct ext; vm_compute; discriminate.
Qed.

Theorem prop_roundtrip_iff : forall ext n,
  name_ok n -> head_not_ws n ->
  (parse_formula ext_alnum ext (render (Terminal (AProp n))) = Ok (Terminal (AProp n))
   <-> atom_of_prop_name n = AProp n /\ ~ In n op_words).
Proof.
  intros ext n Hn Hws. cbn [render atom_str]. split.
  - intros H.
    assert (Hop : ~ In n op_words).
    { intros Hin. exact (op_word_no_roundtrip ext n Hin H). }
    split; [|exact Hop].
    rewrite (parse_bare ext n Hn Hws Hop) in H. injection H as H. exact H.
  - intros (Hres & Hop). rewrite (parse_bare ext n Hn Hws Hop), Hres. reflexivity.
Qed.

Lemma leading_ws_dropped : forall ext c cs,
  is_ws c = true -> parse_formula ext_alnum ext (c :: cs) = parse_formula ext_alnum ext cs.
Proof.
  intros ext c cs H. unfold parse_formula, tokenize. cbn [length].
  rewrite (tok_ws _ _ _ c cs true [] H). reflexivity.
Qed.

(** ** an executable check of [well_named] (sound; used for the examples) *)

Definition name_okb (n : str) : bool :=
  match n with [] => false | _ => forallb nchar n end.

Definition prop_okb (n : str) : bool :=
  name_okb n
  && match n with c :: _ => negb (is_ws c) | [] => true end
  && match atom_of_prop_name n with AProp _ => true | _ => false end
  && negb (existsb (str_eqb n) op_words).

Definition atom_okb (ext : bool) (a : atom) : bool :=
  match a with
  | AProp n => prop_okb n
  | AVar x => name_okb x
  | AWild p => ext && name_okb p
  | ATrue | AFalse => true
  end.

Definition dom_okb (ext : bool) (o : hybop) (d : option str) : bool :=
  match d with
  | None => true
  | Some l => ext && negb (hybop_eqb o Jump) && name_okb l
  end.

Fixpoint well_namedb (ext : bool) (t : tree) : bool :=
  match t with
  | Terminal a => atom_okb ext a
  | Unary _ c => well_namedb ext c
  | Binary _ l r => well_namedb ext l && well_namedb ext r
  | Hybrid o x d c => name_okb x && dom_okb ext o d && well_namedb ext c
  end.

Lemma name_okb_sound : forall n, name_okb n = true -> name_ok n.
Proof.
  intros n H. destruct n as [|c n]; [discriminate H|].
  split; [discriminate | apply name_chars_forallb, H].
Qed.

Lemma prop_okb_sound : forall n, prop_okb n = true -> prop_ok n.
Proof.
  intros n H. unfold prop_okb in H. rewrite !andb_true_iff in H.
  destruct H as (((Hn & Hws) & Hres) & Hop).
  split; [exact (name_okb_sound n Hn)|]. split; [|split].
  - destruct n as [|c n]; [exact I|]. cbn [head_not_ws].
    apply negb_true_iff in Hws. exact Hws.
  - unfold atom_of_prop_name in *.
    destruct (str_eqb n s_true || str_eqb n s_True || str_eqb n s_1); [discriminate Hres|].
    destruct (str_eqb n s_false || str_eqb n s_False || str_eqb n s_0);
      [discriminate Hres|reflexivity].
  - intros Hin. apply negb_true_iff in Hop.
    assert (E : existsb (str_eqb n) op_words = true).
    { apply existsb_exists. exists n. split; [exact Hin|apply str_eqb_refl]. }
    congruence.
Qed.

Lemma well_namedb_sound : forall ext t, well_namedb ext t = true -> well_named ext t.
Proof.
  intros ext; induction t as [a|o c IH|o l IHl r IHr|o x d c IH]; intros H;
    cbn [well_namedb well_named] in *.
  - destruct a as [n|x| | |p]; cbn [atom_okb atom_ok] in *; try exact I.
    + apply prop_okb_sound; exact H.
    + apply name_okb_sound; exact H.
    + apply andb_true_iff in H. destruct H as (-> & H).
      split; [reflexivity|apply name_okb_sound; exact H].
  - auto.
  - apply andb_true_iff in H. destruct H; auto.
  - rewrite !andb_true_iff in H. destruct H as ((Hx & Hd) & Hc).
    split; [apply name_okb_sound; exact Hx|]. split; [|auto].
    destruct d as [l|]; cbn [dom_okb dom_ok] in *; [|exact I].
    rewrite !andb_true_iff in Hd. destruct Hd as ((-> & Hj) & Hl).
    split; [reflexivity|]. split; [|apply name_okb_sound; exact Hl].
    intros ->. discriminate Hj.
Qed.

End Chars.
