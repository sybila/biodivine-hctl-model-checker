(** The oracle never runs out of fuel (and never panics): every fixed-point loop of
    Spec/Sem.v iterates a monotone step function from the empty or from the full set, so the
    iterates form a chain whose cardinality changes strictly until the loop stops, and
    [sfuel = S (S (2 ^ n))] rounds suffice.  Hence [sem] and [sem_eval] return [Ok] or one
    of the declared errors [Err e], without any assumption on the inputs. *)
From HCTL Require Import Base Syntax TT Ops Sem.
From HCTL Require Import TTFacts OpsFacts LayoutFacts Termination SemFacts2.

Section OracleTermination.
Variables n p : nat.
Variable upd : list tt.
Variable names : list str.
Variable ctxs : list (str * tt).
Local Notation Ln := (Sem.Ln n).
Local Notation smem := (Sem.smem n).

Lemma NoDup_Ln : NoDup Ln.
Proof. unfold Sem.Ln. apply NoDup_map_inj; [intros x y H; congruence | apply NoDup_range]. Qed.

Lemma length_Ln : length Ln = n.
Proof. unfold Sem.Ln. rewrite map_length. apply range_length. Qed.

Lemma s_ex_mono c X Y : subset Ln X Y -> subset Ln (s_ex n p upd c X) (s_ex n p upd c Y).
Proof.
  intros H v. change (smem (s_ex n p upd c X) v = true -> smem (s_ex n p upd c Y) v = true).
  rewrite !(smem_s_ex_raw n p upd), !existsb_exists. intros [u [Hu Hm]]. exists u. split; [exact Hu | apply H, Hm].
Qed.

Lemma s_ax_mono c X Y : subset Ln X Y -> subset Ln (s_ax n p upd c X) (s_ax n p upd c Y).
Proof.
  intros H v. change (smem (s_ax n p upd c X) v = true -> smem (s_ax n p upd c Y) v = true).
  rewrite !(smem_s_ax_raw n p upd), !forallb_forall. intros Hall u Hu. apply H, Hall, Hu.
Qed.

(** a monotone step from the empty set climbs, from the full set descends: the loop of the
    model ([fix_iter_while]) with the cardinality as its measure, along the chain *)
Lemma climb_terminates F : (forall x, shaped Ln x -> shaped Ln (F x)) ->
  (forall x y, shaped Ln x -> shaped Ln y -> subset Ln x y -> subset Ln (F x) (F y)) ->
  exists r, fix_iter (sfuel n) F (s_empty n) = Ok r /\ shaped Ln r.
Proof.
  intros FS FM. unfold sfuel. rewrite fix_iter_while.
  destruct (while_neq_measure (fun x => shaped Ln x /\ subset Ln x (F x)) F (fun x => 2 ^ n - card x))
    with (fuel := S (2 ^ n)) (x := F (s_empty n)) (y := s_empty n) as [r [E [Sr _]]]; [| | | lia | exists r; auto].
  - intros x [Sx Hx]. split; [apply FS, Sx | apply FM; auto].
  - intros x [Sx Hx] Hne. assert (card x < card (F x)) by (apply (subset_neq_card Ln NoDup_Ln); auto).
    pose proof (card_le Ln (F x) (FS x Sx)) as Hle. rewrite length_Ln in Hle. lia.
  - pose proof (shaped_const Ln false) as S0. split; [apply FS, S0 | apply FM; auto].
    intros v Hv. unfold s_empty in Hv. rewrite mem_const in Hv. discriminate.
Qed.

Lemma descend_terminates F : (forall x, shaped Ln x -> shaped Ln (F x)) ->
  (forall x y, shaped Ln x -> shaped Ln y -> subset Ln x y -> subset Ln (F x) (F y)) ->
  exists r, fix_iter (sfuel n) F (s_full n) = Ok r /\ shaped Ln r.
Proof.
  intros FS FM. unfold sfuel. rewrite fix_iter_while. pose proof (shaped_const Ln true) as S1.
  destruct (while_neq_measure (fun x => shaped Ln x /\ subset Ln (F x) x) F card)
    with (fuel := S (2 ^ n)) (x := F (s_full n)) (y := s_full n) as [r [E [Sr _]]]; [| | | | exists r; auto].
  - intros x [Sx Hx]. split; [apply FS, Sx | apply FM; auto].
  - intros x [Sx Hx] Hne. apply (subset_neq_card Ln NoDup_Ln); auto.
  - split; [apply FS, S1 | apply FM; auto]. intros v _. apply mem_const.
  - intros _. pose proof (card_le Ln _ (FS _ S1)) as Hle. rewrite length_Ln in Hle. unfold s_full. lia.
Qed.

#[local] Hint Resolve shaped_stab : shaped.

(** the until step over a monotone next-step operator: shape-preserving and monotone *)
Lemma until_step_shaped_mono (nx : sset -> sset) A B : shaped Ln A -> shaped Ln B ->
  (forall x, shaped Ln (nx x)) -> (forall x y, subset Ln x y -> subset Ln (nx x) (nx y)) ->
  (forall x, shaped Ln x -> shaped Ln (tor B (tand A (nx x)))) /\
  (forall x y, shaped Ln x -> shaped Ln y -> subset Ln x y ->
     subset Ln (tor B (tand A (nx x))) (tor B (tand A (nx y)))).
Proof.
  intros SA SB NS NM. split; [auto with shaped|]. intros x y Sx Sy H v.
  rewrite !mem_tor, !mem_tand by auto with shaped. rewrite !orb_true_iff, !andb_true_iff.
  intros [Hb|[Ha Hn]]; [left; exact Hb | right; split; [exact Ha | apply (NM x y H), Hn]].
Qed.

Section Steps.
Variable c : val.
Variables A B : sset.
Hypothesis SA : shaped Ln A.
Hypothesis SB : shaped Ln B.

Let ex_step := until_step_shaped_mono (s_ex n p upd c) A B SA SB (fun x => shaped_stab n _) (s_ex_mono c).
Let ax_step := until_step_shaped_mono (s_ax n p upd c) A B SA SB (fun x => shaped_stab n _) (s_ax_mono c).

Theorem s_eu_terminates : exists r, s_eu n p upd c A B = Ok r /\ shaped Ln r.
Proof. exact (climb_terminates _ (proj1 ex_step) (proj2 ex_step)). Qed.
Theorem s_au_terminates : exists r, s_au n p upd c A B = Ok r /\ shaped Ln r.
Proof. exact (climb_terminates _ (proj1 ax_step) (proj2 ax_step)). Qed.
Theorem s_ew_terminates : exists r, s_ew n p upd c A B = Ok r /\ shaped Ln r.
Proof. exact (descend_terminates _ (proj1 ex_step) (proj2 ex_step)). Qed.
Theorem s_aw_terminates : exists r, s_aw n p upd c A B = Ok r /\ shaped Ln r.
Proof. exact (descend_terminates _ (proj1 ax_step) (proj2 ax_step)). Qed.
End Steps.

Theorem s_eg_terminates c A : shaped Ln A -> exists r, s_eg n p upd c A = Ok r /\ shaped Ln r.
Proof. intro SA. rewrite (s_eg_ew n p upd c A SA). apply s_ew_terminates; [exact SA | apply shaped_const]. Qed.
Theorem s_ag_terminates c A : shaped Ln A -> exists r, s_ag n p upd c A = Ok r /\ shaped Ln r.
Proof. intro SA. rewrite (s_ag_aw n p upd c A SA). apply s_aw_terminates; [exact SA | apply shaped_const]. Qed.

(** an outcome that is a shaped set or a declared error *)
Definition fine (r : res sset) : Prop :=
  (exists X, r = Ok X /\ shaped Ln X) \/ (exists e, r = Err e).

Lemma fine_ok X : shaped Ln X -> fine (Ok X).
Proof. intro S. left. exists X. split; [reflexivity | exact S]. Qed.

Lemma fine_ex (r : res sset) : (exists X, r = Ok X /\ shaped Ln X) -> fine r.
Proof. intro H. left. exact H. Qed.

Lemma fine_err e : fine (Err e).
Proof. right. exists e. reflexivity. Qed.

Lemma fine_bind (r : res sset) (f : sset -> res sset) :
  fine r -> (forall X, shaped Ln X -> fine (f X)) -> fine (bind r f).
Proof. intros [[X [-> SX]]|[e ->]] Hf; [apply Hf, SX | apply fine_err]. Qed.

Lemma for_states_fine (f : val -> res sset) : (forall u, fine (f u)) ->
  forall l, (exists rs, for_states l f = Ok rs) \/ (exists e, for_states l f = Err e).
Proof.
  intros Hf. induction l as [|u l IH]; cbn [for_states]; [left; eexists; reflexivity|].
  destruct (Hf u) as [[X [E _]]|[e E]]; rewrite E; cbn [bind]; [|right; eexists; reflexivity].
  destruct IH as [[rs E']|[e E']]; rewrite E'; cbn [bind]; [left | right]; eexists; reflexivity.
Qed.

Lemma dom_set_fine c d : fine (dom_set n p ctxs c d).
Proof.
  destruct d as [l|]; cbn [dom_set].
  - destruct (alookup str_eqb l ctxs); [apply fine_ok, shaped_stab | apply fine_err].
  - apply fine_ok, shaped_const.
Qed.

(** a quantifier: the domain, the table of the body over its states, a shaped result *)
Lemma quant_fine c d (body : val -> res sset) (g : list (val * sset) -> sset) :
  (forall u, fine (body u)) -> (forall rs, shaped Ln (g rs)) ->
  fine (let* D := dom_set n p ctxs c d in
        let* rs := for_states (filter (smem D) (all_states n)) body in Ok (g rs)).
Proof.
  intros Hb Hg. destruct (dom_set_fine c d) as [[Dm [-> _]]|[e ->]]; cbn [bind]; [|apply fine_err].
  destruct (for_states_fine body Hb (filter (smem Dm) (all_states n))) as [[rs ->]|[e ->]]; cbn [bind];
    [apply fine_ok, Hg | apply fine_err].
Qed.

Theorem sem_fine : forall t c env, fine (sem n p upd names ctxs c env t).
Proof.
  induction t as [a | o a IH | o a IHa b IHb | o x d a IH]; intros c env.
  - destruct a as [nm | x | | | l]; cbn [sem].
    + destruct (index_of_name nm names 0); [apply fine_ok, shaped_stab | apply fine_err].
    + destruct (alookup str_eqb x env); [apply fine_ok, shaped_stab | apply fine_err].
    + apply fine_ok, shaped_const.
    + apply fine_ok, shaped_const.
    + apply (dom_set_fine c (Some l)).
  - cbn [sem]. apply (fine_bind _ _ (IH c env)). intros A SA. destruct o.
    + apply fine_ok, shaped_s_not, SA.
    + apply fine_ok, shaped_stab.
    + apply fine_ok, shaped_stab.
    + apply fine_ex, s_eu_terminates; [apply shaped_const | exact SA].
    + apply fine_ex, s_au_terminates; [apply shaped_const | exact SA].
    + apply fine_ex, s_eg_terminates, SA.
    + apply fine_ex, s_ag_terminates, SA.
  - cbn [sem]. apply (fine_bind _ _ (IHa c env)). intros A SA.
    apply (fine_bind _ _ (IHb c env)). intros B SB. destruct o.
    + apply fine_ok; auto with shaped.
    + apply fine_ok; auto with shaped.
    + apply fine_ok; auto with shaped.
    + apply fine_ok, shaped_tor; [apply shaped_s_not|]; assumption.
    + apply fine_ok; auto with shaped.
    + apply fine_ex, s_eu_terminates; assumption.
    + apply fine_ex, s_au_terminates; assumption.
    + apply fine_ex, s_ew_terminates; assumption.
    + apply fine_ex, s_aw_terminates; assumption.
  - destruct o; cbn [sem].
    2: { destruct (alookup str_eqb x env); [|apply fine_err].
         apply (fine_bind _ _ (IH c env)). intros A _. apply fine_ok, shaped_const. }
    all: apply quant_fine; [intro u; apply IH | intro rs; apply shaped_stab].
Qed.

Lemma assemble_fine t : forall ps c,
  (exists r, assemble n p upd names ctxs ps c t = Ok r) \/
  (exists e, assemble n p upd names ctxs ps c t = Err e).
Proof.
  induction ps as [|h ps IH]; intro c; cbn [assemble].
  - destruct (sem_fine t c []) as [[X [E _]]|[e E]]; rewrite E; [left | right]; eexists; reflexivity.
  - destruct (IH (fun g => if tag_eqb g h then false else c g)) as [[lo E]|[e E]]; rewrite E; cbn [bind];
      [|right; eexists; reflexivity].
    destruct (IH (fun g => if tag_eqb g h then true else c g)) as [[hi E']|[e E']]; rewrite E'; cbn [bind];
      [left | right]; eexists; reflexivity.
Qed.

(** the oracle answers or reports one of its declared errors: never OutOfFuel, never Panic *)
Theorem sem_eval_total unit_pn t :
  (exists R, sem_eval n p upd names ctxs unit_pn t = Ok R) \/
  (exists e, sem_eval n p upd names ctxs unit_pn t = Err e).
Proof.
  unfold sem_eval. destruct (assemble_fine t (Lp p) (fun _ => false)) as [[r E]|[e E]];
    rewrite E; cbn [bind]; [left | right]; eexists; reflexivity.
Qed.

End OracleTermination.
