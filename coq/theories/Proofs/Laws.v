(** What the fixed-point laws of the model's temporal operators (C11, C13) rest on, for
    arbitrary argument sets inside the unit of a well-formed graph: the operators meet their
    specifications (SemFacts), and two sets are compared through the predicates they denote.
    The laws of the specification operators themselves are in KripkeFacts.v. *)
From HCTL Require Import Base Syntax TT Ops Eval Kripke HCTL.
From HCTL Require Import KripkeFacts TTFacts OpsFacts FixFacts SemFacts.

(** what the laws assume about a symbolic graph and its unit set *)
Record wf_graph (G : genv) (U : tt) : Prop := {
  wg_nodup : NoDup (g_L G);
  wg_upd_shaped : forall i, shaped (g_L G) (upd_of G i);
  wg_TS_in : forall i, i < g_n G -> In (TS i) (g_L G);
  wg_U_shaped : shaped (g_L G) U;
  wg_U_moves : forall v i, mem (g_L G) U (vflip (TS i) v) = mem (g_L G) U v;
}.

Section SetLaws.
Variable G : genv.
Variable U : tt.
Hypothesis WF : wf_graph G U.
Local Notation L := (g_L G).
Local Notation st := (steady_of G U).
Local Notation spec := (spec_of G U).
Local Notation Mem A := (fun v0 : val => mem L A v0 = true).
Local Notation inU := (FixFacts.inU G U).

(** the operator specifications of SemFacts for a well-formed graph *)
Lemma wf_unary_spec o A P R : spec A P -> eval_unary G U st o A = Ok R -> spec R (sat_unary G o P).
Proof. destruct WF. apply unary_spec; assumption. Qed.
Lemma wf_binary_spec o A B P Q R : spec A P -> spec B Q ->
  eval_binary G U st o A B = Ok R -> spec R (sat_binary G o P Q).
Proof. destruct WF. apply binary_spec; assumption. Qed.

Lemma wf_spec_unit : spec U (fun _ => True).
Proof. apply spec_unit, WF. Qed.

(** a set inside the unit denotes its own membership predicate *)
Lemma self_spec A : shaped L A -> inU A -> spec A (Mem A).
Proof. intros SA IA. split; [assumption|]. intro w. split; [intro H; split; [apply IA|]; assumption | tauto]. Qed.

(** two sets denoting predicates that agree inside the unit are equal *)
Lemma spec_unique A B P Q : spec A P -> spec B Q ->
  (forall w, mem L U w = true -> (P w <-> Q w)) -> A = B.
Proof.
  intros [SA EA] [SB EB] H. apply (tt_ext L); [apply WF | assumption | assumption |]. intro v.
  apply eq_true_iff_eq. rewrite EA, EB. split; intros [Hu Hp]; (split; [exact Hu | apply (H v Hu), Hp]).
Qed.

Lemma spec_subset A B P Q : spec A P -> spec B Q ->
  (forall w, mem L U w = true -> P w -> Q w) -> forall v, mem L A v = true -> mem L B v = true.
Proof. intros [SA EA] [SB EB] H v Hv. apply EA in Hv. apply EB. split; [tauto | apply H; tauto]. Qed.

(** an operator whose specification is monotone inside the unit is monotone on sets *)
Lemma unary_mono o S S' R R' :
  (forall (P P' : val -> Prop) w, (forall u, mem L U u = true -> P u -> P' u) ->
     mem L U w = true -> sat_unary G o P w -> sat_unary G o P' w) ->
  shaped L S -> shaped L S' -> inU S -> inU S' ->
  (forall v, mem L S v = true -> mem L S' v = true) ->
  eval_unary G U st o S = Ok R -> eval_unary G U st o S' = Ok R' ->
  forall v, mem L R v = true -> mem L R' v = true.
Proof.
  intros Hm SS SS' IS IS' HS H H'.
  apply (spec_subset _ _ _ _ (wf_unary_spec o _ _ _ (self_spec S SS IS) H)
                     (wf_unary_spec o _ _ _ (self_spec S' SS' IS') H')).
  intros w Hu. apply Hm; [intros u _; apply HS | exact Hu].
Qed.

Lemma binary_mono o S S' T T' R R' :
  (forall (P P' Q Q' : val -> Prop) w, (forall u, mem L U u = true -> P u -> P' u) ->
     (forall u, mem L U u = true -> Q u -> Q' u) ->
     mem L U w = true -> sat_binary G o P Q w -> sat_binary G o P' Q' w) ->
  shaped L S -> shaped L S' -> shaped L T -> shaped L T' ->
  inU S -> inU S' -> inU T -> inU T' ->
  (forall v, mem L S v = true -> mem L S' v = true) ->
  (forall v, mem L T v = true -> mem L T' v = true) ->
  eval_binary G U st o S T = Ok R -> eval_binary G U st o S' T' = Ok R' ->
  forall v, mem L R v = true -> mem L R' v = true.
Proof.
  intros Hm SS SS' ST ST' IS IS' IT IT' HS HT H H'.
  apply (spec_subset _ _ _ _
           (wf_binary_spec o _ _ _ _ _ (self_spec S SS IS) (self_spec T ST IT) H)
           (wf_binary_spec o _ _ _ _ _ (self_spec S' SS' IS') (self_spec T' ST' IT') H')).
  intros w Hu. apply Hm; [intros u _; apply HS | intros u _; apply HT | exact Hu].
Qed.

Lemma wf_flip v i : mem L U v = true -> mem L U (vflip (TS i) v) = true.
Proof. apply inUnit_flip, WF. Qed.

(** EF S = E[unit U S] *)
Theorem ef_is_eu S : eval_ef_saturated G U S = eval_eu_saturated G U S.
Proof. reflexivity. Qed.

(** E[S W T] = E[S U T] or EG S *)
Theorem ew_equation S T R Reu Reg : shaped L S -> inU S -> shaped L T -> inU T ->
  eval_ew G U S T st = Ok R -> eval_eu_saturated G S T = Ok Reu -> eval_eg G S st = Ok Reg ->
  R = tor Reu Reg.
Proof.
  intros SS IS ST IT H He Hg.
  pose proof (self_spec S SS IS) as HS. pose proof (self_spec T ST IT) as HT.
  pose proof (wf_binary_spec EU S T _ _ Reu HS HT He) as Heu.
  apply (spec_unique _ _ _ _ (wf_binary_spec EW S T _ _ R HS HT H)
           (spec_or G U _ _ _ _ Heu (wf_unary_spec EG S _ Reg HS Hg))).
  intros w Hu. apply EW_split.
  intro u. destruct (mem L Reu u) eqn:E.
  - left. apply (proj2 Heu) in E. tauto.
  - right. intro HE.
    assert (Huu : mem L U u = true).
    { destruct HE as [u Hq | u i Hp _ _ _]; [apply IT | apply IS]; assumption. }
    assert (X : mem L Reu u = true) by (apply (proj2 Heu); auto). congruence.
Qed.

(** A[S W T] = not E[not T U (not S and not T)] *)
Theorem aw_equation S T : eval_aw G U S T =
  (let* r := eval_eu_saturated G (eval_neg U T) (tand (eval_neg U S) (eval_neg U T)) in Ok (eval_neg U r)).
Proof. reflexivity. Qed.
End SetLaws.

Arguments wf_unary_spec {G U} WF o {A P R} _ _.
Arguments wf_binary_spec {G U} WF o {A B P Q R} _ _ _.
Arguments wf_spec_unit {G U} WF.
Arguments self_spec {G U} A _ _.
Arguments spec_unique {G U} WF {A B P Q} _ _ _.
Arguments spec_subset {G U A B P Q} _ _ _ v _.
Arguments unary_mono {G U} WF o {S S' R R'} _ _ _ _ _ _ _ _ v _.
Arguments binary_mono {G U} WF o {S S' T T' R R'} _ _ _ _ _ _ _ _ _ _ _ _ _ v _.
Arguments wf_flip {G U} WF v i _.

(** monotonicity of the weak untils, with the conditions on the graph spelled out *)
Section WeakMono.
Variable G : genv.
Local Notation L := (g_L G).
Local Notation n := (g_n G).
Hypothesis L_nodup : NoDup L.
Hypothesis upd_shaped : forall i, shaped L (upd_of G i).
Hypothesis TS_in : forall i, i < n -> In (TS i) L.
Variable U : tt.
Hypothesis U_shaped : shaped L U.
Hypothesis U_moves : forall v i, mem L U (vflip (TS i) v) = mem L U v.
Local Notation st := (steady_of G U).
Local Notation inU A := (forall v, mem L A v = true -> mem L U v = true).

Section Mono.
Variables S S' T T' : tt.
Hypothesis SS : shaped L S. Hypothesis SS' : shaped L S'.
Hypothesis ST : shaped L T. Hypothesis ST' : shaped L T'.
Hypothesis IS : inU S. Hypothesis IS' : inU S'.
Hypothesis IT : inU T. Hypothesis IT' : inU T'.
Hypothesis HS : forall v, mem L S v = true -> mem L S' v = true.
Hypothesis HT : forall v, mem L T v = true -> mem L T' v = true.

Theorem ew_mono R R' v : eval_ew G U S T st = Ok R -> eval_ew G U S' T' st = Ok R' ->
  mem L R v = true -> mem L R' v = true.
Proof.
  intros H H'.
  refine (binary_mono (Build_wf_graph G U L_nodup upd_shaped TS_in U_shaped U_moves) Syntax.EW _
            SS SS' ST ST' IS IS' IT IT' HS HT H H' v).
  intros P P' Q Q' w HP HQ. exact (EWs_mono_on G _ (inUnit_flip G U U_moves) P P' Q Q' HP HQ w).
Qed.

Theorem aw_mono R R' v : eval_aw G U S T = Ok R -> eval_aw G U S' T' = Ok R' ->
  mem L R v = true -> mem L R' v = true.
Proof.
  intros H H'.
  refine (binary_mono (Build_wf_graph G U L_nodup upd_shaped TS_in U_shaped U_moves) Syntax.AW _
            SS SS' ST ST' IS IS' IT IT' HS HT H H' v).
  intros P P' Q Q' w HP HQ. exact (AWs_mono_on G _ (inUnit_flip G U U_moves) P P' Q Q' HP HQ w).
Qed.
End Mono.
End WeakMono.
