(** The comparator of a spare copy with the state, the atoms of the model, and the shapedness
    of the hybrid operators. *)
From HCTL Require Import Base Syntax TT Ops Kripke HCTL TTFacts OpsFacts FixFacts SemFacts.

Section HybridFacts.
Variable G : genv.
Local Notation L := (g_L G).
Local Notation n := (g_n G).
Local Notation k := (g_k G).

Hypothesis L_nodup : NoDup L.
Hypothesis upd_shaped : forall i, shaped L (upd_of G i).
Hypothesis TS_in : forall i, i < n -> In (TS i) L.
Hypothesis TX_in : forall i e, i < n -> e < k -> In (TX i e) L.
Hypothesis TS_bound : forall i, In (TS i) L -> i < n.
Hypothesis TX_bound : forall i e, In (TX i e) L -> i < n.

Variable U : tt.
Hypothesis U_shaped : shaped L U.
(** the unit only depends on the colour *)
Hypothesis U_colour : forall v w, (forall j, v (TP j) = w (TP j)) -> mem L U v = mem L U w.

Local Notation inUnit v := (mem L U v = true).
Local Notation spec := (spec_of G U).

Lemma U_moves : forall v i, mem L U (vflip (TS i) v) = mem L U v.
Proof. intros v i. apply U_colour. intro j. reflexivity. Qed.

Lemma shaped_fold_tand (f : nat -> tt) l acc :
  shaped L acc -> (forall i, shaped L (f i)) ->
  shaped L (fold_left (fun a i => tand a (f i)) l acc).
Proof. apply shaped_fold_map2. Qed.

Lemma mem_fold_tand (f : nat -> tt) l : forall acc v,
  shaped L acc -> (forall i, shaped L (f i)) ->
  (mem L (fold_left (fun a i => tand a (f i)) l acc) v = true <->
   mem L acc v = true /\ forall i, In i l -> mem L (f i) v = true).
Proof. exact (mem_fold_map2_and andb (fun b => b) L f l (fun _ _ => eq_refl)). Qed.

Lemma shaped_cmp_item e i : shaped L (tiff (lit L (TX i e)) (lit L (TS i))).
Proof. apply shaped_tiff; apply shaped_lit. Qed.

Lemma shaped_cmp_fold e acc : shaped L acc ->
  shaped L (fold_left (fun a i => tand a (tiff (lit L (TX i e)) (lit L (TS i)))) (range n) acc).
Proof. intro H. apply shaped_fold_tand; [exact H | intro i; apply shaped_cmp_item]. Qed.

Lemma shaped_comparator e : shaped L (comparator_var_state G U e).
Proof. unfold comparator_var_state. apply shaped_tand; [apply shaped_cmp_fold|]; assumption. Qed.

Lemma mem_comparator e v : e < k ->
  (mem L (comparator_var_state G U e) v = true <-> inUnit v /\ copy_is_state G e v).
Proof.
  intro He. unfold comparator_var_state.
  rewrite mem_tand by (try apply shaped_cmp_fold; assumption).
  rewrite andb_true_iff.
  rewrite mem_fold_tand by (try assumption; intro; apply shaped_cmp_item).
  unfold copy_is_state. split.
  - intros [[Hu H] _]. split; [assumption|]. intros i Hi.
    specialize (H i (proj2 (in_range i n) Hi)).
    rewrite mem_tiff in H by apply shaped_lit.
    rewrite !mem_lit in H by auto. apply Bool.eqb_prop in H. exact H.
  - intros [Hu H]. split; [split|]; try assumption. intros i Hi. apply in_range in Hi.
    rewrite mem_tiff by apply shaped_lit. rewrite !mem_lit by auto.
    rewrite (H i Hi). apply Bool.eqb_reflx.
Qed.

Lemma spec_var e : e < k -> spec (eval_hctl_var G U e) (copy_is_state G e).
Proof.
  intro He. split; [apply shaped_comparator|]. intro w. apply mem_comparator; assumption.
Qed.

Lemma spec_prop i : i < n -> spec (eval_prop G U i) (fun v => v (TS i) = true).
Proof.
  intro Hi. unfold eval_prop. split; [auto with shaped|]. intro w.
  rewrite mem_tand by auto with shaped. rewrite mem_lit by auto. rewrite andb_true_iff. tauto.
Qed.

End HybridFacts.

#[export] Hint Resolve shaped_comparator : shaped.

Section Shapes.
Variable G : genv.
Local Notation L := (g_L G).

Lemma shaped_eval_hctl_var U e : shaped L U -> shaped L (eval_hctl_var G U e).
Proof. intros; unfold eval_hctl_var; auto with shaped. Qed.
Lemma shaped_eval_prop U i : shaped L U -> shaped L (eval_prop G U i).
Proof. intros; unfold eval_prop; auto with shaped. Qed.
Lemma shaped_eval_bind U a e : shaped L U -> shaped L a -> shaped L (eval_bind G U a e).
Proof. intros; unfold eval_bind, project_out_hctl_var; auto with shaped. Qed.
Lemma shaped_eval_exists a e : shaped L a -> shaped L (eval_exists G a e).
Proof. intros; unfold eval_exists, project_out_hctl_var; auto with shaped. Qed.
Lemma shaped_eval_jump U a e : shaped L U -> shaped L a -> shaped L (eval_jump G U a e).
Proof. intros; unfold eval_jump, project_out_bn_vars; auto with shaped. Qed.
Lemma shaped_valid_domain U dset e : shaped L U -> shaped L dset ->
  shaped L (compute_valid_domain_for_var G U dset e).
Proof. intros; unfold compute_valid_domain_for_var, project_out_bn_vars; auto with shaped. Qed.

End Shapes.

#[export] Hint Resolve shaped_eval_hctl_var shaped_eval_prop shaped_eval_bind shaped_eval_exists
  shaped_eval_jump shaped_valid_domain : shaped.
