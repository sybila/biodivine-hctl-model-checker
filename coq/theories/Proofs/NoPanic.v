(** Facts for property C14: invalid input is rejected with an error, never with a panic and
    never silently.

    Covered: the plain string entry points ([m_ext = false]) with the evaluation context that
    marks no duplicates ([m_nocache = true]); sanitised results with the real self-loop set
    ([m_unsafe_ex = false]), dirty results with either self-loop set ([covered]); pattern
    shortcuts on or off.  The cache and the extended entry points: CachedFacts.v. *)
From HCTL Require Import Base Syntax Tokenizer Parser Preprocess Canon MarkDup TT Ops Eval Pipeline.
From HCTL Require Import Kripke HCTL.
From HCTL Require Import TTFacts OpsFacts EvalPure Main LayoutFacts.
From HCTL Require Import PrepFacts ParserFacts Termination ClosedIndep SpacingFacts.
From HCTL Require Import BaseFacts.

(** * The tokenizer *)

(** tokens without wild-card atoms and without domains (at any nesting depth) *)
Fixpoint plain_tokb (t : token) : bool :=
  match t with
  | THyb _ _ d => match d with None => true | Some _ => false end
  | TAtom (AWild _) => false
  | TGroup ts => forallb plain_tokb ts
  | _ => true
  end.
Definition plain_toks (ts : list token) : Prop := forallb plain_tokb ts = true.

Lemma plain_toks_nil : plain_toks [].
Proof. reflexivity. Qed.

Lemma plain_toks_cons x ts : plain_toks (x :: ts) <-> plain_tokb x = true /\ plain_toks ts.
Proof. unfold plain_toks. cbn [forallb]. apply andb_true_iff. Qed.

Lemma plain_toks_app l r : plain_toks (l ++ r) <-> plain_toks l /\ plain_toks r.
Proof. unfold plain_toks. rewrite forallb_app. apply andb_true_iff. Qed.

Section TokFacts.
Variable ext_alnum : N -> bool.

(** the loop invariant of SpacingFacts.v with "every token so far is plain": in the plain
    syntax [next] reads no wild-card atom and no domain *)
Lemma tok_plain f cs top acc : length cs < f -> plain_toks acc ->
  loop_ok plain_tokb (tok ext_alnum f cs top false acc) (length cs).
Proof.
  apply (tok_inv ext_alnum false plain_tokb); [exact (fun g H => H)|].
  intros c rest tk r N. pose proof (next_plain ext_alnum false c rest tk r eq_refl N) as X.
  destruct tk as [| |? ? [|]|[]|]; try reflexivity; destruct X.
Qed.

(** every call of [tok] consumes at least one character, so any fuel above the length of
    the input suffices; the outcome is tokens with a rest no longer than the input, or a
    lexical error *)
Theorem tok_fuel_suffices f cs top ext acc : length cs < f ->
  tok ext_alnum f cs top ext acc <> OutOfFuel
  /\ (forall p, tok ext_alnum f cs top ext acc <> Panic p)
  /\ (forall e, tok ext_alnum f cs top ext acc = Err e -> e = ELex)
  /\ (forall ts rest, tok ext_alnum f cs top ext acc = Ok (ts, rest) ->
                      length rest <= length cs).
Proof.
  intro LT. pose proof (tok_outcome ext_alnum ext f cs top acc LT) as F.
  destruct (tok ext_alnum f cs top ext acc) as [[ts r]|e|p|]; cbn [loop_ok] in F;
    try contradiction; repeat split; try discriminate.
  - intros ts' rest' E. injection E as <- <-. apply F.
  - intros e' E. injection E as <-. exact F.
Qed.

Theorem tokenize_ok_or_lex ext s :
  (exists ts, tokenize ext_alnum ext s = Ok ts /\ (ext = false -> plain_toks ts))
  \/ tokenize ext_alnum ext s = Err ELex.
Proof.
  unfold tokenize.
  assert (loop_ok (fun t => ext || plain_tokb t) (tok ext_alnum (S (length s)) s true ext []) (length s)) as F.
  { destruct ext; [|apply (tok_plain (S (length s)) s true []); [lia | reflexivity]].
    apply tok_outcome. lia. }
  destruct (tok ext_alnum (S (length s)) s true ext []) as [[ts r]|e|p|]; cbn [loop_ok] in F;
    cbn [bind]; try contradiction.
  - left. exists ts. split; [reflexivity|]. intros ->. apply F.
  - right. subst e. reflexivity.
Qed.

Theorem tokenize_no_panic ext s p : tokenize ext_alnum ext s <> Panic p.
Proof. destruct (tokenize_ok_or_lex ext s) as [[ts [-> _]] | ->]; discriminate. Qed.

Theorem tokenize_no_fuel ext s : tokenize ext_alnum ext s <> OutOfFuel.
Proof. destruct (tokenize_ok_or_lex ext s) as [[ts [-> _]] | ->]; discriminate. Qed.

Theorem tokenize_err_lex ext s e : tokenize ext_alnum ext s = Err e -> e = ELex.
Proof.
  destruct (tokenize_ok_or_lex ext s) as [[ts [-> _]] | ->]; [discriminate|].
  intro H. injection H as <-. reflexivity.
Qed.

Theorem tokenize_plain s ts : tokenize ext_alnum false s = Ok ts -> plain_toks ts.
Proof.
  destruct (tokenize_ok_or_lex false s) as [[ts' [-> P]] | ->]; [|discriminate].
  intro H. injection H as <-. apply P. reflexivity.
Qed.

End TokFacts.

(** * The parser keeps plain tokens plain *)

Lemma atom_of_prop_name_plain name : plainf (Terminal (atom_of_prop_name name)).
Proof.
  unfold atom_of_prop_name.
  destruct (str_eqb name s_true || str_eqb name s_True || str_eqb name s_1); [exact I|].
  destruct (str_eqb name s_false || str_eqb name s_False || str_eqb name s_0); exact I.
Qed.

Lemma grammar_plain :
  (forall ts t, G ts t -> plain_toks ts -> plainf t) /\
  (forall (n : nat) ts t, L n ts t -> plain_toks ts -> plainf t) /\
  (forall ts t, U ts t -> plain_toks ts -> plainf t).
Proof.
  apply GLU_mutind.
  - intros o x d ts t _ IH P. apply plain_toks_cons in P. destruct P as [Pd P].
    cbn [plain_tokb] in Pd. cbn [plainf]. split; [|apply IH, P].
    destruct d; [discriminate Pd | reflexivity].
  - intros ts t _ IH. exact IH.
  - intros ts t _ IH. exact IH.
  - intros n o l r a b _ _ IHl _ IHr P. apply plain_toks_app in P. destruct P as [Pl P].
    apply plain_toks_cons in P. destruct P as [_ Pr]. cbn [plainf]. split; auto.
  - intros n ts t _ IH. exact IH.
  - intros o ts t _ IH P. apply plain_toks_cons in P. cbn [plainf]. apply IH, P.
  - intros name _. apply atom_of_prop_name_plain.
  - intros x _. exact I.
  - intros p P. apply plain_toks_cons in P. destruct P as [P _]. discriminate P.
  - intros ts t _ IH P. apply plain_toks_cons in P. destruct P as [P _]. apply IH, P.
Qed.

Theorem parse_plain ts t : parse_tokens ts = Ok t -> plain_toks ts -> plainf t.
Proof. intro H. apply (proj1 grammar_plain), parse_sound, H. Qed.

Section ParseFormula.
Variable ext_alnum : N -> bool.

Theorem parse_formula_cases ext s :
  (exists ts t, tokenize ext_alnum ext s = Ok ts /\ parse_tokens ts = Ok t
                /\ parse_formula ext_alnum ext s = Ok t)
  \/ (tokenize ext_alnum ext s = Err ELex /\ parse_formula ext_alnum ext s = Err ELex)
  \/ (exists ts, tokenize ext_alnum ext s = Ok ts /\ parse_tokens ts = Err EParse
                 /\ parse_formula ext_alnum ext s = Err EParse).
Proof.
  unfold parse_formula.
  destruct (tokenize_ok_or_lex ext_alnum ext s) as [[ts [E _]] | E]; rewrite E; cbn [bind].
  - destruct (parse_tokens_benign ts) as [[t Ht] | Ht].
    + left. exists ts, t. auto.
    + right. right. exists ts. auto.
  - right. left. auto.
Qed.

Theorem parse_formula_plain s t : parse_formula ext_alnum false s = Ok t -> plainf t.
Proof.
  intro H. destruct (bind_ok_inv _ _ _ H) as (ts & E & HP).
  eapply parse_plain; [exact HP | eapply tokenize_plain, E].
Qed.

End ParseFormula.

(** * Bridges from C07 to the hypotheses of the evaluator theorems *)

Lemma plainf_rename t : forall scope, plainf (rename scope t) <-> plainf t.
Proof.
  induction t as [a | o c IH | o l IHl r IHr | o x d c IH]; intro scope; cbn [rename].
  - destruct a; cbn [plainf]; tauto.
  - cbn [plainf]. apply IH.
  - cbn [plainf]. rewrite IHl, IHr. tauto.
  - destruct (is_quantifier o); cbn [plainf]; rewrite IH; tauto.
Qed.

Lemma in_index_of nm names : forall i, In nm names -> index_of nm names i <> None.
Proof.
  induction names as [|y names IH]; intros i IN; cbn [In] in IN; [contradiction|].
  cbn [index_of]. destruct (str_eqb nm y) eqn:E; [discriminate|].
  destruct IN as [EQ|IN]; [|apply IH, IN].
  subst y. rewrite str_eqb_refl in E. discriminate E.
Qed.

Lemma props_known_rename props t : forall scope,
  well_scoped props scope t -> props_known props (rename scope t).
Proof.
  induction t as [a | o c IH | o l IHl r IHr | o x d c IH]; intros scope WS;
    cbn [well_scoped] in WS; cbn [rename].
  - destruct a; cbn [props_known]; try exact I. apply in_index_of, WS.
  - cbn [props_known]. apply IH, WS.
  - cbn [props_known]. destruct WS as [WSl WSr]. split; [apply IHl, WSl | apply IHr, WSr].
  - destruct (is_quantifier o); cbn [props_known]; apply IH, WS.
Qed.

Lemma supported_rename Gv props t : forall scope,
  well_scoped props scope t -> length scope + qdepth t <= g_k Gv ->
  supported Gv (rename scope t).
Proof.
  induction t as [a | o c IH | o l IHl r IHr | o x d c IH]; intros scope WS LE;
    cbn [well_scoped] in WS; cbn [qdepth] in LE; cbn [rename].
  - destruct a as [p | x | | | wl]; cbn [supported]; try exact I.
    destruct (rename_var_binder_depth scope x WS) as [j [_ [LT ->]]].
    rewrite ExtEval.var_of_xs by lia. discriminate.
  - cbn [supported]. apply IH; assumption.
  - cbn [supported]. destruct WS as [WSl WSr]. split; [apply IHl | apply IHr]; auto; lia.
  - destruct (is_quantifier o) eqn:Q; cbn [supported].
    + destruct WS as [_ WS]. split.
      * rewrite ExtEval.var_of_xs by lia. discriminate.
      * apply IH; [exact WS | cbn [length]; lia].
    + destruct WS as [WS IN]. split; [|apply IH; assumption].
      destruct (rename_var_binder_depth scope x IN) as [j [_ [LT ->]]].
      rewrite ExtEval.var_of_xs by lia. discriminate.
Qed.

(** what C07 gives about an accepted formula, in the vocabulary of the evaluator theorems *)
Theorem preprocess_bridge props t t' :
  preprocess props t = Ok t' ->
  (plainf t' <-> plainf t)
  /\ props_known props t'
  /\ depth_named 0 t'
  /\ num_hctl_vars t' = qdepth t
  /\ forall Gv, num_hctl_vars t' <= g_k Gv -> supported Gv t'.
Proof.
  intro H. destruct (preprocess_names_by_depth props t t' H) as [_ [DN NV]].
  apply preprocess_ok_iff in H. destruct H as [WS ->].
  split; [apply plainf_rename|]. split; [apply props_known_rename, WS|].
  split; [exact DN|]. split; [exact NV|].
  intros Gv LE. eapply supported_rename; [exact WS|]. cbn [length]. lia.
Qed.

(** * The error class of [preprocess] *)

(** the first scoping violation in reading order (the order of [prep]): a variable occurrence
    or jump target that is not in scope, a quantifier over a name already in scope, an unknown
    proposition; a jump reports its body before its own target *)
Inductive scope_violation (props : list str) : list str -> tree -> errkind -> Prop :=
| SV_var scope x : ~ In x scope -> scope_violation props scope (Terminal (AVar x)) EFreeVar
| SV_prop scope p : ~ In p props -> scope_violation props scope (Terminal (AProp p)) EUnknownProp
| SV_unary scope o c e : scope_violation props scope c e -> scope_violation props scope (Unary o c) e
| SV_left scope o l r e : scope_violation props scope l e -> scope_violation props scope (Binary o l r) e
| SV_right scope o l r e : well_scoped props scope l -> scope_violation props scope r e ->
    scope_violation props scope (Binary o l r) e
| SV_requant scope o x d c : is_quantifier o = true -> In x scope ->
    scope_violation props scope (Hybrid o x d c) ERequantified
| SV_body scope o x d c e : is_quantifier o = true -> ~ In x scope ->
    scope_violation props (x :: scope) c e -> scope_violation props scope (Hybrid o x d c) e
| SV_jump_body scope x d c e : scope_violation props scope c e ->
    scope_violation props scope (Hybrid Jump x d c) e
| SV_jump_target scope x d c : well_scoped props scope c -> ~ In x scope ->
    scope_violation props scope (Hybrid Jump x d c) EFreeVar.

Lemma scope_violation_class props scope t e :
  scope_violation props scope t e -> e = EFreeVar \/ e = ERequantified \/ e = EUnknownProp.
Proof. induction 1; auto. Qed.

(** on a violation [sprep] (PrepFacts.v: [prep] as a function of the scope) answers its class *)
Lemma sprep_violation_err props scope t e : scope_violation props scope t e ->
  sprep props scope t = Err e.
Proof.
  induction 1 as [scope x N | scope p N | scope o c e _ IH | scope o l r e _ IH
                 | scope o l r e WS _ IH | scope o x d c Q IN | scope o x d c e Q N _ IH
                 | scope x d c e _ IH | scope x d c WS N]; cbn [sprep is_quantifier].
  - destruct (slookup_spec scope x) as [[IN _] | [_ ->]]; [contradiction | reflexivity].
  - destruct (existsb (str_eqb p) props) eqn:E; [|reflexivity]. apply existsb_str_in in E. contradiction.
  - rewrite IH. reflexivity.
  - rewrite IH. reflexivity.
  - destruct (sprep_spec props l scope) as [_ | e' NW]; [|contradiction]. cbn [bind]. rewrite IH. reflexivity.
  - rewrite Q. destruct (index_in x scope IN) as [i [-> _]]. reflexivity.
  - rewrite Q, (index_not_in x scope N), IH. reflexivity.
  - rewrite IH. reflexivity.
  - destruct (sprep_spec props c scope) as [_ | e' NW]; [|contradiction]. cbn [bind].
    destruct (slookup_spec scope x) as [[IN _] | [_ ->]]; [contradiction | reflexivity].
Qed.

(** a tree is well scoped or has a first violation *)
Lemma scoped_or_violation props t : forall scope,
  well_scoped props scope t \/ exists e, scope_violation props scope t e.
Proof.
  pose proof (in_dec (list_eq_dec N.eq_dec)) as dec.
  induction t as [a | o c IH | o l IHl r IHr | o x d c IH]; intro scope; cbn [well_scoped].
  - destruct a as [p | x | | | wl]; auto.
    + destruct (dec p props); [left; assumption | right; eexists; apply SV_prop; assumption].
    + destruct (dec x scope); [left; assumption | right; eexists; apply SV_var; assumption].
  - destruct (IH scope) as [WS | [e V]]; [left; exact WS | right; exists e; apply SV_unary, V].
  - destruct (IHl scope) as [WSl | [e V]]; [|right; exists e; apply SV_left, V].
    destruct (IHr scope) as [WSr | [e V]]; [left; auto | right; exists e; apply SV_right; assumption].
  - destruct (is_quantifier o) eqn:Q.
    + destruct (dec x scope) as [IN | N]; [right; eexists; apply SV_requant; assumption|].
      destruct (IH (x :: scope)) as [WS | [e V]]; [left; auto | right; exists e; apply SV_body; assumption].
    + rewrite (not_quantifier_jump o Q).
      destruct (IH scope) as [WS | [e V]]; [|right; exists e; apply SV_jump_body, V].
      destruct (dec x scope) as [IN | N]; [left; auto | right; eexists; apply SV_jump_target; assumption].
Qed.

(** the error of [preprocess] is the class of the first violation *)
Theorem preprocess_err_iff props t e :
  preprocess props t = Err e <-> scope_violation props [] t e.
Proof.
  unfold preprocess. change (prep props [] [] t) with (prep props [] (xs (length (@nil str))) t).
  rewrite (prep_sprep props t [] [] ren_inv_nil).
  split; [|apply sprep_violation_err].
  intro H. destruct (scoped_or_violation props t []) as [WS | [e' V]].
  - destruct (sprep_spec props t []) as [_ | e0 NW]; [discriminate H | contradiction].
  - rewrite (sprep_violation_err props [] t e' V) in H. injection H as <-. exact V.
Qed.

(** ill-scoped = some violation; the violation met first is unique *)
Theorem not_well_scoped_iff props t :
  ~ well_scoped props [] t <-> exists e, scope_violation props [] t e.
Proof.
  split.
  - intro N. destruct (scoped_or_violation props t []) as [WS | V]; [contradiction | exact V].
  - intros [e V] WS. apply preprocess_err_iff in V.
    apply preprocess_accepts_iff_well_scoped in WS. destruct WS as [t' E]. congruence.
Qed.

Theorem scope_violation_unique props t e e' :
  scope_violation props [] t e -> scope_violation props [] t e' -> e = e'.
Proof. intros V V'. apply preprocess_err_iff in V, V'. congruence. Qed.

(** * Validation: the first failing check of the first failing formula decides *)

(** [first_reject P R l e]: some element of [l] is rejected with [e] and all elements before
    it pass *)
Inductive first_reject {A E : Type} (P : A -> Prop) (R : A -> E -> Prop) : list A -> E -> Prop :=
| FR_here x l e : R x e -> first_reject P R (x :: l) e
| FR_later x l e : P x -> first_reject P R l e -> first_reject P R (x :: l) e.

Lemma first_reject_split {A E} (P : A -> Prop) (R : A -> E -> Prop) l e :
  first_reject P R l e <->
  exists l1 x l2, l = l1 ++ x :: l2 /\ List.Forall P l1 /\ R x e.
Proof.
  split.
  - induction 1 as [x l e Hx | x l e Hx _ [l1 [y [l2 [-> [F Hy]]]]]].
    + exists [], x, l. split; [reflexivity|]. split; [constructor | exact Hx].
    + exists (x :: l1), y, l2. split; [reflexivity|]. split; [constructor; assumption | exact Hy].
  - intros [l1 [x [l2 [-> [F Hx]]]]]. induction F as [|y l1 Hy _ IH].
    + apply FR_here, Hx.
    + cbn [app]. apply FR_later; assumption.
Qed.

Lemma first_reject_none {A E} (P : A -> Prop) (R : A -> E -> Prop) l e :
  (forall x e, P x -> ~ R x e) -> List.Forall P l -> ~ first_reject P R l e.
Proof.
  intros X F FR. induction FR as [x l e Hx | x l e _ _ IH]; inversion F; subst;
    [eapply X; eassumption | auto].
Qed.

(** the verdicts transported along a position-wise relation (strings and their trees) *)
Lemma first_reject_Forall2 {A B E} (P : A -> Prop) (R : A -> E -> Prop) (P' : B -> Prop)
      (R' : B -> E -> Prop) (rel : A -> B -> Prop) l l' e :
  (forall x y, rel x y -> (P x <-> P' y)) -> (forall x y, rel x y -> (R x e <-> R' y e)) ->
  Forall2 rel l l' -> (first_reject P R l e <-> first_reject P' R' l' e).
Proof.
  intros HP HR F. induction F as [|x y l l' Hxy _ IH]; split; intro H; inversion H; subst.
  - apply FR_here, (HR x y Hxy); assumption.
  - apply FR_later; [apply (HP x y Hxy) | apply IH]; assumption.
  - apply FR_here, (HR x y Hxy); assumption.
  - apply FR_later; [apply (HP x y Hxy) | apply IH]; assumption.
Qed.

Lemma first_reject_Exists {A E} (P : A -> Prop) (R : A -> E -> Prop) l :
  (forall x, P x \/ exists e, R x e) ->
  ((exists e, first_reject P R l e) <-> List.Exists (fun x => exists e, R x e) l).
Proof.
  intro D. split.
  - intros [e H]. induction H as [x l e Hx | x l e _ _ IH]; [left; exists e; exact Hx | right; exact IH].
  - induction l as [|x l IH]; intro H; inversion H as [? ? [e Hx] | ? ? H']; subst.
    + exists e. apply FR_here, Hx.
    + destruct (D x) as [Px | [e Hx]]; [|exists e; apply FR_here, Hx].
      destruct (IH H') as [e FR]. exists e. apply FR_later; assumption.
Qed.

(** What follows from "one answer per input when every input passes, otherwise the error of
    the first rejected input", for any computation [out] over the inputs [fs]. *)
Section Outcome.
Context {A B : Type} (P : A -> Prop) (R : A -> errkind -> Prop) (out : res (list B)) (fs : list A).
Hypothesis cases :
  (exists rs, out = Ok rs /\ length rs = length fs /\ List.Forall P fs)
  \/ (exists e, out = Err e /\ first_reject P R fs e).

Lemma cases_no_panic : (forall p, out <> Panic p) /\ out <> OutOfFuel.
Proof. destruct cases as [(rs & -> & _) | (e & -> & _)]; split; try intro p; discriminate. Qed.

Lemma cases_err e : out = Err e -> first_reject P R fs e.
Proof.
  intro H. destruct cases as [(rs & E & _) | (e' & E & FR)]; rewrite E in H; [discriminate|].
  injection H as <-. exact FR.
Qed.

Hypothesis excl : forall x e, P x -> ~ R x e.

Lemma cases_ok_iff : (exists rs, out = Ok rs) <-> List.Forall P fs.
Proof.
  split.
  - intros [rs H]. destruct cases as [(rs' & _ & _ & AC) | (e & E & _)]; [exact AC | congruence].
  - intro AC. destruct cases as [(rs & E & _) | (e & _ & FR)]; [exists rs; exact E|].
    destruct (first_reject_none P R fs e excl AC FR).
Qed.

Lemma cases_some_err_iff : (exists e, out = Err e) <-> exists e, first_reject P R fs e.
Proof.
  split.
  - intros [e H]. exists e. apply cases_err, H.
  - intros [e FR]. destruct cases as [(rs & _ & _ & AC) | (e' & E & _)]; [|exists e'; exact E].
    destruct (first_reject_none P R fs e excl AC FR).
Qed.
End Outcome.

(** verdict on a parsed formula *)
Definition tree_ok (props : list str) (k : nat) (t : tree) : Prop :=
  well_scoped props [] t /\ qdepth t <= k.

(** the cause of a rejection and its error class: the first scoping violation, or more
    nested quantifiers than the graph has spare copies *)
Definition tree_rejected (props : list str) (k : nat) (t : tree) (e : errkind) : Prop :=
  scope_violation props [] t e \/ (well_scoped props [] t /\ k < qdepth t /\ e = EVarSupport).

Lemma tree_ok_or_rejected props k t :
  tree_ok props k t \/ exists e, tree_rejected props k t e.
Proof.
  destruct (scoped_or_violation props t []) as [WS | [e V]]; [|right; exists e; left; exact V].
  destruct (Nat.le_gt_cases (qdepth t) k) as [LE|GT]; [left; split; assumption|].
  right. exists EVarSupport. right. auto.
Qed.

Lemma tree_ok_not_rejected props k t e : tree_ok props k t -> ~ tree_rejected props k t e.
Proof.
  intros [WS LE] [V | [_ [GT _]]]; [|lia].
  apply (proj2 (not_well_scoped_iff props t)); [exists e; exact V | exact WS].
Qed.

Lemma tree_rejected_iff props k t :
  (exists e, tree_rejected props k t e) <-> (~ well_scoped props [] t \/ k < qdepth t).
Proof.
  split.
  - intros [e [V | [_ [GT _]]]]; [left | right; exact GT].
    apply not_well_scoped_iff. exists e. exact V.
  - intros [N | GT].
    + apply not_well_scoped_iff in N. destruct N as [e V]. exists e. left. exact V.
    + destruct (tree_ok_or_rejected props k t) as [[_ LE] | R]; [lia | exact R].
Qed.

(** ** one round of [validate_all], for either syntax

    Per formula: tokenizer, parser, then the checks on the tree -- scoping, number of spare
    copies and, for the extended syntax only, the context labels ([divide_wild_cards]).  The
    verdicts of the tree checks ([OKt], [RJt]) are left open here: [tree_ok], [tree_rejected]
    for the plain syntax, the same with known / missing labels for the extended one
    (CachedFacts.v). *)

(** scoping and number of spare copies *)
Definition scope_check (props : list str) (k : nat) (t : tree) : res tree :=
  let* t' := preprocess props t in
  if Nat.ltb k (num_hctl_vars t') then Err EVarSupport else Ok t'.

Lemma scope_check_ok props k t : tree_ok props k t -> scope_check props k t = Ok (rename [] t).
Proof.
  intros [WS LE]. unfold scope_check.
  rewrite (proj2 (preprocess_ok_iff props t (rename [] t)) (conj WS eq_refl)). cbn [bind].
  rewrite num_hctl_vars_rename. destruct (Nat.ltb_spec k (qdepth t)); [lia | reflexivity].
Qed.

Lemma scope_check_rejects props k t e : tree_rejected props k t e -> scope_check props k t = Err e.
Proof.
  unfold scope_check. intros [V | [WS [GT ->]]].
  - rewrite (proj2 (preprocess_err_iff props t e) V). reflexivity.
  - rewrite (proj2 (preprocess_ok_iff props t (rename [] t)) (conj WS eq_refl)). cbn [bind].
    rewrite num_hctl_vars_rename. destruct (Nat.ltb_spec k (qdepth t)); [reflexivity | lia].
Qed.

Section Round.
Variable ext_alnum : N -> bool.
Variable ext : bool.
Variable props : list str.
Variable k : nat.
Variable ctx : list (str * tt).
Variable OKt : tree -> Prop.
Variable RJt : tree -> errkind -> Prop.
Local Notation parse_formula := (parse_formula ext_alnum).

Definition context_check (t : tree) : res (list (str * tt) * list (str * tt)) :=
  if ext then divide_wild_cards t ctx else Ok ([], []).

Definition validate_tree (t : tree) : res (tree * list (str * tt) * list (str * tt)) :=
  let* t' := scope_check props k t in let* (cp, cd) := context_check t' in Ok (t', cp, cd).

Definition validate_one (f : str) : res (tree * list (str * tt) * list (str * tt)) :=
  let* t := parse_formula ext f in validate_tree t.

Lemma validate_all_cons f rest :
  validate_all ext_alnum ext props k ctx (f :: rest) =
  let* (tc, cd) := validate_one f in
  let* (tsp, ds) := validate_all ext_alnum ext props k ctx rest in
  Ok (fst tc :: fst tsp, snd tc ++ snd tsp, cd ++ ds).
Proof.
  cbn [validate_all]. unfold validate_one, validate_tree, scope_check, context_check, parse_and_minimize.
  destruct (parse_formula ext f) as [t0| | |]; cbn [bind]; [|reflexivity..].
  destruct (preprocess props t0) as [t| | |]; cbn [bind]; [|reflexivity..].
  destruct (Nat.ltb k (num_hctl_vars t)); [reflexivity|]. cbn [bind].
  destruct (if ext then divide_wild_cards t ctx else Ok ([], [])) as [[cp cd]| | |];
    cbn [bind fst snd]; reflexivity.
Qed.

(** verdicts on a formula string; the suffix G marks what is generic in the two predicates
    [OKt], [RJt] on parsed trees (the section variables), instantiated further down *)
Definition acceptedG (f : str) : Prop := exists t, parse_formula ext f = Ok t /\ OKt t.

Definition rejectedG (f : str) (e : errkind) : Prop :=
  (tokenize ext_alnum ext f = Err ELex /\ e = ELex)
  \/ (exists ts, tokenize ext_alnum ext f = Ok ts /\ parse_tokens ts = Err EParse /\ e = EParse)
  \/ (exists t, parse_formula ext f = Ok t /\ RJt t e).

(** what an accepted formula hands to the evaluator *)
Definition preparedG (f : str) (t' : tree) : Prop :=
  exists t, parse_formula ext f = Ok t /\ OKt t /\ t' = rename [] t.

(** with the formula parsed: the verdicts are those of its tree *)
Lemma acceptedG_parsed f t : parse_formula ext f = Ok t -> (acceptedG f <-> OKt t).
Proof.
  intro HP. split; [|intro OK; exists t; auto].
  intros [t0 [HP0 OK]]. assert (t0 = t) as -> by congruence. exact OK.
Qed.

Lemma rejectedG_parsed f t e : parse_formula ext f = Ok t -> (rejectedG f e <-> RJt t e).
Proof.
  intro HP. split; [|intro RJ; right; right; exists t; auto].
  (* through [bind_ok_inv], so that no step asks whether [parse_tokens] unfolds *)
  destruct (bind_ok_inv _ _ _ HP) as (ts & HT0 & HPk0).
  intros [[HT _] | [[tk [HT [HPk _]]] | [t0 [HP0 RJ]]]].
  - rewrite HT in HT0. discriminate HT0.
  - rewrite HT in HT0. injection HT0 as <-. rewrite HPk in HPk0. discriminate HPk0.
  - rewrite HP in HP0. injection HP0 as <-. exact RJ.
Qed.

(* met by [plain_tree_accepts], [plain_tree_rejects], [tree_ok_or_rejected] below for the plain
   syntax, by [ext_tree_accepts], [ext_tree_rejects], [ext_tree_cases] of CachedFacts.v for the
   extended one *)
Hypothesis tree_accepts : forall t, OKt t -> exists cp cd, validate_tree t = Ok (rename [] t, cp, cd).
Hypothesis tree_rejects : forall t e, RJt t e -> validate_tree t = Err e.
Hypothesis tree_cases : forall t, OKt t \/ exists e, RJt t e.

Lemma validate_one_accepts f t :
  parse_formula ext f = Ok t -> OKt t -> exists cp cd, validate_one f = Ok (rename [] t, cp, cd).
Proof. intros HP OK. unfold validate_one. rewrite HP. apply tree_accepts, OK. Qed.

Lemma validate_one_rejects f e : rejectedG f e -> validate_one f = Err e.
Proof.
  unfold validate_one. intros [[HT ->] | [[ts [HT [HP ->]]] | [t [HP RJ]]]].
  - unfold Pipeline.parse_formula. rewrite HT. reflexivity.
  - unfold Pipeline.parse_formula. rewrite HT. cbn [bind]. rewrite HP. reflexivity.
  - rewrite HP. apply tree_rejects, RJ.
Qed.

Lemma classify f : acceptedG f \/ exists e, rejectedG f e.
Proof.
  destruct (parse_formula_cases ext_alnum ext f) as [[ts [t [HT [HP HF]]]] | [[HT HF] | [ts [HT [HP HF]]]]].
  - destruct (tree_cases t) as [OK | [e R]]; [left; exists t; auto|].
    right. exists e. right. right. exists t. auto.
  - right. exists ELex. left. auto.
  - right. exists EParse. right. left. exists ts. auto.
Qed.

Lemma accepted_not_rejectedG f e : acceptedG f -> ~ rejectedG f e.
Proof.
  intros (t & HP & OK) RJ. apply validate_one_rejects in RJ.
  destruct (validate_one_accepts f t HP OK) as (cp & cd & E). rewrite E in RJ. discriminate RJ.
Qed.

Lemma rejectedG_unique f e e' : rejectedG f e -> rejectedG f e' -> e = e'.
Proof. intros R R'. apply validate_one_rejects in R, R'. congruence. Qed.

Theorem validate_all_casesG fs :
  (exists ts cp cd, validate_all ext_alnum ext props k ctx fs = Ok (ts, cp, cd)
                    /\ Forall2 preparedG fs ts)
  \/ (exists e, validate_all ext_alnum ext props k ctx fs = Err e
                /\ first_reject acceptedG rejectedG fs e).
Proof.
  induction fs as [|f rest IH].
  - left. exists [], [], []. split; [reflexivity | constructor].
  - rewrite validate_all_cons. destruct (classify f) as [AC | [e RJ]].
    + pose proof AC as (t & HP & OK).
      destruct (validate_one_accepts f t HP OK) as (cp & cd & ->). cbn [bind].
      destruct IH as [(ts & cp' & cd' & -> & F) | (e & -> & FR)]; cbn [bind fst snd].
      * left. do 3 eexists. split; [reflexivity|]. constructor; [exists t; auto | exact F].
      * right. exists e. split; [reflexivity | apply FR_later; assumption].
    + rewrite (validate_one_rejects f e RJ). right. exists e. split; [reflexivity | apply FR_here, RJ].
Qed.

Lemma first_reject_validateG fs e :
  first_reject acceptedG rejectedG fs e -> validate_all ext_alnum ext props k ctx fs = Err e.
Proof.
  induction 1 as [f rest e RJ | f rest e (t & HP & OK) _ IH]; rewrite validate_all_cons.
  - rewrite (validate_one_rejects f e RJ). reflexivity.
  - destruct (validate_one_accepts f t HP OK) as (cp & cd & ->). cbn [bind]. rewrite IH. reflexivity.
Qed.

Lemma prepared_validated fs ts :
  Forall2 preparedG fs ts -> exists cp cd, validate_all ext_alnum ext props k ctx fs = Ok (ts, cp, cd).
Proof.
  induction 1 as [|f t' rest ts (t & HP & OK & ->) _ (cp' & cd' & IH)]; [exists [], []; reflexivity|].
  rewrite validate_all_cons. destruct (validate_one_accepts f t HP OK) as (cp & cd & ->). cbn [bind].
  rewrite IH. cbn [bind fst snd]. do 2 eexists. reflexivity.
Qed.

End Round.

Section Entry.
Variable ext_alnum : N -> bool.
Local Notation parse_formula := (parse_formula ext_alnum).

(** verdict on a formula string (plain syntax) *)
Definition accepted (props : list str) (k : nat) (f : str) : Prop :=
  exists t, parse_formula false f = Ok t /\ tree_ok props k t.

Definition rejected (props : list str) (k : nat) (f : str) (e : errkind) : Prop :=
  (tokenize ext_alnum false f = Err ELex /\ e = ELex)
  \/ (exists ts, tokenize ext_alnum false f = Ok ts /\ parse_tokens ts = Err EParse /\ e = EParse)
  \/ (exists t, parse_formula false f = Ok t /\ tree_rejected props k t e).

Definition prepared (props : list str) (k : nat) : str -> tree -> Prop :=
  preparedG ext_alnum false (tree_ok props k).

(** the plain syntax as an instance of [Round]: no context check, and the verdicts are those
    of [Round] at [tree_ok], [tree_rejected] *)
Lemma accepted_plain props k : accepted props k = acceptedG ext_alnum false (tree_ok props k).
Proof. reflexivity. Qed.

Lemma rejected_plain props k :
  rejected props k = rejectedG ext_alnum false (tree_rejected props k).
Proof. reflexivity. Qed.

Lemma plain_tree_accepts props k ctx t : tree_ok props k t ->
  exists cp cd, validate_tree false props k ctx t = Ok (rename [] t, cp, cd).
Proof. intro OK. unfold validate_tree. rewrite (scope_check_ok props k t OK). exists [], []. reflexivity. Qed.

Lemma plain_tree_rejects props k ctx t e : tree_rejected props k t e ->
  validate_tree false props k ctx t = Err e.
Proof. intro RJ. unfold validate_tree. rewrite (scope_check_rejects props k t e RJ). reflexivity. Qed.

Lemma accepted_not_rejected props k f e : accepted props k f -> ~ rejected props k f e.
Proof.
  rewrite accepted_plain, rejected_plain.
  exact (accepted_not_rejectedG ext_alnum false props k [] _ _
           (plain_tree_accepts props k []) (plain_tree_rejects props k []) f e).
Qed.

Lemma rejected_unique props k f e e' : rejected props k f e -> rejected props k f e' -> e = e'.
Proof.
  rewrite rejected_plain.
  exact (rejectedG_unique ext_alnum false props k [] _ (plain_tree_rejects props k []) f e e').
Qed.

Lemma rejected_class props k f e : rejected props k f e ->
  e = ELex \/ e = EParse \/ e = EFreeVar \/ e = ERequantified \/ e = EUnknownProp
  \/ e = EVarSupport.
Proof.
  intros [[_ ->] | [[ts [_ [_ ->]]] | [t [_ [V | [_ [_ ->]]]]]]]; auto 8.
  destruct (scope_violation_class _ _ _ _ V) as [-> | [-> | ->]]; auto 8.
Qed.

Lemma prepared_accepted props k f t' : prepared props k f t' -> accepted props k f.
Proof. intros [t [HP [OK _]]]. exists t. auto. Qed.

Lemma validate_all_plain_nil props k ctx : forall fs ts cp cd,
  validate_all ext_alnum false props k ctx fs = Ok (ts, cp, cd) -> cp = [] /\ cd = [].
Proof.
  induction fs as [|f fs IH]; intros ts cp cd; cbn [validate_all].
  - intro H. injection H as _ <- <-. auto.
  - destruct (parse_and_minimize ext_alnum false props f) as [t| | |]; cbn [bind]; try discriminate.
    destruct (Nat.ltb k (num_hctl_vars t)); [discriminate|].
    destruct (validate_all ext_alnum false props k ctx fs) as [[[ts' cp'] cd']| | |]; cbn [bind];
      try discriminate.
    intro H. injection H as _ <- <-. exact (IH ts' cp' cd' eq_refl).
Qed.

Theorem validate_all_cases props k ctx fs :
  (exists ts', validate_all ext_alnum false props k ctx fs = Ok (ts', [], [])
               /\ Forall2 (prepared props k) fs ts')
  \/ (exists e, validate_all ext_alnum false props k ctx fs = Err e
                /\ first_reject (accepted props k) (rejected props k) fs e).
Proof.
  rewrite accepted_plain, rejected_plain.
  destruct (validate_all_casesG ext_alnum false props k ctx _ _ (plain_tree_accepts props k ctx)
              (plain_tree_rejects props k ctx) (tree_ok_or_rejected props k) fs)
    as [(ts & cp & cd & V & F) | R]; [left | right; exact R].
  destruct (validate_all_plain_nil _ _ _ _ _ _ _ V) as [-> ->]. exists ts. auto.
Qed.

Lemma first_reject_validate props k ctx fs e :
  first_reject (accepted props k) (rejected props k) fs e ->
  validate_all ext_alnum false props k ctx fs = Err e.
Proof.
  rewrite accepted_plain, rejected_plain.
  exact (first_reject_validateG ext_alnum false props k ctx _ _
           (plain_tree_accepts props k ctx) (plain_tree_rejects props k ctx) fs e).
Qed.

Theorem validate_all_err_iff props k ctx fs e :
  validate_all ext_alnum false props k ctx fs = Err e
  <-> first_reject (accepted props k) (rejected props k) fs e.
Proof.
  split; [|apply first_reject_validate].
  intro H. destruct (validate_all_cases props k ctx fs) as [[ts' [E _]] | [e' [E FR]]];
    rewrite E in H; [discriminate|]. injection H as <-. exact FR.
Qed.

Theorem validate_all_ok_iff props k ctx fs r :
  validate_all ext_alnum false props k ctx fs = Ok r
  <-> exists ts', r = (ts', [], []) /\ Forall2 (prepared props k) fs ts'.
Proof.
  split.
  - intro H. destruct (validate_all_cases props k ctx fs) as [[ts' [E F]] | [e' [E _]]];
      rewrite E in H; [|discriminate]. injection H as <-. exists ts'. auto.
  - intros [ts' [-> F]].
    destruct (prepared_validated ext_alnum false props k ctx _ (plain_tree_accepts props k ctx) fs ts' F)
      as (cp & cd & V).
    destruct (validate_all_plain_nil _ _ _ _ _ _ _ V) as [-> ->]. exact V.
Qed.

Theorem validate_all_no_panic props k ctx fs :
  (forall p, validate_all ext_alnum false props k ctx fs <> Panic p)
  /\ validate_all ext_alnum false props k ctx fs <> OutOfFuel.
Proof.
  destruct (validate_all_cases props k ctx fs) as [[ts' [-> _]] | [e' [-> _]]];
    split; try intro p; discriminate.
Qed.

(** the trees handed to the evaluator satisfy the hypotheses of the evaluator theorems *)
Definition evaluable (Gv : genv) (names : list str) (t' : tree) : Prop :=
  plainf t' /\ props_known names t' /\ supported Gv t' /\ depth_named 0 t'.

Lemma prepared_evaluable Gv props f t' :
  prepared props (g_k Gv) f t' -> evaluable Gv props t'.
Proof.
  intros [t [HP [[WS LE] ->]]].
  assert (PP : preprocess props t = Ok (rename [] t)).
  { apply preprocess_ok_iff. split; [exact WS | reflexivity]. }
  destruct (preprocess_bridge props t _ PP) as [PL [PK [DN [NV SUP]]]].
  split; [apply PL; eapply parse_formula_plain, HP|]. split; [exact PK|].
  split; [apply SUP; lia | exact DN].
Qed.

(** with every formula parsed: the verdicts are those of the trees *)
Lemma first_reject_parsed props k fs ts e :
  Forall2 (fun f t => parse_formula false f = Ok t) fs ts ->
  (first_reject (accepted props k) (rejected props k) fs e
   <-> first_reject (tree_ok props k) (tree_rejected props k) ts e).
Proof.
  rewrite accepted_plain, rejected_plain.
  apply first_reject_Forall2; intros f t HP; [apply acceptedG_parsed | apply rejectedG_parsed]; exact HP.
Qed.

Lemma some_reject_parsed props k fs ts :
  Forall2 (fun f t => parse_formula false f = Ok t) fs ts ->
  ((exists e, first_reject (accepted props k) (rejected props k) fs e)
   <-> List.Exists (fun t => ~ well_scoped props [] t \/ k < qdepth t) ts).
Proof.
  intro P. transitivity (exists e, first_reject (tree_ok props k) (tree_rejected props k) ts e).
  - split; intros [e H]; exists e; apply (first_reject_parsed props k fs ts e P), H.
  - rewrite (first_reject_Exists _ _ ts (tree_ok_or_rejected props k)).
    split; apply Exists_impl; intro t; apply tree_rejected_iff.
Qed.

End Entry.

(** [model_check] is [validate_all] followed by [check_trees] *)
Lemma model_check_validated ea (w : world) k m ctx fs ts cp cd :
  validate_all ea (m_ext m) (w_names w) k ctx fs = Ok (ts, cp, cd) ->
  model_check ea w k m ctx fs = check_trees w k m ts cp cd.
Proof. unfold model_check. intros ->. reflexivity. Qed.

Lemma model_check_invalid ea (w : world) k m ctx fs e :
  validate_all ea (m_ext m) (w_names w) k ctx fs = Err e -> model_check ea w k m ctx fs = Err e.
Proof. unfold model_check. intros ->. reflexivity. Qed.

Lemma model_check_ok_inv ea (w : world) k m ctx fs rs :
  model_check ea w k m ctx fs = Ok rs ->
  exists ts cp cd, validate_all ea (m_ext m) (w_names w) k ctx fs = Ok (ts, cp, cd)
                   /\ check_trees w k m ts cp cd = Ok rs.
Proof.
  unfold model_check.
  destruct (validate_all ea (m_ext m) (w_names w) k ctx fs) as [[[ts cp] cd]| | |]; cbn [bind];
    try discriminate.
  intro H. exists ts, cp, cd. auto.
Qed.

(** * Evaluation of validated trees never fails *)

Section World.
Variable ext_alnum : N -> bool.
Variable w : world.
Variable k : nat.
Hypothesis upd_ok : List.Forall (shaped (Lpn (w_p w) (w_n w))) (w_upd w).
Hypothesis unit_ok : shaped (Lpn (w_p w) (w_n w)) (w_unit w).
Hypothesis unit_colour : forall v v', (forall j, v (TP j) = v' (TP j)) ->
  mem (Lpn (w_p w) (w_n w)) (w_unit w) v = mem (Lpn (w_p w) (w_n w)) (w_unit w) v'.
Hypothesis names_ok : length (w_names w) <= w_n w.

Let Gw := genv_of w k.
Let Uw := unit_of w k.
Local Notation names := (w_names w).

Let WF : wf_env Gw names Uw := world_wf w k upd_ok unit_ok unit_colour names_ok.

Lemma eval_all_total sw steady : shaped (g_L Gw) steady ->
  forall ts c, List.Forall (evaluable Gw names) ts -> duplicates c = [] ->
  exists rs, eval_all Gw names sw steady Uw ts c = Ok rs
             /\ Forall2 (fun t R => peval Gw names sw steady t Uw = Ok R) ts rs.
Proof.
  intros SS. induction ts as [|t ts IH]; intros c EV Hd.
  - exists []. split; [reflexivity | constructor].
  - inversion EV as [|? ? [PL [PK [SUP DN]]] EVs]; subst. cbn [eval_all].
    destruct (eval_node_nodup Gw names sw steady t Uw c PL Hd) as [c1 [Hd1 E]]. rewrite E.
    destruct (peval_total Gw names sw steady Uw (wf_nodup _ _ _ WF) (wf_upd_shaped _ _ _ WF)
                (wf_U_shaped _ _ _ WF) SS t PL SUP PK) as [R [ER _]].
    rewrite ER. cbn [bind].
    destruct (IH c1 EVs Hd1) as [rs [-> F]]. cbn [bind].
    exists (R :: rs). split; [reflexivity | constructor; assumption].
Qed.

Lemma sanitize_all_total rs :
  List.Forall (fun R => exists s, restrict not_extra (g_L Gw) R = Some s) rs ->
  exists ss, sanitize_all Gw rs = Ok ss /\ length ss = length rs.
Proof.
  induction 1 as [|R rs [s HR] _ [ss [IH LEN]]].
  - exists []. split; reflexivity.
  - cbn [sanitize_all]. unfold sanitize at 1. rewrite HR. cbn [bind]. rewrite IH. cbn [bind].
    exists (s :: ss). split; [reflexivity | cbn [length]; lia].
Qed.

(** [check_trees] on validated trees answers with one set per formula: plain entry points,
    no duplicates marked; sanitised (real self-loop set) or dirty (either self-loop set);
    patterns on or off *)
Theorem check_trees_total m ts cp cd :
  m_ext m = false -> m_nocache m = true -> m_unsafe_ex m = false \/ m_sanitize m = false ->
  List.Forall (evaluable Gw names) ts ->
  exists rs, check_trees w k m ts cp cd = Ok rs /\ length rs = length ts.
Proof.
  intros He Hn Hus EV. unfold check_trees. rewrite He, Hn. fold Gw Uw.
  set (sw := {| use_patterns := negb (m_nopatterns m) |}).
  assert (SS : shaped (g_L Gw) (if m_unsafe_ex m then empty Gw else steady_of Gw Uw)).
  { destruct (m_unsafe_ex m); [apply shaped_const|].
    apply shaped_steady_of; [apply (wf_upd_shaped _ _ _ WF) | apply (wf_U_shaped _ _ _ WF)]. }
  destruct (eval_all_total sw _ SS ts (ctx_new []) EV eq_refl) as [rs [-> F]].
  cbn [bind]. pose proof (Forall2_length_eq _ _ _ F) as LEN.
  destruct (m_sanitize m) eqn:Hs; [|exists rs; split; [reflexivity | lia]].
  destruct Hus as [Hu | X]; [rewrite Hu in F | discriminate X].
  destruct (sanitize_all_total rs) as [ss [E LEN']]; [|exists ss; split; [exact E | lia]].
  apply (Forall2_Forall_r _ _ _ ts rs EV F). intros t R [PL [PK [SUP DN]]] HR.
  exact (closed_result_restrict Gw names Uw WF sw t R PL SUP DN HR).
Qed.

(** * The string entry points *)

Local Notation accepted := (accepted ext_alnum names k).
Local Notation rejected := (rejected ext_alnum names k).

(** a mode covered by the theorems below *)
Definition covered (m : mode) : Prop :=
  m_ext m = false /\ m_nocache m = true
  /\ (m_unsafe_ex m = false \/ m_sanitize m = false).

Theorem model_check_cases m ctx fs : covered m ->
  (exists rs, model_check ext_alnum w k m ctx fs = Ok rs /\ length rs = length fs
              /\ List.Forall accepted fs)
  \/ (exists e, model_check ext_alnum w k m ctx fs = Err e
                /\ first_reject accepted rejected fs e).
Proof.
  intros [He [Hn Hus]].
  destruct (validate_all_cases ext_alnum names k ctx fs) as [[ts' [V F]] | [e [V FR]]];
    rewrite <- He in V;
    [|right; exists e; split; [apply model_check_invalid, V | exact FR]].
  left. rewrite (model_check_validated _ _ _ _ _ _ _ _ _ V).
  destruct (check_trees_total m ts' [] [] He Hn Hus) as [rs [-> L]].
  - exact (Forall2_right _ _ _ _ (prepared_evaluable ext_alnum Gw names) F).
  - exists rs. split; [reflexivity|]. split; [rewrite L; symmetry; exact (Forall2_length_eq _ _ _ F)|].
    exact (Forall2_left _ _ _ _ (prepared_accepted ext_alnum names k) F).
Qed.

Theorem model_check_no_panic m ctx fs : covered m ->
  (forall p, model_check ext_alnum w k m ctx fs <> Panic p)
  /\ model_check ext_alnum w k m ctx fs <> OutOfFuel.
Proof. intro C. exact (cases_no_panic _ _ _ _ (model_check_cases m ctx fs C)). Qed.

(** an error exactly when some formula is rejected; the class is that of the first cause *)
Theorem model_check_err_iff m ctx fs e : covered m ->
  (model_check ext_alnum w k m ctx fs = Err e <-> first_reject accepted rejected fs e).
Proof.
  intro C. split; [apply cases_err, model_check_cases, C|].
  intro FR. apply model_check_invalid. destruct C as [-> _]. apply first_reject_validate, FR.
Qed.

(** an answer exactly when every formula is accepted: never a silent answer on invalid input *)
Theorem model_check_ok_iff m ctx fs : covered m ->
  ((exists rs, model_check ext_alnum w k m ctx fs = Ok rs) <-> List.Forall accepted fs).
Proof.
  intro C. apply (cases_ok_iff _ _ _ _ (model_check_cases m ctx fs C)).
  intros f e. apply accepted_not_rejected.
Qed.

Theorem model_check_err_iff_parsed m ctx fs ts e : covered m ->
  Forall2 (fun f t => parse_formula ext_alnum false f = Ok t) fs ts ->
  (model_check ext_alnum w k m ctx fs = Err e
   <-> exists ts1 t ts2, ts = ts1 ++ t :: ts2
         /\ List.Forall (tree_ok names k) ts1 /\ tree_rejected names k t e).
Proof.
  intros C P. rewrite (model_check_err_iff m ctx fs e C).
  rewrite (first_reject_parsed ext_alnum names k fs ts e P).
  apply first_reject_split.
Qed.

Theorem model_check_errs_iff_parsed m ctx fs ts : covered m ->
  Forall2 (fun f t => parse_formula ext_alnum false f = Ok t) fs ts ->
  ((exists e, model_check ext_alnum w k m ctx fs = Err e)
   <-> List.Exists (fun t => ~ well_scoped names [] t \/ k < qdepth t) ts).
Proof.
  intros C P. rewrite (cases_some_err_iff _ _ _ _ (model_check_cases m ctx fs C)).
  - apply some_reject_parsed, P.
  - intros f e. apply accepted_not_rejected.
Qed.

End World.

(** the world hypotheses of [LayoutFacts.world_wf], bundled *)
Definition world_ok (w : world) : Prop :=
  List.Forall (shaped (Lpn (w_p w) (w_n w))) (w_upd w)
  /\ shaped (Lpn (w_p w) (w_n w)) (w_unit w)
  /\ (forall v v', (forall j, v (TP j) = v' (TP j)) ->
        mem (Lpn (w_p w) (w_n w)) (w_unit w) v = mem (Lpn (w_p w) (w_n w)) (w_unit w) v')
  /\ length (w_names w) <= w_n w.

(** * Sanity: the hypothesis [world_ok] holds of a small world ([w0_ok]), and on that world
    every error class of the plain syntax (all but [EMissingContext]) is observed (by running [model_check], not through the theorems)

    two variables a, b, one parameter bit; formulae as code points *)
Module Sanity.
Definition w0 : world :=
  {| w_p := 1; w_n := 2; w_names := [[97%N]; [98%N]];
     w_upd := [const (Lpn 1 2) true; lit (Lpn 1 2) (TS 0)]; w_unit := const (Lpn 1 2) true |}.
Definition m0 (san : bool) : mode :=
  {| m_ext := false; m_sanitize := san; m_unsafe_ex := false; m_nocache := true;
     m_nopatterns := false |}.
Definition ea : N -> bool := fun _ => false.
Definition run (san : bool) (k : nat) (fs : list str) : nat + option errkind :=
  match model_check ea w0 k (m0 san) [] fs with
  | Ok rs => inl (length rs)
  | Err e => inr (Some e)
  | _ => inr None
  end.

Lemma w0_ok : world_ok w0.
Proof.
  split; [|split; [|split]].
  - constructor; [apply shaped_const|]. constructor; [apply shaped_lit | constructor].
  - apply shaped_const.
  - intros v v' _. cbn [w0 w_unit w_p w_n]. rewrite !mem_const. reflexivity.
  - cbn. lia.
Qed.

(* {x} *)
Example free_var : run true 1 [[123;120;125]%N] = inr (Some EFreeVar).
Proof. vm_compute. reflexivity. Qed.
(* a ; !{x}: !{x}: a  -- the first formula is fine, the second decides *)
Example requantified :
  run true 1 [[97]%N; [33;123;120;125;58; 33;123;120;125;58; 97]%N] = inr (Some ERequantified).
Proof. vm_compute. reflexivity. Qed.
(* c *)
Example unknown_prop : run true 1 [[99]%N] = inr (Some EUnknownProp).
Proof. vm_compute. reflexivity. Qed.
(* !{x}: !{y}: a  with one spare copy, then with two *)
Example var_support :
  run true 1 [[33;123;120;125;58; 33;123;121;125;58; 97]%N] = inr (Some EVarSupport).
Proof. vm_compute. reflexivity. Qed.
Example var_support_ok : run true 2 [[33;123;120;125;58; 33;123;121;125;58; 97]%N] = inl 1.
Proof. vm_compute. reflexivity. Qed.
(* a & *)
Example parse_error : run false 1 [[97;32;38]%N] = inr (Some EParse).
Proof. vm_compute. reflexivity. Qed.
(* a > *)
Example lex_error : run false 1 [[97;32;62]%N] = inr (Some ELex).
Proof. vm_compute. reflexivity. Qed.
(* !{x}: AG EF {x} ; a&b  -- sanitised answers *)
Example answers :
  run true 1 [[33;123;120;125;58; 65;71;32;69;70;32;123;120;125]%N; [97;38;98]%N] = inl 2.
Proof. vm_compute. reflexivity. Qed.
End Sanity.
