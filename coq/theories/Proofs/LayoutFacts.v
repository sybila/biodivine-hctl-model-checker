(** The layout built by [mk_layout] and the graphs built by [mk_genv] satisfy the
    well-formedness assumptions ([wf_env]) of the main theorems: the theorems are not vacuous
    and apply to what Pipeline.check_trees constructs. *)
From HCTL Require Import Base Syntax Canon MarkDup TT Ops Eval Pipeline Kripke HCTL.
From HCTL Require Import TTFacts OpsFacts EvalPure Main.

Lemma range_seq m : range m = seq 0 m.
Proof. induction m as [|m IH]; [reflexivity|]. rewrite seq_S, <- IH. reflexivity. Qed.

Lemma range_length m : length (range m) = m.
Proof. rewrite range_seq. apply seq_length. Qed.

Lemma NoDup_app_intro {A} (l1 l2 : list A) :
  NoDup l1 -> NoDup l2 -> (forall x, In x l1 -> In x l2 -> False) -> NoDup (l1 ++ l2).
Proof.
  intros H1 H2 Hd. induction H1 as [|x l Hx H1 IH]; simpl; [assumption|].
  constructor.
  - intro Hin. apply in_app_iff in Hin. destruct Hin as [Hin|Hin]; [contradiction|].
    apply (Hd x); [left; reflexivity | assumption].
  - apply IH. intros y Hy Hy2. apply (Hd y); [right; assumption | assumption].
Qed.

Lemma NoDup_range m : NoDup (range m).
Proof. rewrite range_seq. apply seq_NoDup. Qed.

Lemma NoDup_map_inj {A B} (f : A -> B) l : (forall x y, f x = f y -> x = y) -> NoDup l -> NoDup (map f l).
Proof.
  intros Hinj H. induction H as [|x l Hx H IH]; simpl; constructor; [|assumption].
  intro Hin. apply in_map_iff in Hin. destruct Hin as [y [Hy Hyl]]. apply Hinj in Hy. subst. contradiction.
Qed.

Lemma in_var_block k i g : In g (var_block k i) <-> g = TS i \/ exists e, e < k /\ g = TX i e.
Proof.
  unfold var_block. simpl. rewrite in_map_iff. split.
  - intros [H|[e [H He]]]; [left; auto | right; exists e; split; [apply in_range; assumption | auto]].
  - intros [H|[e [He H]]]; [left; auto | right; exists e; split; [auto | apply in_range; assumption]].
Qed.

Lemma in_mk_layout p n k g :
  In g (mk_layout p n k) <->
  match g with
  | TP j => j < p
  | TS i => i < n
  | TX i e => i < n /\ e < k
  end.
Proof.
  unfold mk_layout. rewrite in_app_iff, in_map_iff, in_flat_map. split.
  - intros [[j [Hj Hin]]|[i [Hi Hin]]].
    + subst g. apply in_range. assumption.
    + apply in_range in Hi. apply in_var_block in Hin. destruct Hin as [->|[e [He ->]]]; auto.
  - destruct g as [j|i|i e]; intro H.
    + left. exists j. split; [reflexivity | apply in_range; assumption].
    + right. exists i. split; [apply in_range; assumption | apply in_var_block; left; reflexivity].
    + right. exists i. destruct H as [Hi He]. split; [apply in_range; assumption |].
      apply in_var_block. right. exists e. auto.
Qed.

Lemma NoDup_var_block k i : NoDup (var_block k i).
Proof.
  unfold var_block. constructor.
  - intro H. apply in_map_iff in H. destruct H as [e [H _]]. discriminate.
  - apply NoDup_map_inj; [intros x y H; congruence | apply NoDup_range].
Qed.

Lemma NoDup_flat_blocks k l : NoDup l -> NoDup (flat_map (var_block k) l).
Proof.
  intro H. induction H as [|i l Hi H IH]; cbn [flat_map]; [constructor|].
  apply NoDup_app_intro; [apply NoDup_var_block | assumption |].
  intros g Hg Hg'. apply in_var_block in Hg. apply in_flat_map in Hg'.
  destruct Hg' as [i' [Hi' Hg']]. apply in_var_block in Hg'.
  assert (i = i') by (destruct Hg as [->|[e [_ ->]]]; destruct Hg' as [E|[e' [_ E]]]; congruence).
  subst. contradiction.
Qed.

Lemma NoDup_mk_layout p n k : NoDup (mk_layout p n k).
Proof.
  unfold mk_layout. apply NoDup_app_intro.
  - apply NoDup_map_inj; [intros x y H; congruence | apply NoDup_range].
  - apply NoDup_flat_blocks, NoDup_range.
  - intros g Hg Hg'. apply in_map_iff in Hg. destruct Hg as [j [<- _]].
    apply in_flat_map in Hg'. destruct Hg' as [i [_ Hg']]. apply in_var_block in Hg'.
    destruct Hg' as [E|[e [_ E]]]; discriminate.
Qed.

Lemma filter_not_extra_layout p n k :
  filter not_extra (mk_layout p n k) = map TP (range p) ++ map TS (range n).
Proof.
  unfold mk_layout. rewrite filter_app. f_equal.
  - induction (range p) as [|j l IH]; simpl; [reflexivity|]. rewrite IH. reflexivity.
  - induction (range n) as [|i l IH]; simpl; [reflexivity|]. rewrite filter_app, IH.
    replace (filter not_extra (map (TX i) (range k))) with (@nil tag); [reflexivity|].
    induction (range k) as [|e l' IH']; simpl; [reflexivity | assumption].
Qed.

Definition Lpn (p n : nat) : layout := map TP (range p) ++ map TS (range n).

Lemma index_of_bound nm l : forall i j, index_of nm l i = Some j -> j < i + length l.
Proof.
  induction l as [|y l IH]; intros i j H; simpl in *; [discriminate|].
  destruct (str_eqb nm y).
  - injection H as <-. lia.
  - apply IH in H. lia.
Qed.

(** a set over parameters and state variables, lifted to the layout with spare copies: the
    same members, a shaped tree, and the spare copies are not read *)
Lemma mem_lifted p n k (s : tt) v : shaped (Lpn p n) s ->
  mem (mk_layout p n k) (expand not_extra (mk_layout p n k) s) v = mem (Lpn p n) s v.
Proof.
  intro Ss. unfold Lpn in *. rewrite <- (filter_not_extra_layout p n k) in *. apply mem_expand, Ss.
Qed.

(** a context set over colours and states, lifted to the layout with spare copies
    ([Pipeline.lift]), is shaped and does not read the spare copies *)
Lemma lifted_ok p n k (s : tt) : shaped (Lpn p n) s ->
  shaped (mk_layout p n k) (expand not_extra (mk_layout p n k) s) /\
  forall v w, (forall g, is_extra_tag g = false -> v g = w g) ->
    mem (mk_layout p n k) (expand not_extra (mk_layout p n k) s) v =
    mem (mk_layout p n k) (expand not_extra (mk_layout p n k) s) w.
Proof.
  intro Ss. split.
  - apply shaped_expand. rewrite filter_not_extra_layout. exact Ss.
  - intros v w Hvw. rewrite !mem_lifted by exact Ss. apply mem_agree.
    intros g Hg. apply Hvw. apply in_app_iff in Hg.
    destruct Hg as [Hg|Hg]; apply in_map_iff in Hg; destruct Hg as [? [<- _]]; reflexivity.
Qed.

(** the graph and unit built by the pipeline are well-formed *)
Theorem mk_genv_wf p n k (upd_pn : list tt) (unit_pn : tt) (names : list str) :
  List.Forall (shaped (Lpn p n)) upd_pn ->
  shaped (Lpn p n) unit_pn ->
  (forall v w, (forall j, v (TP j) = w (TP j)) -> mem (Lpn p n) unit_pn v = mem (Lpn p n) unit_pn w) ->
  length names <= n ->
  wf_env (mk_genv p n k upd_pn) names (expand not_extra (mk_layout p n k) unit_pn).
Proof.
  intros Hupd Hunit Hcol Hnames.
  set (G := mk_genv p n k upd_pn).
  assert (Hup : forall i, shaped (g_L G) (upd_of G i) /\
              forall v w, (forall g, is_extra_tag g = false -> v g = w g) ->
                mem (g_L G) (upd_of G i) v = mem (g_L G) (upd_of G i) w).
  { intro i. unfold upd_of. destruct (nth_in_or_default i (g_upd G) (empty G)) as [Hin | ->].
    - apply in_map_iff in Hin. destruct Hin as [t [<- Hin]].
      apply lifted_ok. rewrite List.Forall_forall in Hupd. apply Hupd, Hin.
    - split; [apply shaped_empty|]. intros v w _. rewrite !mem_empty. reflexivity. }
  destruct (lifted_ok p n k unit_pn Hunit) as [SU _].
  constructor.
  - apply NoDup_mk_layout.
  - intro i. apply Hup.
  - intros i Hi. apply in_mk_layout. exact Hi.
  - intros i e Hi He. apply in_mk_layout. split; assumption.
  - intros i Hi. apply in_mk_layout in Hi. exact Hi.
  - intros i e Hi. apply in_mk_layout in Hi. apply Hi.
  - intros nm i Hi. apply index_of_bound in Hi. simpl in *. lia.
  - intro i. apply Hup.
  - exact SU.
  - intros v w Hvw. change (g_L G) with (mk_layout p n k).
    rewrite !mem_lifted by exact Hunit. apply Hcol, Hvw.
Qed.

(** a concrete instance: two variables, one parameter bit, one spare copy *)
Example wf_instance :
  wf_env (mk_genv 1 2 1 [const (Lpn 1 2) true; lit (Lpn 1 2) (TS 0)]) [[97%N]; [98%N]]
         (expand not_extra (mk_layout 1 2 1) (const (Lpn 1 2) true)).
Proof.
  apply mk_genv_wf.
  - constructor; [apply shaped_const|]. constructor; [apply shaped_lit | constructor].
  - apply shaped_const.
  - intros v w _. rewrite !mem_const. reflexivity.
  - simpl. lia.
Qed.

(** The entry-point model [check_trees] (Model/Pipeline.v), in the mode whose evaluation
    context marks no duplicates, returns for every formula exactly its satisfying valuations. *)
Section PipelineFacts.
Variable w : world.
Variable k : nat.
Hypothesis upd_ok : List.Forall (shaped (Lpn (w_p w) (w_n w))) (w_upd w).
Hypothesis unit_shaped : shaped (Lpn (w_p w) (w_n w)) (w_unit w).
Hypothesis unit_colour : forall v v', (forall j, v (TP j) = v' (TP j)) ->
  mem (Lpn (w_p w) (w_n w)) (w_unit w) v = mem (Lpn (w_p w) (w_n w)) (w_unit w) v'.
Hypothesis names_ok : length (w_names w) <= w_n w.

Let G := genv_of w k.
Let U := unit_of w k.

Lemma world_wf : wf_env G (w_names w) U.
Proof. apply mk_genv_wf; assumption. Qed.

Lemma eval_all_nodup sw steady : forall ts c rs,
  List.Forall plainf ts -> duplicates c = [] ->
  eval_all G (w_names w) sw steady U ts c = Ok rs ->
  List.Forall2 (fun t R => peval G (w_names w) sw steady t U = Ok R) ts rs.
Proof.
  induction ts as [|t ts IH]; intros c rs Hpl Hd H; simpl in H.
  - injection H as <-. constructor.
  - destruct (eval_node_nodup G (w_names w) sw steady t U c (Forall_inv Hpl) Hd) as [c1 [Hd1 E]].
    rewrite E in H.
    destruct (peval G (w_names w) sw steady t U) as [r| | |] eqn:EP; simpl in H; try discriminate.
    destruct (eval_all G (w_names w) sw steady U ts c1) as [rs'| | |] eqn:ER; simpl in H; try discriminate.
    injection H as <-. constructor; [exact EP|]. exact (IH c1 _ (Forall_inv_tail Hpl) Hd1 ER).
Qed.

(** plain entry points, dirty results, evaluation context without duplicates *)
Theorem check_trees_nocache_correct (Gamma : str -> val -> Prop) m ts rs :
  m_ext m = false -> m_sanitize m = false -> m_unsafe_ex m = false -> m_nocache m = true ->
  List.Forall plainf ts -> List.Forall (supported G) ts ->
  check_trees w k m ts [] [] = Ok rs ->
  List.Forall2 (fun t R => forall v,
     mem (g_L G) R v = true <-> (mem (g_L G) U v = true /\ sat G (w_names w) Gamma t v)) ts rs.
Proof.
  intros He Hs Hu Hn Hpl Hsup H. unfold check_trees in H.
  rewrite He, Hs, Hu, Hn in H. fold G U in H.
  destruct (eval_all G (w_names w) {| use_patterns := negb (m_nopatterns m) |} (steady_of G U) U ts (ctx_new []))
    as [rs'| | |] eqn:E; simpl in H; try discriminate.
  injection H as <-.
  pose proof (eval_all_nodup _ _ ts (ctx_new []) rs' Hpl eq_refl E) as F.
  clear E. induction F as [|t R ts rs' HR F IH]; constructor.
  - exact (proj2 (peval_correct G (w_names w) U world_wf Gamma _ t R
                    (Forall_inv Hpl) (Forall_inv Hsup) HR)).
  - exact (IH (Forall_inv_tail Hpl) (Forall_inv_tail Hsup)).
Qed.

End PipelineFacts.
