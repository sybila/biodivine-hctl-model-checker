(** Restricted quantifier domains and wild-card propositions at the level of [sat]:
    the three equivalences of the README (a domain is a conjunct / premise under the binder)
    and the meaning of an empty domain.  Nothing of the model appears here. *)
From HCTL Require Import Base Syntax TT Ops Kripke HCTL.

Section ExtSem.
Variable G : genv.
Variable names : list str.
Variable Gamma : str -> val -> Prop.

(** context sets only read the colour and the state of a valuation *)
Definition ctx_ignores_copies : Prop :=
  forall l v w, (forall g, is_extra_tag g = false -> v g = w g) -> Gamma l v -> Gamma l w.

Hypothesis Gamma_extras : ctx_ignores_copies.

Local Notation Sat := (sat G names Gamma).

Lemma Gamma_agree l v w : (forall g, is_extra_tag g = false -> v g = w g) ->
  (Gamma l v <-> Gamma l w).
Proof.
  intro H. split; apply Gamma_extras; [exact H|].
  intros g Hg. symmetry. apply H. exact Hg.
Qed.

Lemma Gamma_set_copy l e u v : Gamma l (set_copy e u v) <-> Gamma l v.
Proof.
  apply Gamma_agree. intros g Hg. destruct g as [j|i|i e']; simpl in *; try reflexivity.
  discriminate.
Qed.

(** jumping to the freshly quantified variable: the state is [u], the colour that of [v] *)
Lemma Gamma_jump_copy l e u v :
  Gamma l (set_state e (set_copy e u v)) <-> Gamma l (with_state u v).
Proof.
  apply Gamma_agree. intros g Hg. destruct g as [j|i|i e']; simpl in *; try reflexivity.
  - rewrite Nat.eqb_refl. reflexivity.
  - discriminate.
Qed.

(** !{x} in %d%: a   ==   !{x}: (%d% & a) *)
Theorem bind_domain_equiv x d a v :
  Sat (Hybrid Bind x (Some d) a) v <->
  Sat (Hybrid Bind x None (Binary And (Terminal (AWild d)) a)) v.
Proof.
  simpl. split.
  - intros [e [He [Hd Ha]]]. exists e. split; [exact He|]. split; [exact I|].
    split; [apply Gamma_set_copy; exact Hd | exact Ha].
  - intros [e [He [_ [Hd Ha]]]]. exists e. split; [exact He|].
    split; [apply Gamma_set_copy in Hd; exact Hd | exact Ha].
Qed.

(** 3{x} in %d%: @{x}: a   ==   3{x}: @{x}: (%d% & a) *)
Theorem exists_domain_equiv x d a v :
  Sat (Hybrid Exists x (Some d) (Hybrid Jump x None a)) v <->
  Sat (Hybrid Exists x None (Hybrid Jump x None (Binary And (Terminal (AWild d)) a))) v.
Proof.
  simpl. split.
  - intros [e [He [u [Hd [e' [He' Ha]]]]]]. exists e. split; [exact He|].
    exists u. split; [exact I|]. exists e'. split; [exact He'|].
    assert (e' = e) by congruence. subst e'.
    split; [apply Gamma_jump_copy; exact Hd | exact Ha].
  - intros [e [He [u [_ [e' [He' [Hd Ha]]]]]]]. exists e. split; [exact He|].
    exists u. assert (e' = e) by congruence. subst e'.
    split; [apply Gamma_jump_copy in Hd; exact Hd|].
    exists e. split; [exact He | exact Ha].
Qed.

(** V{x} in %d%: @{x}: a   ==   V{x}: @{x}: (%d% => a) *)
Theorem forall_domain_equiv x d a v :
  Sat (Hybrid Forall x (Some d) (Hybrid Jump x None a)) v <->
  Sat (Hybrid Forall x None (Hybrid Jump x None (Binary Imp (Terminal (AWild d)) a))) v.
Proof.
  simpl. split.
  - intros [e [He Hall]]. exists e. split; [exact He|]. intros u _.
    exists e. split; [exact He|]. intro Hd. apply Gamma_jump_copy in Hd.
    destruct (Hall u Hd) as [e' [He' Ha]].
    assert (e' = e) by congruence. subst e'. exact Ha.
  - intros [e [He Hall]]. exists e. split; [exact He|]. intros u Hd.
    destruct (Hall u I) as [e' [He' Ha]].
    assert (e' = e) by congruence. subst e'.
    exists e. split; [exact He|]. apply Ha. apply Gamma_jump_copy. exact Hd.
Qed.

(** no state of the colour of [v] lies in the domain (other colours are irrelevant) *)
Definition domain_empty_at (d : str) (v : val) : Prop := forall u, ~ Gamma d (with_state u v).

Lemma with_state_self l v : Gamma l (with_state v v) <-> Gamma l v.
Proof. apply Gamma_agree. intros g _. destruct g; reflexivity. Qed.

Theorem exists_empty_domain x d a v : domain_empty_at d v ->
  ~ Sat (Hybrid Exists x (Some d) a) v.
Proof. intros Hemp [e [_ [u [Hd _]]]]. exact (Hemp u Hd). Qed.

Theorem bind_empty_domain x d a v : domain_empty_at d v ->
  ~ Sat (Hybrid Bind x (Some d) a) v.
Proof.
  intros Hemp [e [_ [Hd _]]]. apply (Hemp v). apply with_state_self. exact Hd.
Qed.

(** binding the current state: false when the current state is outside the domain *)
Theorem bind_outside_domain x d a v : ~ Gamma d v ->
  ~ Sat (Hybrid Bind x (Some d) a) v.
Proof. intros Hout [e [_ [Hd _]]]. exact (Hout Hd). Qed.

Theorem forall_empty_domain x d a v : var_of G x <> None -> domain_empty_at d v ->
  Sat (Hybrid Forall x (Some d) a) v.
Proof.
  intros Hx Hemp. simpl. destruct (var_of G x) as [e|]; [|congruence].
  exists e. split; [reflexivity|]. intros u Hd. exfalso. exact (Hemp u Hd).
Qed.

End ExtSem.
