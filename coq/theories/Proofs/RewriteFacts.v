(** Property C08 at the entry points of Model/Pipeline.v.  The evaluator only sees the
    preprocessed tree, so formula texts with equal [parse_and_minimize] outcomes are
    indistinguishable for [model_check] ([model_check_same_front]).  White space and the
    spellings of the hybrid operators (SpacingFacts.v, character level) are lifted that far
    here ([model_check_respaced]); the names of bound variables (AlphaFacts.v) and redundant
    parentheses (ParenFacts.v, token level) reach [parse_and_minimize] and [parse_formula]
    in Properties/C08.v and compose with [model_check_same_front]. *)
From HCTL Require Import Base Syntax Tokenizer Parser Preprocess TT Pipeline.
From HCTL Require Import PrepFacts ParserFacts AlphaFacts ParenFacts SpacingFacts.

Section Rewrite.
Variable ext_alnum : N -> bool.

Notation tokenize := (tokenize ext_alnum).
Notation parse_formula := (parse_formula ext_alnum).
Notation parse_and_minimize := (parse_and_minimize ext_alnum).
Notation validate_all := (validate_all ext_alnum).
Notation model_check := (model_check ext_alnum).

(** * The evaluator only depends on the outcome of the front end *)

(** formulae with pairwise equal front-end outcomes *)
Definition same_front (ext : bool) (props : list str) (fs fs' : list str) : Prop :=
  Forall2 (fun s s' => parse_and_minimize ext props s = parse_and_minimize ext props s') fs fs'.

Lemma validate_all_same_front (ext : bool) (props : list str) (k : nat)
      (ctx : list (str * tt)) (fs fs' : list str) :
  same_front ext props fs fs' ->
  validate_all ext props k ctx fs = validate_all ext props k ctx fs'.
Proof.
  intro H. induction H as [|s s' fs fs' E H IH]; [reflexivity|].
  cbn [Pipeline.validate_all]. rewrite E, IH. reflexivity.
Qed.

Theorem model_check_same_front (w : world) (k : nat) (m : mode) (ctx : list (str * tt))
        (fs fs' : list str) :
  same_front (m_ext m) (w_names w) fs fs' ->
  model_check w k m ctx fs = model_check w k m ctx fs'.
Proof.
  intro H. unfold Pipeline.model_check.
  rewrite (validate_all_same_front (m_ext m) (w_names w) k ctx fs fs' H). reflexivity.
Qed.

(** * White space and spellings of hybrid operators *)

Theorem parse_formula_respaced (ext : bool) (s s' : str) :
  respaced ext_alnum ext s s' -> parse_formula ext s' = parse_formula ext s.
Proof.
  intro H. unfold Pipeline.parse_formula.
  rewrite (tokenize_respaced ext_alnum ext s s' H). reflexivity.
Qed.

Theorem parse_and_minimize_respaced (ext : bool) (props : list str) (s s' : str) :
  respaced ext_alnum ext s s' ->
  parse_and_minimize ext props s' = parse_and_minimize ext props s.
Proof.
  intro H. unfold Pipeline.parse_and_minimize.
  rewrite (parse_formula_respaced ext s s' H). reflexivity.
Qed.

Theorem model_check_respaced (w : world) (k : nat) (m : mode) (ctx : list (str * tt))
        (fs fs' : list str) :
  Forall2 (respaced ext_alnum (m_ext m)) fs fs' ->
  model_check w k m ctx fs' = model_check w k m ctx fs.
Proof.
  intro H. symmetry. apply model_check_same_front.
  induction H as [|s s' fs fs' R H IH]; constructor; [|exact IH].
  symmetry. apply parse_and_minimize_respaced, R.
Qed.

(** * Redundant parentheses, from the text *)

Theorem parse_formula_outer_parens (ext : bool) (s s' : str) (ts : list token) :
  tokenize ext s = Ok ts -> tokenize ext s' = Ok [TGroup ts] ->
  parse_formula ext s' = parse_formula ext s.
Proof.
  intros T T'. unfold Pipeline.parse_formula. rewrite T, T'. cbn [bind]. apply parse_group.
Qed.

End Rewrite.
