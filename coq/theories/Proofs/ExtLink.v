(** eval_node, driven with a context whose duplicate counters and cache contain exactly the
    wild-card propositions (what extend_context builds on an empty context), IS the cache-free
    evaluator [peval_ext] with the cached sets as wild-card sets and the context's domain sets
    as domains. *)
From HCTL Require Import Base Syntax Canon MarkDup TT Ops Eval Pipeline Kripke HCTL.
From HCTL Require Import TTFacts EvalPure Main LayoutFacts ExtFacts ExtEval CanonFacts MarkDupFacts.
From HCTL Require Import BaseFacts.

(** the canonical text extends what has been written so far ([cl] of CanonFacts.v is
    [canon_loop] with enough fuel and the output in reading order) *)
Lemma cl_prefix n : forall cs ren pre cnt depth, length cs <= n ->
  exists s, fst (cl cs ren pre cnt depth) = pre ++ s.
Proof.
  induction n as [|n IH]; intros cs ren pre cnt depth Hn.
  { destruct cs; [|cbn [length] in Hn; lia]. rewrite cl_nil. exists []. symmetry. apply app_nil_r. }
  destruct cs as [|c rest]; [rewrite cl_nil; exists []; symmetry; apply app_nil_r|].
  cbn [length] in Hn.
  assert (Ext : forall cs' ren' x cnt' depth', length cs' <= length rest ->
            exists s, fst (cl cs' ren' (pre ++ x) cnt' depth') = pre ++ s).
  { intros cs' ren' x cnt' depth' Hl. destruct (IH cs' ren' (pre ++ x) cnt' depth') as [s E]; [lia|].
    exists (x ++ s). rewrite E. symmetry. apply app_assoc. }
  rewrite cl_step.
  destruct (N.eqb c c_lpar); [apply Ext; lia|].
  destruct (N.eqb c c_rpar); [destruct depth; [eexists; reflexivity | apply Ext; lia]|].
  destruct ((N.eqb c c_bang || N.eqb c c_three || N.eqb c c_V)
            && match rest with c2 :: _ => N.eqb c2 c_lbrace | [] => false end).
  { pose proof (rtr_len (tl rest)) as LEN.
    assert (length (tl rest) <= length rest) by (destruct rest; cbn [tl length]; lia).
    destruct (read_to_rbrace (tl rest)) as [name rest']. cbn [snd] in LEN. apply Ext. lia. }
  destruct (N.eqb c c_lbrace); [|apply Ext; lia].
  pose proof (rtr_len rest) as LEN.
  destruct (read_to_rbrace rest) as [name rest']. cbn [snd] in LEN.
  destruct (alookup str_eqb name ren); apply Ext; lia.
Qed.

(** the canonical text starts with the character the text starts with *)
Lemma canonize_head c rest : exists s, fst (canonize (c :: rest)) = c :: s.
Proof.
  change (canonize (c :: rest)) with (cl (c :: rest) [] [] 0%N 0). rewrite cl_step.
  assert (Ext : forall cs' ren' x cnt' depth',
            exists s, fst (cl cs' ren' ([] ++ c :: x) cnt' depth') = c :: s).
  { intros cs' ren' x cnt' depth'.
    destruct (cl_prefix (length cs') cs' ren' (c :: x) cnt' depth' (le_n _)) as [s E].
    exists (x ++ s). exact E. }
  destruct (N.eqb c c_lpar); [apply (Ext _ _ [])|].
  destruct (N.eqb c c_rpar); [eexists; reflexivity|].
  destruct ((N.eqb c c_bang || N.eqb c c_three || N.eqb c c_V)
            && match rest with c2 :: _ => N.eqb c2 c_lbrace | [] => false end).
  { destruct (read_to_rbrace (tl rest)) as [name rest']. apply Ext. }
  destruct (N.eqb c c_lbrace) eqn:E; [|apply (Ext _ _ [])].
  apply N.eqb_eq in E. subst c.
  destruct (read_to_rbrace rest) as [name rest']. cbn [alookup]. apply Ext.
Qed.

(** characters the canonisation reacts to *)
Definition canon_inert (c : N) : bool :=
  negb (N.eqb c c_lpar || N.eqb c c_rpar || N.eqb c c_lbrace).

Lemma canon_inert_plain s : forallb canon_inert s = true -> plain s.
Proof.
  intro H. apply Forall_forall. intros c Hc.
  pose proof (proj1 (forallb_forall _ _) H c Hc) as Hi. unfold canon_inert in Hi.
  apply negb_true_iff in Hi. apply orb_false_iff in Hi. destruct Hi as [Hi H3].
  apply orb_false_iff in Hi. destruct Hi as [H1 H2].
  repeat split; apply N.eqb_neq; assumption.
Qed.

(** a wild-card label without parentheses and braces is its own canonical form *)
Lemma canonize_plain_label p : forallb canon_inert p = true ->
  canonize (c_pct :: p ++ [c_pct]) = (c_pct :: p ++ [c_pct], []).
Proof.
  intro H. change (cl (c_pct :: p ++ [c_pct]) [] [] 0%N 0 = (c_pct :: p ++ [c_pct], [])).
  rewrite <- (app_nil_r (c_pct :: p ++ [c_pct])) at 1.
  rewrite cl_copy, cl_nil; [reflexivity | | exact I].
  apply (canon_inert_plain (c_pct :: p ++ [c_pct])).
  cbn [forallb]. rewrite forallb_app, H. reflexivity.
Qed.

Lemma canon_domains_nil fd : forall acc, canon_domains fd [] acc = acc.
Proof.
  induction fd as [|[v d] fd IH]; intro acc; cbn [canon_domains alookup]; auto.
Qed.

(** formulae for which the link holds *)
Fixpoint linkable (t : tree) : Prop :=
  match t with
  | Terminal (AProp nm) => forall r, nm <> c_pct :: r
  | Terminal (AWild p) => canonize (c_pct :: p ++ [c_pct]) = (c_pct :: p ++ [c_pct], [])
  | Terminal _ => True
  | Unary _ a => linkable a
  | Binary _ a b => linkable a /\ linkable b
  | Hybrid _ _ _ a => linkable a
  end.

(** the rendered text of a node that is not a wild-card does not start with '%' *)
Lemma render_head t : linkable t -> is_wild_terminal t = false ->
  forall r, fst (canonize (render t)) <> c_pct :: r.
Proof.
  intros Hl Hw r.
  assert (Hd : forall c rest, render t = c :: rest -> c <> c_pct ->
               fst (canonize (render t)) <> c_pct :: r).
  { intros c rest E Hc. rewrite E. destruct (canonize_head c rest) as [s Es]. rewrite Es.
    intro X. injection X as X _. contradiction. }
  destruct t as [a|o a|o a b|o x d a].
  - destruct a as [nm|x| | |l]; cbn [render atom_str].
    + cbn [linkable] in Hl. destruct nm as [|c rest].
      * cbv. discriminate.
      * cbn [render atom_str] in Hd. apply (Hd c rest eq_refl). intro X. subst c. apply (Hl rest). reflexivity.
    + cbn [render atom_str] in Hd. eapply Hd; [reflexivity|]. cbv. discriminate.
    + eapply Hd; [reflexivity|]. cbv. discriminate.
    + eapply Hd; [reflexivity|]. cbv. discriminate.
    + discriminate.
  - assert (E : exists rest, render (Unary o a) = c_lpar :: rest)
      by (destruct o; cbn [render]; eexists; reflexivity).
    destruct E as [rest E]. eapply Hd; [exact E|]. cbv. discriminate.
  - assert (E : exists rest, render (Binary o a b) = c_lpar :: rest)
      by (cbn [render]; eexists; reflexivity).
    destruct E as [rest E]. eapply Hd; [exact E|]. cbv. discriminate.
  - assert (E : exists rest, render (Hybrid o x d a) = c_lpar :: rest)
      by (cbn [render]; eexists; reflexivity).
    destruct E as [rest E]. eapply Hd; [exact E|]. cbv. discriminate.
Qed.

Section Link.
Variable G : genv.
Variable names : list str.
Variable sw : switches.
Variable steady : tt.

(** the store of the context: duplicate counters, cache, domain sets (fixed during the
    evaluation: nothing is saved, wild-card entries are never evicted) *)
Variable D : list (key * nat).
Variable C : list (key * (tt * list (str * str))).
Variable DS : list (str * tt).
Variable wild : list (str * tt).

(** only wild-card keys are marked, and the marked ones are cached with the sets of [wild] *)
Definition store_ok : Prop :=
  (forall k, (forall r, fst k <> c_pct :: r) -> amem key_eqb k D = false) /\
  (forall p, match alookup str_eqb p wild with
             | Some s => amem key_eqb (wild_key p) D = true /\
                         alookup key_eqb (wild_key p) C = Some (s, [])
             | None => amem key_eqb (wild_key p) D = false
             end).

Hypothesis HS : store_ok.

Definition same_store (c : ectx) : Prop :=
  duplicates c = D /\ cache c = C /\ domain_sets c = DS.

Lemma same_store_set_free c x : same_store c -> same_store (set_free c x).
Proof. intros [A [B E]]. repeat split; assumption. Qed.

Local Notation pev := (peval_ext G names sw steady wild DS).

Lemma not_marked t c : linkable t -> is_wild_terminal t = false ->
  same_store c -> amem key_eqb (key_of c t) (duplicates c) = false.
Proof.
  intros Hl Hw [Hd _]. rewrite Hd. apply (proj1 HS). cbn [fst key_of].
  intro r. exact (render_head t Hl Hw r).
Qed.

(** a node that is not marked is evaluated by the miss branch and nothing is saved *)
Lemma eval_node_unmarked t U c : linkable t -> is_wild_terminal t = false -> same_store c ->
  eval_node G names sw steady t U c = eval_miss G names sw steady (fun rc => Ok rc) t U c.
Proof.
  intros Hl Hw Hc. rewrite eval_node_unfold, (not_marked t c Hl Hw Hc). reflexivity.
Qed.

Theorem eval_node_ext : forall t U c, linkable t -> same_store c ->
  exists c', same_store c' /\
    eval_node G names sw steady t U c = bind (pev t U) (fun r => Ok (r, c')).
Proof.
  induction t as [a | o a IH | o a IHa b IHb | o x d a IH]; intros U c Hl Hc.
  - destruct a as [nm | x | | | p].
    1-4: rewrite eval_node_unmarked by (assumption || reflexivity); unfold eval_miss;
      exists c; (split; [assumption|]);
      cbn [peval_ext is_attractor_pattern is_fixed_point_pattern]; rewrite !andb_false_r.
    + destruct (index_of nm names 0); reflexivity.
    + destruct (hctl_var_id G x); reflexivity.
    + reflexivity.
    + reflexivity.
    + (* wild-card: served from the cache, the context is unchanged *)
      cbn [eval_node render atom_str]. cbn [linkable] in Hl. rewrite Hl.
      rewrite canon_domains_nil. fold (wild_key p).
      destruct Hc as [Hd [Hca Hds]]. rewrite Hd, Hca.
      exists c. split; [repeat split; assumption|].
      cbn [peval_ext is_attractor_pattern is_fixed_point_pattern]. rewrite !andb_false_r.
      pose proof (proj2 HS p) as Hp.
      destruct (alookup str_eqb p wild) as [s|].
      * destruct Hp as [Hm Hl2].
        assert (Hm' : amem key_eqb (@pair str dommap (c_pct :: p ++ [c_pct]) []) D = true)
          by exact Hm.
        assert (Hl' : alookup key_eqb (@pair str dommap (c_pct :: p ++ [c_pct]) []) C = Some (s, []))
          by exact Hl2.
        rewrite Hm', Hl'. reflexivity.
      * assert (Hm' : amem key_eqb (@pair str dommap (c_pct :: p ++ [c_pct]) []) D = false)
          by exact Hp.
        rewrite Hm'. reflexivity.
  - rewrite eval_node_unmarked by (assumption || reflexivity). unfold eval_miss.
    cbn [peval_ext is_attractor_pattern is_fixed_point_pattern]. rewrite !andb_false_r.
    destruct (IH U c Hl Hc) as [c1 [Hc1 E1]]. rewrite E1.
    exists c1. split; [assumption|].
    destruct (pev a U) as [A| | |]; cbn; try reflexivity;
      destruct o; cbn; reflexivity.
  - pose proof Hl as [Hla Hlb].
    rewrite eval_node_unmarked by (assumption || reflexivity). unfold eval_miss.
    cbn [peval_ext is_attractor_pattern is_fixed_point_pattern]. rewrite !andb_false_r.
    destruct (IHa U c Hla Hc) as [c1 [Hc1 E1]]. rewrite E1.
    destruct (IHb U c1 Hlb Hc1) as [c2 [Hc2 E2]].
    exists c2. split; [assumption|].
    destruct (pev a U) as [A| | |]; cbn; try reflexivity.
    rewrite E2.
    destruct (pev b U) as [B| | |]; cbn; try reflexivity;
      destruct o; cbn; reflexivity.
  - cbn [linkable] in Hl.
    rewrite eval_node_unmarked by (assumption || reflexivity).
    rewrite (peval_ext_eq G names sw steady wild DS (Hybrid o x d a) U).
    destruct (use_patterns sw && is_attractor_pattern (Hybrid o x d a)) eqn:PA.
    { exists c. split; [assumption|]. unfold eval_miss. rewrite PA.
      destruct (hctl_var_id G (pattern_var (Hybrid o x d a))); cbn; try reflexivity;
        match goal with |- context [attractors ?g ?u ?e] => destruct (attractors g u e) end; reflexivity. }
    destruct (use_patterns sw && is_fixed_point_pattern (Hybrid o x d a)) eqn:PF.
    { exists c. split; [assumption|]. unfold eval_miss. rewrite PA, PF. reflexivity. }
    destruct (jump_or_quantifier o) as [->|[Ho _]].
    + unfold eval_miss. rewrite PA, PF.
      destruct (IH U c Hl Hc) as [c1 [Hc1 E1]]. rewrite E1.
      exists c1. split; [assumption|]. cbn [peval_ext_body].
      destruct (pev a U) as [A| | |]; cbn; try reflexivity;
        destruct (hctl_var_id G x); reflexivity.
    + (* the quantifiers open the scope of x and close it again *)
      rewrite (eval_miss_quant G names sw steady _ o x d a U c Ho PA PF),
              (peval_ext_body_quant G names sw steady wild DS o x d a U Ho). cbn zeta.
      set (c0 := set_free c (sinsert x d (free_doms c))).
      assert (Hc0 : same_store c0) by (apply same_store_set_free; exact Hc).
      destruct d as [dl|].
      * replace (domain_sets c0) with DS by (symmetry; apply Hc0).
        destruct (alookup str_eqb dl DS) as [dset|]; [|exists c; split; [assumption|reflexivity]].
        destruct (hctl_var_id G x) as [e| | |]; cbn [bind];
          try (exists c; split; [assumption|reflexivity]).
        destruct (is_empty (tand U (compute_valid_domain_for_var G U dset e))).
        -- exists (set_free c0 (aremove str_eqb x (free_doms c0))).
           split; [apply same_store_set_free; exact Hc0 | reflexivity].
        -- destruct (IH (tand U (compute_valid_domain_for_var G U dset e)) c0 Hl Hc0) as [c1 [Hc1 E1]].
           rewrite E1.
           exists (set_free c1 (aremove str_eqb x (free_doms c1))).
           split; [apply same_store_set_free; exact Hc1|].
           destruct (pev a (tand U (compute_valid_domain_for_var G U dset e))) as [A| | |];
             cbn [bind]; try reflexivity;
           destruct (eval_hybrid_quantifier G U (tand U (compute_valid_domain_for_var G U dset e)) o e A);
             reflexivity.
      * destruct (IH U c0 Hl Hc0) as [c1 [Hc1 E1]]. rewrite E1.
        exists (set_free c1 (aremove str_eqb x (free_doms c1))).
        split; [apply same_store_set_free; exact Hc1|].
        destruct (pev a U) as [A| | |]; cbn [bind]; try reflexivity;
        destruct (hctl_var_id G x) as [e| | |]; cbn [bind]; try reflexivity;
        destruct (eval_hybrid_quantifier G U U o e A); reflexivity.
Qed.

End Link.

Lemma wild_key_inj p q : wild_key p = wild_key q -> p = q.
Proof.
  unfold wild_key. intro H. injection H as H. apply app_inv_tail in H. exact H.
Qed.

Lemma amem_incr_same k D : amem key_eqb k (incr_dup k D) = true.
Proof.
  unfold incr_dup, amem.
  destruct (alookup key_eqb k D); rewrite (alookup_ainsert_same key_eqb key_eqb_eq); reflexivity.
Qed.

Lemma amem_incr_other k k' D : k <> k' -> amem key_eqb k (incr_dup k' D) = amem key_eqb k D.
Proof.
  intro Hne. unfold incr_dup, amem.
  destruct (alookup key_eqb k' D); rewrite (alookup_ainsert_other key_eqb key_eqb_eq) by exact Hne;
    reflexivity.
Qed.

(** the wild-card entries after extend_props: the LAST set given for a label wins *)
Lemma extend_props_view : forall props c q,
  match alookup str_eqb q (rev props) with
  | Some s => amem key_eqb (wild_key q) (duplicates (extend_props props c)) = true /\
              alookup key_eqb (wild_key q) (cache (extend_props props c)) = Some (s, [])
  | None => amem key_eqb (wild_key q) (duplicates (extend_props props c))
            = amem key_eqb (wild_key q) (duplicates c) /\
            alookup key_eqb (wild_key q) (cache (extend_props props c))
            = alookup key_eqb (wild_key q) (cache c)
  end.
Proof.
  induction props as [|[p s] rest IH]; intros c q.
  - cbn. auto.
  - cbn [extend_props rev]. rewrite (alookup_app str_eqb).
    set (c2 := set_cache (set_dups c (incr_dup (wild_key p) (duplicates c)))
                 (ainsert key_eqb (wild_key p) (s, [])
                    (cache (set_dups c (incr_dup (wild_key p) (duplicates c)))))).
    specialize (IH c2 q).
    destruct (alookup str_eqb q (rev rest)) as [s'|]; [exact IH|].
    destruct IH as [IH1 IH2]. cbn [alookup].
    destruct (str_eqb q p) eqn:E.
    + apply str_eqb_eq in E. subst q. rewrite IH1, IH2. subst c2. cbn [duplicates cache set_cache set_dups].
      split; [apply amem_incr_same | apply (alookup_ainsert_same key_eqb key_eqb_eq)].
    + assert (Hne : wild_key q <> wild_key p).
      { intro X. apply wild_key_inj in X. subst q.
        assert (Y : str_eqb p p = true) by (apply str_eqb_eq; reflexivity). congruence. }
      rewrite IH1, IH2. subst c2. cbn [duplicates cache set_cache set_dups].
      split; [apply amem_incr_other; exact Hne
             | apply (alookup_ainsert_other key_eqb key_eqb_eq); exact Hne].
Qed.

Lemma extend_props_unmarked : forall props c k, (forall r, fst k <> c_pct :: r) ->
  amem key_eqb k (duplicates (extend_props props c)) = amem key_eqb k (duplicates c).
Proof.
  induction props as [|[p s] rest IH]; intros c k Hk; [reflexivity|].
  cbn [extend_props]. rewrite IH by exact Hk. cbn [duplicates cache set_cache set_dups].
  apply amem_incr_other. intro X. subst k. apply (Hk (p ++ [c_pct])). reflexivity.
Qed.

Lemma fold_ainsert_in : forall (ds : list (str * tt)) acc l s,
  alookup str_eqb l (fold_left (fun acc pd => ainsert str_eqb (fst pd) (snd pd) acc) ds acc) = Some s ->
  In (l, s) ds \/ alookup str_eqb l acc = Some s.
Proof.
  induction ds as [|[d x] ds IH]; intros acc l s H; cbn [fold_left] in H; [right; exact H|].
  apply IH in H. destruct H as [H|H]; [left; right; exact H|]. cbn [fst snd] in H.
  destruct (str_eqb l d) eqn:E.
  - apply str_eqb_eq in E. subst d. rewrite (alookup_ainsert_same str_eqb str_eqb_eq) in H.
    injection H as ->. left. left. reflexivity.
  - rewrite (alookup_ainsert_other str_eqb str_eqb_eq) in H; [right; exact H|].
    intro X. subst d. assert (Y : str_eqb l l = true) by (apply str_eqb_eq; reflexivity). congruence.
Qed.

Lemma extend_props_domsets : forall props c,
  domain_sets (extend_props props c) = domain_sets c.
Proof.
  induction props as [|[p s] rest IH]; intro c; [reflexivity|].
  cbn [extend_props]. rewrite IH. reflexivity.
Qed.

(** the store of  extend_context wprops dprops (ctx_new [])  *)
Lemma extend_context_store wprops dprops :
  let c := extend_context wprops dprops (ctx_new []) in
  store_ok (duplicates c) (cache c) (rev wprops) /\
  (forall l s, alookup str_eqb l (domain_sets c) = Some s -> In (l, s) dprops).
Proof.
  cbn zeta. unfold extend_context. cbn [duplicates cache domain_sets set_domsets]. split.
  - split.
    + intros k Hk. rewrite extend_props_unmarked by exact Hk. reflexivity.
    + intro p. pose proof (extend_props_view wprops (ctx_new []) p) as H.
      destruct (alookup str_eqb p (rev wprops)) as [s|]; [exact H|].
      destruct H as [H _]. rewrite H. reflexivity.
  - intros l s H. apply fold_ainsert_in in H. destruct H as [H|H]; [exact H|].
    rewrite extend_props_domsets in H. discriminate.
Qed.

(** eval_node on extended formulae, end to end *)
Section EvalNodeExt.
Variable G : genv.
Variable names : list str.
Variable Utop : tt.
Hypothesis WF : wf_env G names Utop.
Variable Gamma : str -> val -> Prop.
Variable sw : switches.
Local Notation L := (g_L G).

(** the sets handed to extend_context (several sets for one label must agree: they all
    denote [Gamma l]) *)
Variable wprops dprops : list (str * tt).
Hypothesis wprops_ok : forall l s, In (l, s) wprops ->
  shaped L s /\ forall v, mem L s v = true <-> Gamma l v.
Hypothesis dprops_ok : forall l s, In (l, s) dprops ->
  shaped L s /\ extras_indep G s /\ forall v, mem L s v = true <-> Gamma l v.

Theorem eval_node_ext_correct t R c' : scoped G [] t -> linkable t ->
  eval_node G names sw (steady_of G Utop) t Utop (extend_context wprops dprops (ctx_new []))
    = Ok (R, c') ->
  shaped L R /\
  forall v, mem L Utop v = true -> (mem L R v = true <-> sat G names Gamma t v).
Proof.
  intros Hsc Hl H.
  set (c := extend_context wprops dprops (ctx_new [])) in *.
  destruct (extend_context_store wprops dprops) as [HS HD]. fold c in HS, HD.
  destruct (eval_node_ext G names sw (steady_of G Utop) (duplicates c) (cache c) (domain_sets c)
              (rev wprops) HS t Utop c Hl (conj eq_refl (conj eq_refl eq_refl))) as [c1 [_ E]].
  rewrite E in H.
  destruct (peval_ext G names sw (steady_of G Utop) (rev wprops) (domain_sets c) t Utop)
    as [r| | |] eqn:EP; cbn [bind] in H; try discriminate.
  injection H as <- <-.
  eapply peval_ext_correct; [exact WF | | | exact Hsc | exact EP].
  - intros l s El. apply (alookup_in str_eqb str_eqb_eq) in El. apply in_rev in El.
    apply wprops_ok. exact El.
  - intros l s El. apply HD in El. apply dprops_ok. exact El.
Qed.

End EvalNodeExt.

