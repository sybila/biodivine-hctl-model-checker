(** Termination: the fuel of the fixed-point loops of Model/Ops.v always suffices.

    Every round of `while old != new` either stops or strictly changes [card old]
    (upwards for an inflationary body, downwards for a deflationary one), every round of the
    saturation loop either stops or strictly increases [card result], and [card] of a shaped
    tree lies between 0 and 2 ^ length L.  Hence [loop_fuel = S (2 ^ length L)] rounds are
    enough and no operator ever returns [OutOfFuel] on shaped arguments; the same holds
    for the cache-free evaluators [peval_ext] and [peval] (the latter without wild-card and
    domain sets), which moreover can only panic on a formula with an unknown label or a
    variable without spare copy. *)
From HCTL Require Import Base Syntax TT Ops Eval Kripke HCTL.
From HCTL Require Import TTFacts OpsFacts FixFacts SemFacts HybridFacts EvalPure ExtEval.

(** `while old != new` with a body that keeps an invariant and decreases a measure *)
Section Loop.
Variable P : tt -> Prop.
Variable F : tt -> tt.
Variable m : tt -> nat.
Hypothesis F_keeps : forall x, P x -> P (F x).
Hypothesis F_decr : forall x, P x -> F x <> x -> m (F x) < m x.

(** the fuel has to cover the measure only if the loop is entered at all; that is the
    form in which the bound passes from one round (x, y) to the next (F x, x) *)
Theorem while_neq_measure fuel : forall x y, P x -> (x <> y -> m x < fuel) ->
  exists r, while_neq fuel F x y = Ok r /\ P r.
Proof.
  induction fuel as [|f IH]; intros x y Hx Hfuel; cbn [while_neq];
    (destruct (tt_eqb x y) eqn:E; [exists x; auto|]);
    assert (Hlt : m x < _)
      by (apply Hfuel; intro X; rewrite X, tt_eqb_refl in E; discriminate).
  - lia.
  - apply IH; [auto|]. intro Hne. apply F_decr in Hne; [lia | exact Hx].
Qed.
End Loop.

(** bodies that grow or shrink a shaped set, over an arbitrary layout *)
Section Generic.
Variable L : layout.
Hypothesis L_nodup : NoDup L.

(** a proper shaped subset has strictly fewer members *)
Lemma subset_neq_card a b : shaped L a -> shaped L b -> subset L a b -> a <> b ->
  card a < card b.
Proof.
  intros Ha Hb Hsub Hne.
  destruct (subset_card L a b L_nodup Ha Hb Hsub) as [Hle Heq].
  destruct (Nat.eq_dec (card a) (card b)) as [E|E]; [exfalso; apply Hne, Heq, E | lia].
Qed.

Variable F : tt -> tt.
Hypothesis F_shaped : forall x, shaped L x -> shaped L (F x).

(** measure 2 ^ length L - card x *)
Theorem while_neq_infl fuel x y : (forall x, shaped L x -> subset L x (F x)) ->
  shaped L x -> 2 ^ length L < fuel + card x ->
  exists r, while_neq fuel F x y = Ok r /\ shaped L r.
Proof.
  intros F_infl Hx Hfuel. pose proof (card_le L x Hx).
  apply (while_neq_measure (shaped L) F (fun x => 2 ^ length L - card x) F_shaped);
    [| exact Hx | cbv beta; lia].
  intros z Hz Hne. cbv beta.
  assert (card z < card (F z)) by (apply subset_neq_card; auto).
  pose proof (card_le L (F z) (F_shaped z Hz)). lia.
Qed.

(** measure card x *)
Theorem while_neq_defl fuel x y : (forall x, shaped L x -> subset L (F x) x) ->
  shaped L x -> card x < fuel ->
  exists r, while_neq fuel F x y = Ok r /\ shaped L r.
Proof.
  intros F_defl Hx Hfuel.
  apply (while_neq_measure (shaped L) F card F_shaped); [| exact Hx | auto].
  intros z Hz Hne. apply subset_neq_card; auto.
Qed.

End Generic.

Section Termination.
Variable G : genv.
Local Notation L := (g_L G).
Local Notation n := (g_n G).

Hypothesis L_nodup : NoDup L.
Hypothesis upd_shaped : forall i, shaped L (upd_of G i).

(** a shaped set: neither a panic nor an error, and the fuel sufficed *)
Definition total (r : res tt) : Prop := exists R, r = Ok R /\ shaped L R.

Lemma total_ok R : shaped L R -> total (Ok R).
Proof. intro H. exists R. auto. Qed.

Lemma total_bind (r : res tt) (f : tt -> res tt) :
  total r -> (forall x, shaped L x -> total (f x)) -> total (bind r f).
Proof. intros [R [-> HR]] Hf. cbn [bind]. apply Hf, HR. Qed.

Lemma total_neg U (r : res tt) : shaped L U -> total r ->
  total (let* x := r in Ok (eval_neg U x)).
Proof.
  intros HU Hr. apply total_bind; [exact Hr|]. intros x Hx. apply total_ok. auto with shaped.
Qed.

(** a shaped set, or a panic that [Q] rules out *)
Definition outcome (Q : Prop) (r : res tt) : Prop :=
  match r with
  | Ok R => shaped L R
  | Panic _ => ~ Q
  | Err _ => False
  | OutOfFuel => False
  end.

Lemma total_outcome Q r : total r -> outcome Q r.
Proof. intros [R [-> HR]]. exact HR. Qed.

Lemma outcome_total (Q : Prop) r : Q -> outcome Q r -> total r.
Proof. intro q. destruct r as [R|e|p|]; cbn [outcome]; [apply total_ok | | |]; tauto. Qed.

Lemma outcome_weaken (Q Q' : Prop) r : (Q' -> Q) -> outcome Q r -> outcome Q' r.
Proof. intro H. destruct r as [R|e|p|]; cbn [outcome]; tauto. Qed.

(** [Q'] speaks of a formula, [Q] of its immediate sub-formula *)
Lemma outcome_bind (Q Q' : Prop) (r : res tt) (f : tt -> res tt) :
  outcome Q r -> (Q' -> Q) -> (forall x, shaped L x -> outcome Q' (f x)) -> outcome Q' (bind r f).
Proof. destruct r as [R|e|p|]; cbn [bind outcome]; auto. Qed.

(** [hctl_var_id] panics exactly where [var_of] is undefined *)
Lemma outcome_var_bind (Q : Prop) x (f : nat -> res tt) : (Q -> var_of G x <> None) ->
  (forall e, outcome Q (f e)) -> outcome Q (bind (hctl_var_id G x) f).
Proof.
  intros Hx Hf. unfold hctl_var_id. unfold var_of in Hx.
  destruct x as [|c r]; [intro q; exact (Hx q eq_refl)|].
  destruct (Nat.ltb (length r) (g_k G)); cbn [bind]; [apply Hf | intro q; exact (Hx q eq_refl)].
Qed.

Theorem eg_terminates phi st : shaped L phi -> shaped L st ->
  total (eval_eg G phi st).
Proof.
  intros Hphi Hst. apply (while_neq_defl L L_nodup).
  - auto with shaped.
  - intros x Hx v Hv. rewrite mem_tand in Hv by auto with shaped.
    apply andb_true_iff in Hv. tauto.
  - exact Hphi.
  - pose proof (card_le L phi Hphi). unfold loop_fuel. lia.
Qed.

Theorem au_terminates U phi1 phi2 st : shaped L U -> shaped L phi1 -> shaped L phi2 -> shaped L st ->
  total (eval_au G U phi1 phi2 st).
Proof.
  intros HU H1 H2 Hst. apply (while_neq_infl L L_nodup).
  - auto with shaped.
  - intros x Hx v Hv. rewrite mem_tor by auto with shaped. rewrite Hv. reflexivity.
  - exact H2.
  - unfold loop_fuel. lia.
Qed.

(** a round of the saturation loop that does not stop adds a valuation *)
Lemma sat_step_grows phi1 vars result r : shaped L phi1 -> shaped L result ->
  sat_step G vars phi1 result = Some r ->
  shaped L r /\ card result < card r.
Proof.
  intros H1 HR. induction vars as [|i vars IH]; cbn [sat_step]; [discriminate|].
  set (upd := tminus (tand phi1 (var_pre G i result)) result).
  assert (HT : shaped L upd) by (unfold upd; auto with shaped).
  destruct (is_empty upd) eqn:E; [exact IH|].
  intro H; injection H as <-.
  apply (is_empty_false_iff L _ L_nodup HT) in E. destruct E as [v Hv].
  split; [auto with shaped|].
  apply (subset_neq_card L L_nodup); auto with shaped.
  - intros w Hw. rewrite mem_tor by assumption. rewrite Hw. reflexivity.
  - (* v is new *)
    intro X. assert (Hin : mem L result v = true).
    { rewrite X, mem_tor, Hv by assumption. apply orb_true_r. }
    unfold upd in Hv. rewrite mem_tminus, Hin, andb_false_r in Hv by auto with shaped.
    discriminate.
Qed.

Theorem eu_loop_terminates phi1 fuel : shaped L phi1 -> forall result, shaped L result ->
  2 ^ length L < fuel + card result ->
  total (eu_loop G fuel phi1 result).
Proof.
  intro H1. induction fuel as [|f IH]; intros result HR Hfuel.
  - pose proof (card_le L result HR). lia.
  - cbn [eu_loop]. destruct (sat_step G (rev (range n)) phi1 result) as [r'|] eqn:E.
    + destruct (sat_step_grows _ _ _ _ H1 HR E) as [HS Hlt].
      apply IH; [exact HS | lia].
    + apply total_ok, HR.
Qed.

Theorem eu_terminates phi1 phi2 : shaped L phi1 -> shaped L phi2 ->
  total (eval_eu_saturated G phi1 phi2).
Proof.
  intros H1 H2. apply eu_loop_terminates; try assumption. unfold loop_fuel. lia.
Qed.

Theorem ef_terminates U phi : shaped L U -> shaped L phi ->
  total (eval_ef_saturated G U phi).
Proof. exact (eu_terminates U phi). Qed.

Theorem af_terminates U phi st : shaped L U -> shaped L phi -> shaped L st ->
  total (eval_af G U phi st).
Proof.
  intros HU Hp Hst. apply total_neg; [exact HU|]. apply eg_terminates; auto with shaped.
Qed.

Theorem ag_terminates U phi : shaped L U -> shaped L phi ->
  total (eval_ag G U phi).
Proof.
  intros HU Hp. apply total_neg; [exact HU|]. apply ef_terminates; auto with shaped.
Qed.

Theorem ew_terminates U phi1 phi2 st : shaped L U -> shaped L phi1 -> shaped L phi2 -> shaped L st ->
  total (eval_ew G U phi1 phi2 st).
Proof.
  intros HU H1 H2 Hst. apply total_neg; [exact HU|]. apply au_terminates; auto with shaped.
Qed.

Theorem aw_terminates U phi1 phi2 : shaped L U -> shaped L phi1 -> shaped L phi2 ->
  total (eval_aw G U phi1 phi2).
Proof.
  intros HU H1 H2. apply total_neg; [exact HU|]. apply eu_terminates; auto with shaped.
Qed.

Lemma shaped_eval_equiv U a b : shaped L U -> shaped L a -> shaped L b -> shaped L (eval_equiv U a b).
Proof. intros; unfold eval_equiv; auto with shaped. Qed.
Lemma shaped_eval_xor U a b : shaped L U -> shaped L a -> shaped L b -> shaped L (eval_xor U a b).
Proof. intros; unfold eval_xor; auto using shaped_eval_equiv with shaped. Qed.
Lemma shaped_eval_imp U a b : shaped L U -> shaped L a -> shaped L b -> shaped L (eval_imp U a b).
Proof. intros; unfold eval_imp; auto with shaped. Qed.

End Termination.

#[export] Hint Resolve shaped_eval_equiv shaped_eval_xor shaped_eval_imp : shaped.

(** the operators of a node always return a set *)
Section OpTotal.
Variable G : genv.
Variable steady : tt.
Local Notation L := (g_L G).

Hypothesis L_nodup : NoDup L.
Hypothesis upd_shaped : forall i, shaped L (upd_of G i).
Hypothesis steady_shaped : shaped L steady.

Lemma eval_unary_total o U x : shaped L U -> shaped L x -> total G (eval_unary G U steady o x).
Proof.
  intros HU Hx. destruct o; cbn [eval_unary].
  1-3: apply total_ok; auto with shaped.
  - apply ef_terminates; assumption.
  - apply af_terminates; assumption.
  - apply eg_terminates; assumption.
  - apply ag_terminates; assumption.
Qed.

Lemma eval_binary_total o U a b :
  shaped L U -> shaped L a -> shaped L b -> total G (eval_binary G U steady o a b).
Proof.
  intros HU Ha Hb. destruct o; cbn [eval_binary].
  1-5: apply total_ok; auto with shaped.
  - apply eu_terminates; assumption.
  - apply au_terminates; assumption.
  - apply ew_terminates; assumption.
  - apply aw_terminates; assumption.
Qed.

End OpTotal.

Section Attractors.
Variable G : genv.
Variable U : tt.
Local Notation L := (g_L G).
Hypothesis L_nodup : NoDup L.
Hypothesis upd_shaped : forall i, shaped L (upd_of G i).
Hypothesis U_shaped : shaped L U.

Lemma total_attractors e : total G (attractors G U e).
Proof.
  unfold attractors. apply total_bind; [apply ef_terminates; auto with shaped|].
  intros ef Hef. apply total_bind; [apply ag_terminates; auto|].
  intros ag Hag. apply total_ok. auto with shaped.
Qed.
End Attractors.

Section PEvalExtTermination.
Variable G : genv.
Variable names : list str.
Variable sw : switches.
Variable steady : tt.
Variable wild doms : list (str * tt).
Local Notation L := (g_L G).

Hypothesis L_nodup : NoDup L.
Hypothesis upd_shaped : forall i, shaped L (upd_of G i).
Hypothesis steady_shaped : shaped L steady.
Hypothesis wild_shaped : forall l s, alookup str_eqb l wild = Some s -> shaped L s.
Hypothesis doms_shaped : forall l s, alookup str_eqb l doms = Some s -> shaped L s.

Local Notation pev := (peval_ext G names sw steady wild doms).

(** propositions, wild-card labels and the domain labels that are looked up are known *)
Fixpoint labels_known (t : tree) : Prop :=
  match t with
  | Terminal (AProp nm) => index_of nm names 0 <> None
  | Terminal (AWild l) => alookup str_eqb l wild <> None
  | Terminal _ => True
  | Unary _ a => labels_known a
  | Binary _ a b => labels_known a /\ labels_known b
  | Hybrid o _ d a =>
      match o, d with
      | Jump, _ | _, None => True
      | _, Some dl => alookup str_eqb dl doms <> None
      end /\ labels_known a
  end.

(** the evaluator returns a shaped set, or panics on a formula with an unknown label or a
    variable without spare copy *)
Theorem peval_ext_outcome : forall t U, shaped L U ->
  outcome G (labels_known t /\ supported G t) (pev t U).
Proof.
  induction t as [a | o a IH | o a IHa b IHb | o x d a IH]; intros U HU; cbn [labels_known supported].
  - rewrite peval_ext_eq. cbn [is_attractor_pattern is_fixed_point_pattern]. rewrite !andb_false_r.
    destruct a as [nm | y | | | l]; cbn [peval_ext_body outcome]; auto with shaped.
    + destruct (index_of nm names 0); cbn [outcome]; [auto with shaped | tauto].
    + apply outcome_var_bind; [tauto|]. intro e. cbn [outcome]. auto with shaped.
    + destruct (alookup str_eqb l wild) as [s|] eqn:E; cbn [outcome]; [exact (wild_shaped l s E) | tauto].
  - rewrite peval_ext_unary.
    eapply outcome_bind; [exact (IH U HU) | tauto |].
    intros A HA. apply total_outcome, eval_unary_total; assumption.
  - rewrite peval_ext_binary.
    eapply outcome_bind; [exact (IHa U HU) | tauto |]. intros A HA.
    eapply outcome_bind; [exact (IHb U HU) | tauto |]. intros B HB.
    apply total_outcome, eval_binary_total; assumption.
  - rewrite peval_ext_eq. destruct (use_patterns sw && is_attractor_pattern (Hybrid o x d a)).
    { cbn [pattern_var]. apply outcome_var_bind; [tauto|]. intro e.
      apply total_outcome, total_attractors; assumption. }
    destruct (use_patterns sw && is_fixed_point_pattern (Hybrid o x d a)).
    { exact steady_shaped. }
    destruct (jump_or_quantifier o) as [->|[Ho _]].
    { cbn [peval_ext_body]. eapply outcome_bind; [exact (IH U HU) | tauto |]. intros A HA.
      apply outcome_var_bind; [tauto|]. intro e. cbn [outcome]. auto with shaped. }
    rewrite (peval_ext_body_quant G names sw steady wild doms o x d a U Ho).
    assert (HQ : forall Ur e A, shaped L Ur -> shaped L A ->
              total G (eval_hybrid_quantifier G U Ur o e A)).
    { intros Ur e A HR HA. destruct o; try congruence; apply total_ok;
        cbn [eval_hybrid_quantifier]; auto 6 with shaped. }
    destruct d as [dl|].
    + destruct (alookup str_eqb dl doms) as [dset|] eqn:ED;
        [|cbn [outcome]; destruct o; [|congruence| |]; intros [[Hn _] _]; exact (Hn eq_refl)].
      apply outcome_var_bind; [tauto|]. intro e. cbv zeta.
      assert (HR : shaped L (tand U (compute_valid_domain_for_var G U dset e))).
      { pose proof (doms_shaped dl dset ED). auto with shaped. }
      destruct (is_empty (tand U (compute_valid_domain_for_var G U dset e))).
      * cbn [outcome]. destruct o; auto with shaped.
      * eapply outcome_bind; [exact (IH _ HR) | tauto |]. intros A HA.
        apply total_outcome, HQ; assumption.
    + eapply outcome_bind; [exact (IH U HU) | tauto |]. intros A HA.
      apply outcome_var_bind; [tauto|]. intro e. apply total_outcome, HQ; assumption.
Qed.

End PEvalExtTermination.

Section PEvalTermination.
Variable G : genv.
Variable names : list str.
Variable sw : switches.
Variable steady : tt.
Variable U : tt.
Local Notation L := (g_L G).

Hypothesis L_nodup : NoDup L.
Hypothesis upd_shaped : forall i, shaped L (upd_of G i).
Hypothesis U_shaped : shaped L U.
Hypothesis steady_shaped : shaped L steady.

Fixpoint props_known (t : tree) : Prop :=
  match t with
  | Terminal (AProp nm) => index_of nm names 0 <> None
  | Terminal _ => True
  | Unary _ a => props_known a
  | Binary _ a b => props_known a /\ props_known b
  | Hybrid _ _ _ a => props_known a
  end.

Lemma plain_labels_known t : plainf t -> props_known t -> labels_known names [] [] t.
Proof.
  induction t as [a | o a IH | o a IHa b IHb | o x d a IH]; cbn [plainf props_known labels_known].
  - destruct a; tauto.
  - exact IH.
  - tauto.
  - intros [-> Hp] Hk. split; [destruct o; exact I | auto].
Qed.

(** the evaluator returns a shaped set, or panics on a formula that is not plain, not
    supported or mentions an unknown proposition *)
Theorem peval_outcome : forall t,
  outcome G (plainf t /\ supported G t /\ props_known t) (peval G names sw steady t U).
Proof.
  intro t. rewrite <- peval_ext_nil.
  eapply outcome_weaken;
    [|apply (peval_ext_outcome G names sw steady [] [] L_nodup upd_shaped steady_shaped);
      [discriminate.. | exact U_shaped]].
  intros [Hp [Hs Hk]]. split; [apply plain_labels_known|]; assumption.
Qed.

Corollary peval_never_out_of_fuel t : peval G names sw steady t U <> OutOfFuel.
Proof. intro H. pose proof (peval_outcome t) as F. rewrite H in F. exact F. Qed.

Corollary peval_never_err t e : peval G names sw steady t U <> Err e.
Proof. intro H. pose proof (peval_outcome t) as F. rewrite H in F. exact F. Qed.

Corollary peval_shaped t R : peval G names sw steady t U = Ok R -> shaped L R.
Proof. intro H. pose proof (peval_outcome t) as F. rewrite H in F. exact F. Qed.

Theorem peval_total : forall t, plainf t -> supported G t -> props_known t ->
  total G (peval G names sw steady t U).
Proof. intros t Hpl Hsup Hpk. eapply outcome_total; [|apply peval_outcome]. auto. Qed.

End PEvalTermination.
