(** The cache-free evaluator for extended formulae ([peval_ext]: wild-card propositions and
    restricted quantifier domains, handled exactly as eval_node handles them) computes the
    satisfying valuations of the formula, at the valuations of the unit. *)
From HCTL Require Import Base Syntax Preprocess Canon MarkDup TT Ops Eval Kripke HCTL.
From HCTL Require Import TTFacts OpsFacts FixFacts SemFacts HybridFacts EvalPure Main.
From HCTL Require Import ExtSem ExtFix ExtFacts ExtHybrid.
From HCTL Require Import BaseFacts PrepFacts.

Section PEvalExt.
Variable G : genv.
Variable names : list str.
Variable sw : switches.
Variable steady : tt.              (* self-loop states of the TOP-LEVEL unit *)
Variable wild : list (str * tt).   (* sets of the wild-card propositions, by label *)
Variable doms : list (str * tt).   (* sets of the quantifier domains, by label *)

Fixpoint peval_ext (t : tree) (U : tt) : res tt :=
  if use_patterns sw && is_attractor_pattern t then
    let* e := hctl_var_id G (pattern_var t) in attractors G U e
  else if use_patterns sw && is_fixed_point_pattern t then Ok steady
  else
  match t with
  | Terminal ATrue => Ok U
  | Terminal AFalse => Ok (empty G)
  | Terminal (AVar x) => let* e := hctl_var_id G x in Ok (eval_hctl_var G U e)
  | Terminal (AProp nm) =>
      match index_of nm names 0 with
      | Some i => Ok (eval_prop G U i)
      | None => Panic PPropLookup
      end
  | Terminal (AWild l) =>
      (* the user's set, as it is: NOT intersected with the unit *)
      match alookup str_eqb l wild with
      | Some s => Ok s
      | None => Panic PWildCardUnreachable
      end
  | Unary o a =>
      let* x := peval_ext a U in
      match o with
      | Not => Ok (eval_neg U x)
      | EX => Ok (eval_ex G x steady)
      | AX => Ok (eval_ax G U x steady)
      | EF => eval_ef_saturated G U x
      | AF => eval_af G U x steady
      | EG => eval_eg G x steady
      | AG => eval_ag G U x
      end
  | Binary o l r =>
      let* a := peval_ext l U in
      let* b := peval_ext r U in
      match o with
      | And => Ok (tand a b)
      | Or => Ok (tor a b)
      | Xor => Ok (eval_xor U a b)
      | Imp => Ok (eval_imp U a b)
      | Iff => Ok (eval_equiv U a b)
      | EU => eval_eu_saturated G a b
      | AU => eval_au G U a b steady
      | EW => eval_ew G U a b steady
      | AW => eval_aw G U a b
      end
  | Hybrid Jump x _ a =>
      let* r := peval_ext a U in
      let* e := hctl_var_id G x in
      Ok (eval_jump G U r e)
  | Hybrid o x None a =>
      let* r := peval_ext a U in
      let* e := hctl_var_id G x in
      eval_hybrid_quantifier G U U o e r
  | Hybrid o x (Some dl) a =>
      match alookup str_eqb dl doms with
      | None => Panic PDomainLookup
      | Some dset =>
          let* e := hctl_var_id G x in
          let var_domain := compute_valid_domain_for_var G U dset e in
          let Ur := tand U var_domain in
          if is_empty Ur then Ok (match o with Forall => U | _ => empty G end)
          else
            (* the body is evaluated ON THE RESTRICTED UNIT *)
            let* r := peval_ext a Ur in
            eval_hybrid_quantifier G U Ur o e r
      end
  end.

Definition peval_ext_body (t : tree) (U : tt) : res tt :=
  match t with
  | Terminal ATrue => Ok U
  | Terminal AFalse => Ok (empty G)
  | Terminal (AVar x) => let* e := hctl_var_id G x in Ok (eval_hctl_var G U e)
  | Terminal (AProp nm) =>
      match index_of nm names 0 with
      | Some i => Ok (eval_prop G U i)
      | None => Panic PPropLookup
      end
  | Terminal (AWild l) =>
      match alookup str_eqb l wild with
      | Some s => Ok s
      | None => Panic PWildCardUnreachable
      end
  | Unary o a =>
      let* x := peval_ext a U in
      match o with
      | Not => Ok (eval_neg U x)
      | EX => Ok (eval_ex G x steady)
      | AX => Ok (eval_ax G U x steady)
      | EF => eval_ef_saturated G U x
      | AF => eval_af G U x steady
      | EG => eval_eg G x steady
      | AG => eval_ag G U x
      end
  | Binary o l r =>
      let* a := peval_ext l U in
      let* b := peval_ext r U in
      match o with
      | And => Ok (tand a b)
      | Or => Ok (tor a b)
      | Xor => Ok (eval_xor U a b)
      | Imp => Ok (eval_imp U a b)
      | Iff => Ok (eval_equiv U a b)
      | EU => eval_eu_saturated G a b
      | AU => eval_au G U a b steady
      | EW => eval_ew G U a b steady
      | AW => eval_aw G U a b
      end
  | Hybrid o x d a =>
      match o with
      | Jump =>
          let* r := peval_ext a U in
          let* e := hctl_var_id G x in
          Ok (eval_jump G U r e)
      | _ =>
          match d with
          | None =>
              let* r := peval_ext a U in
              let* e := hctl_var_id G x in
              eval_hybrid_quantifier G U U o e r
          | Some dl =>
              match alookup str_eqb dl doms with
              | None => Panic PDomainLookup
              | Some dset =>
                  let* e := hctl_var_id G x in
                  let Ur := tand U (compute_valid_domain_for_var G U dset e) in
                  if is_empty Ur then Ok (match o with Forall => U | _ => empty G end)
                  else
                    let* r := peval_ext a Ur in
                    eval_hybrid_quantifier G U Ur o e r
              end
          end
      end
  end.

Lemma peval_ext_eq t U :
  peval_ext t U =
  if use_patterns sw && is_attractor_pattern t then
    let* e := hctl_var_id G (pattern_var t) in attractors G U e
  else if use_patterns sw && is_fixed_point_pattern t then Ok steady
  else peval_ext_body t U.
Proof. destruct t as [a|o a|o a b|o x d a]; try reflexivity; destruct o, d; reflexivity. Qed.

(** on the operators, with the dispatch of SemFacts.v *)
Lemma peval_ext_unary o a U :
  peval_ext (Unary o a) U = bind (peval_ext a U) (eval_unary G U steady o).
Proof.
  rewrite peval_ext_eq. cbn [is_attractor_pattern is_fixed_point_pattern]. rewrite !andb_false_r.
  destruct o; reflexivity.
Qed.

Lemma peval_ext_binary o a b U :
  peval_ext (Binary o a b) U =
  let* x := peval_ext a U in let* y := peval_ext b U in eval_binary G U steady o x y.
Proof.
  rewrite peval_ext_eq. cbn [is_attractor_pattern is_fixed_point_pattern]. rewrite !andb_false_r.
  destruct o; reflexivity.
Qed.

(** Bind, Exists and Forall share one branch of the evaluator *)
Lemma peval_ext_body_quant o x d a U : o <> Jump ->
  peval_ext_body (Hybrid o x d a) U =
  match d with
  | None =>
      let* r := peval_ext a U in
      let* e := hctl_var_id G x in eval_hybrid_quantifier G U U o e r
  | Some dl =>
      match alookup str_eqb dl doms with
      | None => Panic PDomainLookup
      | Some dset =>
          let* e := hctl_var_id G x in
          let Ur := tand U (compute_valid_domain_for_var G U dset e) in
          if is_empty Ur then Ok (match o with Forall => U | _ => empty G end)
          else let* r := peval_ext a Ur in eval_hybrid_quantifier G U Ur o e r
      end
  end.
Proof. intro Ho. destruct o; try congruence; reflexivity. Qed.

End PEvalExt.

Lemma peval_ext_plain_hybrid G names sw steady wild doms o x a U :
  (forall U', peval_ext G names sw steady wild doms a U' = peval G names sw steady a U') ->
  peval_ext G names sw steady wild doms (Hybrid o x None a) U = peval G names sw steady (Hybrid o x None a) U.
Proof.
  intro IH. rewrite peval_ext_eq, (peval_unfold_hybrid G names sw steady o x a U).
  destruct (use_patterns sw && is_attractor_pattern (Hybrid o x None a)); [reflexivity|].
  destruct (use_patterns sw && is_fixed_point_pattern (Hybrid o x None a)); [reflexivity|].
  destruct o; cbn [peval_ext_body]; rewrite (IH U); reflexivity.
Qed.

(** on plain formulae (no wild-card, no domain) the extended evaluator is [peval] *)
Lemma peval_ext_plain G names sw steady wild doms : forall t U, plainf t ->
  peval_ext G names sw steady wild doms t U = peval G names sw steady t U.
Proof.
  induction t as [a | o a IH | o a IHa b IHb | o x d a IH]; intros U Hpl.
  - destruct a; try reflexivity. destruct Hpl.
  - cbn [peval_ext peval]. rewrite (IH U Hpl). reflexivity.
  - destruct Hpl as [Ha Hb]. cbn [peval_ext peval]. rewrite (IHa U Ha), (IHb U Hb). reflexivity.
  - destruct Hpl as [-> Ha]. apply peval_ext_plain_hybrid. intro U'. apply IH, Ha.
Qed.

(** without any wild-card set or domain set it is [peval] on every formula: the same lookups
    fail with the same panic *)
Lemma peval_ext_nil G names sw steady : forall t U,
  peval_ext G names sw steady [] [] t U = peval G names sw steady t U.
Proof.
  induction t as [a | o a IH | o a IHa b IHb | o x d a IH]; intro U.
  - destruct a; reflexivity.
  - cbn [peval_ext peval]. rewrite (IH U). reflexivity.
  - cbn [peval_ext peval]. rewrite (IHa U), (IHb U). reflexivity.
  - destruct d as [dl|]; [|apply peval_ext_plain_hybrid; exact IH].
    destruct o; cbn [peval_ext peval is_attractor_pattern is_fixed_point_pattern alookup];
      rewrite ?andb_false_r; rewrite ?(IH U); reflexivity.
Qed.

Section ExtSound.
Variable G : genv.
Variable names : list str.
Local Notation L := (g_L G).
Local Notation n := (g_n G).
Local Notation k := (g_k G).

Variable Utop : tt.
Hypothesis WF : wf_env G names Utop.

Variable Gamma : str -> val -> Prop.
Variable sw : switches.
Variable wild doms : list (str * tt).

(** the wild-card sets denote the context predicates *)
Definition wild_sets_ok : Prop :=
  forall l s, alookup str_eqb l wild = Some s ->
    shaped L s /\ forall v, mem L s v = true <-> Gamma l v.
(** so do the domain sets, which moreover do not read the spare copies
    (they are [expand]ed from sets over colours and states) *)
Definition dom_sets_ok : Prop :=
  forall l s, alookup str_eqb l doms = Some s ->
    shaped L s /\ extras_indep G s /\ forall v, mem L s v = true <-> Gamma l v.

Hypothesis wild_ok : wild_sets_ok.
Hypothesis doms_ok : dom_sets_ok.

Local Notation st := (steady_of G Utop).
Local Notation Sat := (sat G names Gamma).
Local Notation pev := (peval_ext G names sw st wild doms).

(** what the current unit of a scope must satisfy; [bound] lists the spare copies of the
    enclosing quantifiers WITH a domain (the copies the unit may depend on) *)
Record unit_ok (bound : list nat) (Uc : tt) : Prop := {
  uo_shaped : shaped L Uc;
  uo_state : state_indep G Uc;
  uo_sub : forall v, mem L Uc v = true -> mem L Utop v = true;
  uo_copy : forall e, ~ In e bound -> copy_indep G Uc e;
}.

(** every variable has a spare copy, and a quantifier never re-uses the copy of an enclosing
    quantifier with a domain (preprocessed formulae never re-quantify a variable at all) *)
Fixpoint scoped (bound : list nat) (t : tree) : Prop :=
  match t with
  | Terminal (AVar x) => var_of G x <> None
  | Terminal _ => True
  | Unary _ a => scoped bound a
  | Binary _ a b => scoped bound a /\ scoped bound b
  | Hybrid o x d a =>
      match o with
      | Jump => var_of G x <> None /\ scoped bound a
      | _ => exists e, var_of G x = Some e /\ ~ In e bound /\
               scoped (match d with Some _ => e :: bound | None => bound end) a
      end
  end.

Lemma top_unit_ok : unit_ok [] Utop.
Proof.
  destruct WF. split.
  - assumption.
  - intros v w H. apply wf_U_colour. intro j. apply H. reflexivity.
  - auto.
  - intros e _ u v. apply wf_U_colour. intro j. reflexivity.
Qed.

Lemma in_sat_var bound Uc x e : unit_ok bound Uc -> var_of G x = Some e -> e < k ->
  spec_in G Uc (eval_hctl_var G Uc e) (Sat (Terminal (AVar x))).
Proof.
  intros [US USt USub UC] Ev Hk. destruct WF. eapply in_ext; [eapply in_var; eauto|].
  intros w _. symmetry. exact (sat_var_at G names Gamma x e w Ev).
Qed.

(** the pattern shortcuts inside a (restricted) scope *)
Lemma steady_pattern_in bound Uc x : unit_ok bound Uc -> var_of G x <> None ->
  spec_in G Uc st (Sat (Hybrid Bind x None (Unary AX (Terminal (AVar x))))).
Proof.
  intros [US USt USub UC] Hx. destruct WF.
  destruct (var_of G x) as [e|] eqn:Ev; [|congruence].
  destruct (var_id_of _ _ _ (var_of_id _ _ _ Ev)) as [_ Hk].
  eapply in_of_top; [exact USub|].
  eapply steady_pattern_spec; eauto.
Qed.

Lemma attractor_pattern_in bound Uc x e R : unit_ok bound Uc ->
  var_of G x = Some e -> e < k -> copy_indep G Uc e ->
  attractors G Uc e = Ok R ->
  spec_in G Uc R (Sat (Hybrid Bind x None (Unary AG (Unary EF (Terminal (AVar x)))))).
Proof.
  intros HU Ev Hk Hc H. destruct (attractors_inv G Uc e R H) as [ef [ag [E1 [E2 ->]]]].
  pose proof (in_sat_var bound Uc x e HU Ev Hk) as S0.
  destruct HU as [US USt USub UC]. destruct WF.
  assert (S1 : spec_in G Uc ef (EFs G (Sat (Terminal (AVar x))))) by (eapply in_ef; eauto).
  assert (S2 : spec_in G Uc ag (AGs G (EFs G (Sat (Terminal (AVar x)))))) by (eapply in_ag; eauto).
  eapply in_ext; [eapply in_bind; eauto|].
  intros w _. symmetry. exact (sat_hybrid_at G names Gamma Bind x e _ w Ev).
Qed.

(** the restricted unit of a quantifier with a domain is a legitimate current unit; it may
    depend on the copy of the quantified variable *)
Lemma restricted_unit_ok bound Uc dset e : unit_ok bound Uc -> e < k ->
  shaped L dset -> extras_indep G dset ->
  unit_ok (e :: bound) (tand Uc (compute_valid_domain_for_var G Uc dset e)).
Proof.
  intros [US USt USub UC] Hk SD XD. destruct WF. split.
  - eapply Ur_shaped; eauto.
  - eapply Ur_state; eauto.
  - intros v Hv. apply USub. eapply Ur_sub with (dset := dset) (e := e); eauto.
  - intros e' He'. eapply Ur_copy; eauto.
    + intro X. apply He'. left. congruence.
    + apply UC. intro X. apply He'. right. exact X.
Qed.

(** the operators of SemFacts.v, Section On, for a current unit of a scope *)
Lemma in_unary_ok bound Uc o A P R : unit_ok bound Uc -> spec_in G Uc A P ->
  eval_unary G Uc st o A = Ok R -> spec_in G Uc R (sat_unary G o P).
Proof. intros [US USt USub UC]. destruct WF. eapply in_unary; eassumption. Qed.

Lemma in_binary_ok bound Uc o A B P Q R : unit_ok bound Uc -> spec_in G Uc A P -> spec_in G Uc B Q ->
  eval_binary G Uc st o A B = Ok R -> spec_in G Uc R (sat_binary G o P Q).
Proof. intros [US USt USub UC]. destruct WF. eapply in_binary; eassumption. Qed.

Lemma in_sat_hybrid bound Uc o x e a A R : unit_ok bound Uc ->
  var_of G x = Some e -> e < k -> (o <> Jump -> copy_indep G Uc e) ->
  spec_in G Uc A (Sat a) ->
  match o with
  | Jump => R = eval_jump G Uc A e
  | _ => eval_hybrid_quantifier G Uc Uc o e A = Ok R
  end -> spec_in G Uc R (Sat (Hybrid o x None a)).
Proof.
  intros [US USt USub UC] Ev Hk Hc HA HR. destruct WF.
  eapply in_ext; [|intros w _; symmetry; exact (sat_hybrid_at G names Gamma o x e a w Ev)].
  destruct o; simpl in HR; [injection HR as <- | subst R | injection HR as <- ..].
  - exact (in_bind G wf_nodup wf_TS_in wf_TX_in wf_TX_bound Uc US A _ e Hk (Hc ltac:(discriminate)) HA).
  - exact (in_jump G wf_nodup wf_TS_in wf_TX_in wf_TS_bound Uc US USt A _ e Hk HA).
  - exact (in_exists G wf_nodup Uc US A _ e Hk (Hc ltac:(discriminate)) HA).
  - exact (in_forall G wf_nodup Uc US A _ e Hk (Hc ltac:(discriminate)) HA).
Qed.

Section Domain.
Variables (bound : list nat) (Uc : tt) (o : hybop) (x dl : str) (e : nat) (dset : tt) (a : tree).
Hypothesis HU : unit_ok bound Uc.
Hypothesis Ev : var_of G x = Some e.
Hypothesis Hk : e < k.
Hypothesis Ho : o <> Jump.
Hypothesis Hce : copy_indep G Uc e.
Hypothesis ED : alookup str_eqb dl doms = Some dset.
Local Notation Ur := (tand Uc (compute_valid_domain_for_var G Uc dset e)).

(** the quantifier closes the scope of the restricted unit *)
Lemma in_sat_domain A R : spec_in G Ur A (Sat a) ->
  eval_hybrid_quantifier G Uc Ur o e A = Ok R ->
  spec_in G Uc R (Sat (Hybrid o x (Some dl) a)).
Proof.
  intros HA HR. destruct HU as [US USt USub UC]. destruct (doms_ok _ _ ED) as [SD [XD GD]]. destruct WF.
  destruct o; [|congruence| |]; simpl in HR; injection HR as <-.
  - eapply in_ext; [eapply in_bind_domain; eassumption|].
    intros w _. cbn [sat dom]. rewrite (var_of_ex G x e _ Ev).
    split; intros [Hd Hs]; (split; [apply GD; exact Hd | exact Hs]).
  - eapply in_ext; [eapply in_exists_domain; eassumption|].
    intros w _. cbn [sat dom]. rewrite (var_of_ex G x e _ Ev).
    split; intros [u [Hd Hs]]; exists u; (split; [apply GD; exact Hd | exact Hs]).
  - eapply in_ext; [eapply in_forall_domain; eassumption|].
    intros w _. cbn [sat dom]. rewrite (var_of_ex G x e _ Ev).
    split; intros H u Hd; apply H; apply GD; exact Hd.
Qed.

(** the early return: no state of any colour of the current unit is in the domain *)
Lemma in_sat_empty_domain :
  is_empty Ur = true ->
  spec_in G Uc (match o with Forall => Uc | _ => empty G end) (Sat (Hybrid o x (Some dl) a)).
Proof.
  intro Emp. destruct HU as [US USt USub UC]. destruct (doms_ok _ _ ED) as [SD [XD GD]]. destruct WF.
  pose proof (Ur_empty G wf_nodup wf_TS_in wf_TX_in wf_TS_bound Uc US USt dset e Hk SD XD Hce Emp) as Hno.
  destruct o; [|congruence| |];
    (eapply in_ext; [first [apply in_empty | apply in_unit; assumption]|]);
    intros w Hw; simpl; rewrite (var_of_ex G x e _ Ev).
  - split; [tauto|]. intros [Hd _]. apply GD in Hd.
    rewrite <- (with_state_self_mem G dset w XD), (Hno w w Hw) in Hd. discriminate.
  - split; [tauto|]. intros [u [Hd _]]. apply GD in Hd. rewrite (Hno u w Hw) in Hd. discriminate.
  - split; [|tauto]. intros _ u Hd. apply GD in Hd. rewrite (Hno u w Hw) in Hd. discriminate.
Qed.
End Domain.

(** the main induction: whatever the evaluator returns in a scope with current unit [Uc]
    denotes [sat] at the valuations of [Uc] *)
Theorem peval_ext_sound : forall t bound Uc R, unit_ok bound Uc -> scoped bound t ->
  pev t Uc = Ok R -> spec_in G Uc R (Sat t).
Proof.
  induction t as [a | o a IH | o a IHa b IHb | o x d a IH]; intros bound Uc R HU Hsc H.
  - rewrite peval_ext_eq in H. simpl in H. rewrite !andb_false_r in H.
    pose proof HU as [US USt USub UC]. destruct WF.
    destruct a as [nm | x | | | l]; simpl in H.
    + destruct (index_of nm names 0) as [i|] eqn:E; [|discriminate]. injection H as <-.
      eapply in_ext; [eapply in_prop; eauto|].
      intros w _. symmetry. apply sat_prop. exact E.
    + destruct (hctl_var_id G x) as [e| | |] eqn:E; simpl in H; try discriminate. injection H as <-.
      destruct (var_id_of _ _ _ E) as [Ev Hk].
      exact (in_sat_var bound Uc x e HU Ev Hk).
    + injection H as <-. apply in_unit; assumption.
    + injection H as <-. apply in_empty.
    + destruct (alookup str_eqb l wild) as [s|] eqn:E; [|discriminate]. injection H as <-.
      destruct (wild_ok _ _ E) as [Ss Es].
      split; [assumption|]. intros w _. simpl. apply Es.
  - rewrite peval_ext_unary in H.
    destruct (pev a Uc) as [A| | |] eqn:EA; simpl in H; try discriminate.
    exact (in_unary_ok bound Uc o A _ R HU (IH bound Uc A HU Hsc EA) H).
  - rewrite peval_ext_binary in H. destruct Hsc as [Hsa Hsb].
    destruct (pev a Uc) as [A| | |] eqn:EA; simpl in H; try discriminate.
    destruct (pev b Uc) as [B| | |] eqn:EB; simpl in H; try discriminate.
    exact (in_binary_ok bound Uc o A B _ _ R HU (IHa bound Uc A HU Hsa EA) (IHb bound Uc B HU Hsb EB) H).
  - rewrite peval_ext_eq in H.
    destruct (use_patterns sw && is_attractor_pattern (Hybrid o x d a)) eqn:PA.
    { apply andb_true_iff in PA. destruct PA as [_ PA].
      destruct (attractor_pattern_inv _ PA) as [y Ey]. injection Ey as -> -> -> ->.
      simpl in H. destruct (hctl_var_id G y) as [e| | |] eqn:E; simpl in H; try discriminate.
      destruct (var_id_of _ _ _ E) as [Ev Hk].
      destruct Hsc as [e0 [Ev0 [Hnb _]]]. assert (e0 = e) by congruence. subst e0.
      eapply attractor_pattern_in; eauto. apply (uo_copy _ _ HU). exact Hnb. }
    destruct (use_patterns sw && is_fixed_point_pattern (Hybrid o x d a)) eqn:PF.
    { apply andb_true_iff in PF. destruct PF as [_ PF].
      destruct (fixed_point_pattern_inv _ PF) as [y Ey]. injection Ey as -> -> -> ->.
      injection H as <-.
      destruct Hsc as [e0 [Ev0 _]].
      eapply steady_pattern_in; eauto. congruence. }
    destruct (jump_or_quantifier o) as [->|[Ho _]].
    + destruct Hsc as [Hx Hsa]. cbn [peval_ext_body] in H.
      destruct (pev a Uc) as [A| | |] eqn:EA; simpl in H; try discriminate.
      destruct (hctl_var_id G x) as [e| | |] eqn:E; simpl in H; try discriminate.
      destruct (var_id_of _ _ _ E) as [Ev Hk]. injection H as <-.
      refine (in_sat_hybrid bound Uc Jump x e a A _ HU Ev Hk _ (IH bound Uc A HU Hsa EA) eq_refl).
      intro X. contradiction.
    + (* the quantifiers *)
      assert (Hsc' : exists e, var_of G x = Some e /\ ~ In e bound /\
                scoped (match d with Some _ => e :: bound | None => bound end) a)
        by (destruct o; try exact Hsc; contradiction).
      destruct Hsc' as [e [Ev [Hnb Hsa]]]. pose proof (uo_copy _ _ HU e Hnb) as Hce.
      destruct (var_id_of _ _ _ (var_of_id _ _ _ Ev)) as [_ Hk].
      rewrite (peval_ext_body_quant G names sw st wild doms o x d a Uc Ho) in H. rewrite (var_of_id _ _ _ Ev) in H.
      destruct d as [dl|].
      * destruct (alookup str_eqb dl doms) as [dset|] eqn:ED; [|discriminate]. cbn [bind] in H.
        destruct (doms_ok _ _ ED) as [SD [XD _]].
        destruct (is_empty (tand Uc (compute_valid_domain_for_var G Uc dset e))) eqn:Emp.
        -- injection H as <-. eapply in_sat_empty_domain; eassumption.
        -- destruct (pev a (tand Uc (compute_valid_domain_for_var G Uc dset e))) as [A| | |] eqn:EA;
             simpl in H; try discriminate.
           eapply in_sat_domain; try eassumption.
           refine (IH (e :: bound) _ A _ Hsa EA). apply restricted_unit_ok; assumption.
      * destruct (pev a Uc) as [A| | |] eqn:EA; simpl in H; try discriminate.
        refine (in_sat_hybrid bound Uc o x e a A R HU Ev Hk (fun _ => Hce) (IH bound Uc A HU Hsa EA) _).
        destruct o; try exact H; contradiction.
Qed.

End ExtSound.

(** the hybrid operators and the domain step, packaged for a current unit *)
Section Operators.
Variable G : genv.
Variable names : list str.
Variable Utop : tt.
Hypothesis WF : wf_env G names Utop.
Local Notation L := (g_L G).
Local Notation k := (g_k G).
Local Notation st := (steady_of G Utop).
Variable bound : list nat.
Variable Uc : tt.
Hypothesis HU : unit_ok G Utop bound Uc.
Local Notation spec := (spec_in G Uc).

Theorem ops_hybrid_in A P e : e < k -> spec A P ->
  spec (eval_hctl_var G Uc e) (copy_is_state G e) /\
  spec (eval_jump G Uc A e) (fun v => P (set_state e v)) /\
  (~ In e bound ->
   spec (eval_bind G Uc (tand A Uc) e) (fun v => P (set_copy e v v)) /\
   spec (eval_exists G (tand A Uc) e) (fun v => exists u, P (set_copy e u v)) /\
   spec (eval_neg Uc (eval_exists G (eval_neg Uc A) e)) (fun v => forall u, P (set_copy e u v))).
Proof.
  intros He HA. pose proof (uo_copy _ _ _ _ HU e) as Hce.
  destruct HU as [US USt USub UC]. destruct WF.
  split; [eapply in_var; eauto|].
  split; [eapply in_jump; eauto|].
  intro Hnb. specialize (Hce Hnb).
  split; [eapply in_bind; eauto|].
  split; [eapply in_exists; eauto | eapply in_forall; eauto].
Qed.

(** the domain step: the restricted unit, and the three quantifiers that close its scope
    (the body [A] is exact on the restricted unit only) *)
Theorem ops_domain_in dset e A P : e < k -> ~ In e bound ->
  shaped L dset -> extras_indep G dset ->
  let Ur := tand Uc (compute_valid_domain_for_var G Uc dset e) in
  (forall w, mem L Ur w = true <->
             (mem L Uc w = true /\ mem L dset (set_state e w) = true)) /\
  unit_ok G Utop (e :: bound) Ur /\
  (is_empty Ur = true ->
   forall u v, mem L Uc v = true -> mem L dset (with_state u v) = false) /\
  (spec_in G Ur A P ->
   spec (eval_bind G Uc (tand A Ur) e)
        (fun v => mem L dset v = true /\ P (set_copy e v v)) /\
   spec (eval_exists G (tand A Ur) e)
        (fun v => exists u, mem L dset (with_state u v) = true /\ P (set_copy e u v)) /\
   spec (eval_neg Uc (eval_exists G (eval_neg Ur A) e))
        (fun v => forall u, mem L dset (with_state u v) = true -> P (set_copy e u v))).
Proof.
  intros He Hnb SD XD Ur. pose proof (uo_copy _ _ _ _ HU e Hnb) as Hce.
  pose proof (restricted_unit_ok G names Utop WF bound Uc dset e HU He SD XD) as HUr.
  destruct HU as [US USt USub UC]. destruct WF.
  split; [intro w; eapply mem_Ur; eauto|].
  split; [exact HUr|].
  split; [intro Emp; eapply Ur_empty; eauto|].
  intro HA.
  split; [eapply in_bind_domain; eauto|].
  split; [eapply in_exists_domain; eauto | eapply in_forall_domain; eauto].
Qed.

End Operators.

Section ExtCorrect.
Variable G : genv.
Variable names : list str.
Variable Utop : tt.
Hypothesis WF : wf_env G names Utop.
Variable Gamma : str -> val -> Prop.
Variable sw : switches.
Variable wild doms : list (str * tt).
Hypothesis wild_ok : wild_sets_ok G Gamma wild.
Hypothesis doms_ok : dom_sets_ok G Gamma doms.

Local Notation L := (g_L G).
Local Notation st := (steady_of G Utop).

Theorem peval_ext_correct t R : scoped G [] t ->
  peval_ext G names sw st wild doms t Utop = Ok R ->
  shaped L R /\
  forall v, mem L Utop v = true -> (mem L R v = true <-> sat G names Gamma t v).
Proof.
  intros Hsc H.
  exact (peval_ext_sound G names Utop WF Gamma sw wild doms wild_ok doms_ok t [] Utop R
           (top_unit_ok G names Utop WF) Hsc H).
Qed.

(** no state of the colour of [v] lies in the domain (other colours may well have some):
    the existential is false at [v] ... *)
Corollary peval_ext_exists_empty_domain x d a R v :
  scoped G [] (Hybrid Exists x (Some d) a) ->
  peval_ext G names sw st wild doms (Hybrid Exists x (Some d) a) Utop = Ok R ->
  mem L Utop v = true -> domain_empty_at Gamma d v -> mem L R v = false.
Proof.
  intros Hsc H Hv Hemp. destruct (peval_ext_correct _ _ Hsc H) as [_ E].
  destruct (mem L R v) eqn:Em; [|reflexivity]. exfalso.
  apply (E v Hv) in Em. revert Em. apply exists_empty_domain. exact Hemp.
Qed.

(** ... and the universal is true *)
Corollary peval_ext_forall_empty_domain x d a R v :
  scoped G [] (Hybrid Forall x (Some d) a) ->
  peval_ext G names sw st wild doms (Hybrid Forall x (Some d) a) Utop = Ok R ->
  mem L Utop v = true -> domain_empty_at Gamma d v -> mem L R v = true.
Proof.
  intros Hsc H Hv Hemp. destruct (peval_ext_correct _ _ Hsc H) as [_ E].
  apply (E v Hv). apply forall_empty_domain; [|exact Hemp].
  destruct Hsc as [e [He _]]. congruence.
Qed.

(** binding is false at a state outside the domain *)
Corollary peval_ext_bind_outside_domain x d a R v :
  scoped G [] (Hybrid Bind x (Some d) a) ->
  peval_ext G names sw st wild doms (Hybrid Bind x (Some d) a) Utop = Ok R ->
  mem L Utop v = true -> ~ Gamma d v -> mem L R v = false.
Proof.
  intros Hsc H Hv Hout. destruct (peval_ext_correct _ _ Hsc H) as [_ E].
  destruct (mem L R v) eqn:Em; [|reflexivity]. exfalso.
  apply (E v Hv) in Em. revert Em. apply bind_outside_domain. exact Hout.
Qed.

(** the early return of eval_node: when no colour of the unit has a state in the domain the
    body is not evaluated at all *)
Lemma peval_ext_early_return o x dl a dset e U :
  o <> Jump -> alookup str_eqb dl doms = Some dset -> hctl_var_id G x = Ok e ->
  is_empty (tand U (compute_valid_domain_for_var G U dset e)) = true ->
  peval_ext G names sw st wild doms (Hybrid o x (Some dl) a) U =
  Ok (match o with Forall => U | _ => empty G end).
Proof.
  intros Ho ED E Emp. rewrite peval_ext_eq.
  assert (PA : is_attractor_pattern (Hybrid o x (Some dl) a) = false) by (destruct o; reflexivity).
  assert (PF : is_fixed_point_pattern (Hybrid o x (Some dl) a) = false) by (destruct o; reflexivity).
  rewrite PA, PF, !andb_false_r.
  destruct o; try congruence; cbn [peval_ext_body]; rewrite ED, E; cbn [bind]; rewrite Emp; reflexivity.
Qed.

End ExtCorrect.

(** context sets given as one map, as the entry points provide them *)
Section Context.
Variable G : genv.
Local Notation L := (g_L G).
Variable ctx : list (str * tt).

(** the meaning of label l: membership in the user's set *)
Definition Gamma_of (l : str) (v : val) : Prop :=
  match alookup str_eqb l ctx with
  | Some s => mem L s v = true
  | None => False
  end.

(** every context set is a well-formed set that only reads colours and states *)
Definition ctx_sets_ok : Prop :=
  forall l s, alookup str_eqb l ctx = Some s -> shaped L s /\ extras_indep G s.
(** the sets handed to the evaluator are those of the map *)
Definition picked_from_ctx (sets : list (str * tt)) : Prop :=
  forall l s, alookup str_eqb l sets = Some s -> alookup str_eqb l ctx = Some s.

Hypothesis ctx_ok : ctx_sets_ok.

Lemma Gamma_of_ignores_copies : ctx_ignores_copies Gamma_of.
Proof.
  intros l v w H. unfold Gamma_of. destruct (alookup str_eqb l ctx) as [s|] eqn:E; [|tauto].
  destruct (ctx_ok _ _ E) as [_ X]. rewrite (X v w H). tauto.
Qed.

Lemma picked_wild_ok sets : picked_from_ctx sets -> wild_sets_ok G Gamma_of sets.
Proof.
  intros Hp l s E. apply Hp in E. destruct (ctx_ok _ _ E) as [S _].
  split; [assumption|]. intro v. unfold Gamma_of. rewrite E. tauto.
Qed.

Lemma picked_doms_ok sets : picked_from_ctx sets -> dom_sets_ok G Gamma_of sets.
Proof.
  intros Hp l s E. apply Hp in E. destruct (ctx_ok _ _ E) as [S X].
  split; [assumption|]. split; [assumption|]. intro v. unfold Gamma_of. rewrite E. tauto.
Qed.

Theorem peval_ext_correct_ctx names Utop sw wild doms t R :
  wf_env G names Utop -> picked_from_ctx wild -> picked_from_ctx doms ->
  scoped G [] t ->
  peval_ext G names sw (steady_of G Utop) wild doms t Utop = Ok R ->
  shaped L R /\
  forall v, mem L Utop v = true -> (mem L R v = true <-> sat G names Gamma_of t v).
Proof.
  intros WF Hw Hd Hsc H.
  eapply peval_ext_correct; [exact WF | apply picked_wild_ok; exact Hw
                           | apply picked_doms_ok; exact Hd | exact Hsc | exact H].
Qed.

End Context.

(** preprocessed formulae are well scoped *)
Section Preprocessed.
Variable G : genv.

Lemma var_of_xs j : j < g_k G -> var_of G (xs (S j)) = Some j.
Proof. apply var_of_repeat. Qed.

Lemma depth_named_scoped : forall t d bound,
  depth_named d t -> d + qdepth t <= g_k G -> (forall e, In e bound -> e < d) ->
  scoped G bound t.
Proof.
  induction t as [a | o a IH | o a IHa b IHb | o x dm a IH]; intros d bound Hn Hq Hb.
  - destruct a as [nm | x | | | l]; cbn [scoped]; try exact I.
    cbn [depth_named] in Hn. destruct Hn as [j [Hj ->]].
    rewrite var_of_xs by (cbn [qdepth] in Hq; lia). discriminate.
  - cbn [scoped]. cbn [depth_named] in Hn. cbn [qdepth] in Hq. eapply IH; eauto.
  - cbn [scoped]. cbn [depth_named] in Hn. cbn [qdepth] in Hq. destruct Hn as [Ha Hbb].
    split; [eapply IHa | eapply IHb]; eauto; lia.
  - cbn [depth_named] in Hn. cbn [qdepth] in Hq.
    assert (Hb2 : forall e, In e (match dm with Some _ => d :: bound | None => bound end) -> e < S d).
    { intros e He. destruct dm; [destruct He as [<-|He]|]; try lia; apply Hb in He; lia. }
    destruct o; cbn [is_quantifier] in Hn, Hq; cbn [scoped].
    2: { destruct Hn as [[j [Hj ->]] Ha]. split; [rewrite var_of_xs by lia; discriminate|].
         eapply IH; eauto. }
    (* a quantifier at depth d binds copy d, which no enclosing quantifier uses *)
    all: destruct Hn as [-> Ha]; exists d; (split; [apply var_of_xs; lia|]); split;
      [intro X; apply Hb in X; lia | eapply IH; eauto; lia].
Qed.

(** what parse_and_minimize + check_hctl_var_support guarantee *)
Theorem preprocessed_scoped props t0 t :
  preprocess props t0 = Ok t -> num_hctl_vars t <= g_k G -> scoped G [] t.
Proof.
  intros Hp Hk.
  pose proof (preprocess_idempotent props t0 t Hp) as Hi.
  destruct (preprocess_names_by_depth props t t Hi) as [_ [Hn Hq]].
  eapply depth_named_scoped; [exact Hn | lia | intros e []].
Qed.

End Preprocessed.
