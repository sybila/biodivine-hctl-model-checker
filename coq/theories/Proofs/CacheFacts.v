(** What the cache layers (CopyRel.v, CacheGen.v, CacheExt.v) share for property C04:

    - renaming a spare copy: [mem_substitute] says what [substitute_hctl_var] does to a set, and
      [sat_rename_gen] that a formula with a single variable name [x] and the same formula with
      the name [x0] are satisfied by valuations related by [crel] (copy of [x] = copy of [x0]);
    - the cache invariant for plain formulae ([good], [cache_ok], [dups_ok]) and the shape of a
      cache hit ([hit_names]);
    - [mark_duplicates] only marks canonical texts whose renaming map has at most one entry;
    - the entry point as a [mapM] over the batch;
    - every successful [eval_node] restores the open scopes ([eval_node_frame]).

    Names.  [cache_okL], [dups_okL] are predicates on the bare lists, [cache_ok], [dups_ok] the
    same read off the context record.  The suffixes [S] (CacheGen.v: any self-loop set) and [X]
    (CacheExt.v: extended formulae) mark the two generalisations of what stands here for plain
    formulae and [steady_of G U]. *)
From Coq Require Import Permutation.
From HCTL Require Import Base Syntax Preprocess Canon MarkDup TT Ops Eval Pipeline Kripke HCTL.
From HCTL Require Import TTFacts OpsFacts FixFacts SemFacts HybridFacts EvalPure Main Termination.
From HCTL Require Import KripkeFacts IndepFacts PrepFacts RoundTrip CanonFacts CanonAlpha MarkDupFacts RenameFacts.
From HCTL Require Import LayoutFacts NoPanic ExtSem LexFacts.
From HCTL Require Import BaseFacts.

(** [v] with copy [e0] := copy [e] of [v] *)
Definition copy_from (e0 e : nat) (v : val) : val :=
  fun g => match g with
           | TX i e' => if Nat.eqb e0 e' then v (TX i e) else v g
           | _ => v g
           end.

Definition crel (e e0 : nat) (v w : val) : Prop :=
  (forall j, v (TP j) = w (TP j)) /\ (forall i, v (TS i) = w (TS i))
  /\ (forall i, v (TX i e) = w (TX i e0)).

Section Subst.
Variable G : genv.
Variable names : list str.
Variable U : tt.
Hypothesis WF : wf_env G names U.
Local Notation L := (g_L G).
Local Notation n := (g_n G).
Local Notation k := (g_k G).

Lemma shaped_cmp2 e1 e2 : shaped L (comparator_two_vars G e1 e2).
Proof.
  unfold comparator_two_vars. apply shaped_fold_tand; [apply shaped_full|].
  intro i. apply shaped_tiff; apply shaped_lit.
Qed.

Lemma mem_cmp2 e1 e2 v : e1 < k -> e2 < k ->
  (mem L (comparator_two_vars G e1 e2) v = true <-> forall i, i < n -> v (TX i e1) = v (TX i e2)).
Proof.
  intros H1 H2. unfold comparator_two_vars.
  rewrite mem_fold_tand by (try apply shaped_full; intro; apply shaped_tiff; apply shaped_lit).
  rewrite mem_full. split.
  - intros [_ H] i Hi. specialize (H i (proj2 (in_range i n) Hi)).
    rewrite mem_tiff in H by apply shaped_lit.
    rewrite !mem_lit in H by (try apply (wf_nodup _ _ _ WF); apply (wf_TX_in _ _ _ WF); assumption).
    apply Bool.eqb_prop in H. exact H.
  - intro H. split; [reflexivity|]. intros i Hi. apply in_range in Hi.
    rewrite mem_tiff by apply shaped_lit.
    rewrite !mem_lit by (try apply (wf_nodup _ _ _ WF); apply (wf_TX_in _ _ _ WF); assumption).
    rewrite (H i Hi). apply Bool.eqb_reflx.
Qed.

Lemma U_copy_from e0 e v : mem L U (copy_from e0 e v) = mem L U v.
Proof. apply (wf_U_colour _ _ _ WF). intro j. reflexivity. Qed.

Lemma mem_substitute S e0 e v : shaped L S -> e0 < k -> e < k -> e0 <> e ->
  mem L (substitute_hctl_var G S e0 e) v = mem L S (copy_from e0 e v).
Proof.
  intros SS H0 He NE. unfold substitute_hctl_var.
  apply Nat.eqb_neq in NE. rewrite NE. unfold project_out_hctl_var.
  pose proof (shaped_cmp2 e0 e) as SC. pose proof (wf_nodup _ _ _ WF) as ND.
  apply eq_true_iff_eq. rewrite mem_exq by (try apply shaped_tand; assumption). split.
  - intros [w [Hw Hm]]. rewrite mem_tand in Hm by assumption.
    apply andb_true_iff in Hm. destruct Hm as [Ha Hc].
    rewrite (mem_cmp2 e0 e w H0 He) in Hc.
    rewrite <- Ha. symmetry. apply mem_agree.
    intros g Hg. destruct g as [j|i|i e']; cbn [copy_from]; try (apply Hw; reflexivity).
    destruct (Nat.eqb e0 e') eqn:E.
    + apply Nat.eqb_eq in E. subst e'. rewrite (Hc i (wf_TX_bound _ _ _ WF _ _ Hg)).
      apply Hw. cbn [is_copy]. exact NE.
    + apply Hw. cbn [is_copy]. exact E.
  - intro Hm. exists (copy_from e0 e v). split.
    + intros g Hg. destruct g as [j|i|i e']; cbn [copy_from]; try reflexivity.
      cbn [is_copy] in Hg. rewrite Hg. reflexivity.
    + rewrite mem_tand by assumption. apply andb_true_iff. split; [exact Hm|].
      apply (mem_cmp2 e0 e _ H0 He). intros i Hi. cbn [copy_from].
      rewrite Nat.eqb_refl, NE. reflexivity.
Qed.

Lemma shaped_substitute S e0 e : shaped L S -> shaped L (substitute_hctl_var G S e0 e).
Proof.
  intro SS. unfold substitute_hctl_var. destruct (Nat.eqb e0 e); [exact SS|].
  apply shaped_exq, shaped_tand; [exact SS | apply shaped_cmp2].
Qed.

Lemma spec_substitute A P e0 e : e0 < k -> e < k -> e0 <> e -> spec_of G U A P ->
  spec_of G U (substitute_hctl_var G A e0 e) (fun v => P (copy_from e0 e v)).
Proof.
  intros H0 He NE [SA EA]. split; [apply shaped_substitute, SA|]. intro v.
  rewrite (mem_substitute A e0 e v SA H0 He NE), EA, U_copy_from. reflexivity.
Qed.

Variable Gamma : str -> val -> Prop.

Lemma crel_en e e0 i v w : i < n -> crel e e0 v w -> enabled G i v = enabled G i w.
Proof.
  intros _ (H1 & H2 & _). exact (enabled_ignores_copies G (wf_upd_extras _ _ _ WF) i v w H1 H2).
Qed.

Lemma crel_flip e e0 i v w : crel e e0 v w -> crel e e0 (vflip (TS i) v) (vflip (TS i) w).
Proof.
  intros (H1 & H2 & H3). unfold vflip. split; [|split].
  - intro j. simpl. apply H1.
  - intro i'. simpl. rewrite H2. reflexivity.
  - intro i'. simpl. apply H3.
Qed.

Lemma crel_set_copy e e0 u u' v w : (forall i, u (TS i) = u' (TS i)) -> crel e e0 v w ->
  crel e e0 (set_copy e u v) (set_copy e0 u' w).
Proof.
  intros Hu (H1 & H2 & H3). unfold set_copy. split; [|split].
  - intro j. apply H1.
  - intro i. apply H2.
  - intro i. rewrite !Nat.eqb_refl. apply Hu.
Qed.

Lemma crel_set_state e e0 v w : crel e e0 v w -> crel e e0 (set_state e v) (set_state e0 w).
Proof.
  intros (H1 & H2 & H3). unfold set_state. split; [|split].
  - intro j. apply H1.
  - intro i. apply H3.
  - intro i. apply H3.
Qed.

Lemma crel_copy_from e e0 v : crel e e0 v (copy_from e0 e v).
Proof.
  split; [|split]; intros; cbn [copy_from]; try reflexivity. rewrite Nat.eqb_refl. reflexivity.
Qed.

Lemma crel_nonextra e e0 v w : crel e e0 v w -> forall g, is_extra_tag g = false -> v g = w g.
Proof. intros (H1 & H2 & _) [j|i|i e'] Hg; [apply H1 | apply H2 | discriminate Hg]. Qed.

Lemma dom_nonextra d v w : d = None \/ ctx_ignores_copies Gamma ->
  (forall g, is_extra_tag g = false -> v g = w g) -> (dom Gamma d v <-> dom Gamma d w).
Proof.
  intros [-> | Gx] H; [reflexivity|].
  destruct d as [l|]; cbn [dom]; [apply (Gamma_agree Gamma Gx), H | reflexivity].
Qed.

(** Wild-cards and domains consult [Gamma]: either there are none (plain formulae) or [Gamma]
    does not read the spare copies. *)
Theorem sat_rename_gen x x0 e e0 : var_of G x = Some e -> var_of G x0 = Some e0 ->
  forall s, plainf s \/ ctx_ignores_copies Gamma -> forall v w, crel e e0 v w ->
    (sat G names Gamma (vmap (fun _ => x) s) v <-> sat G names Gamma (vmap (fun _ => x0) s) w).
Proof.
  intros Ex Ex0.
  induction s as [a | o a IH | o a IHa b IHb | o y d a IH]; intros H v w Hr; cbn [vmap].
  - destruct a as [nm|y| | |l]; cbn [sat]; [| |reflexivity|reflexivity|].
    + destruct Hr as (_ & H2 & _).
      split; intros [i [Hi Hv]]; exists i; (split; [exact Hi|]); [rewrite <- H2 | rewrite H2]; exact Hv.
    + rewrite (var_of_ex G x e _ Ex), (var_of_ex G x0 e0 _ Ex0).
      destruct Hr as (_ & H2 & H3). unfold copy_is_state.
      split; intros Hc i Hi; [rewrite <- H3, <- H2 | rewrite H3, H2]; apply Hc, Hi.
    + destruct H as [[] | Gx]. apply (Gamma_agree Gamma Gx), (crel_nonextra e e0), Hr.
  - exact (sat_unary_rel G G names Gamma Gamma (crel e e0) eq_refl (crel_en e e0)
             (crel_flip e e0) o _ _ (IH H) v w Hr).
  - assert (plainf a \/ ctx_ignores_copies Gamma) as Ha by (destruct H as [[Pa _] | Gx]; auto).
    assert (plainf b \/ ctx_ignores_copies Gamma) as Hb by (destruct H as [[_ Pb] | Gx]; auto).
    exact (sat_binary_rel G G names Gamma Gamma (crel e e0) eq_refl (crel_en e e0)
             (crel_flip e e0) o _ _ _ _ (IHa Ha) (IHb Hb) v w Hr).
  - assert (plainf a \/ ctx_ignores_copies Gamma) as Ha by (destruct H as [[_ Pa] | Gx]; auto).
    assert (d = None \/ ctx_ignores_copies Gamma) as Hd by (destruct H as [[E _] | Gx]; auto).
    specialize (IH Ha).
    (* the body, with the quantified state [u] on both sides *)
    assert (Kb : forall u, sat G names Gamma (vmap (fun _ => x) a) (set_copy e u v)
                           <-> sat G names Gamma (vmap (fun _ => x0) a) (set_copy e0 u w))
      by (intro u; apply IH, crel_set_copy; [reflexivity | exact Hr]).
    assert (Du : forall u, dom Gamma d (with_state u v) <-> dom Gamma d (with_state u w)).
    { intro u. apply (dom_nonextra d _ _ Hd). destruct Hr as (H1 & _).
      intros [j|i|i e'] Hg; cbn [with_state]; [apply H1 | reflexivity | discriminate Hg]. }
    destruct o; cbn [sat]; rewrite (var_of_ex G x e _ Ex), (var_of_ex G x0 e0 _ Ex0).
    + rewrite (dom_nonextra d v w Hd (crel_nonextra e e0 v w Hr)).
      rewrite (IH _ _ (crel_set_copy e e0 v w v w (proj1 (proj2 Hr)) Hr)). reflexivity.
    + apply IH, crel_set_state, Hr.
    + split; intros (u & Hu & Hs); exists u; (split; [apply (Du u), Hu | apply (Kb u), Hs]).
    + split; intros Hs u Hu; apply (Kb u), Hs, (Du u), Hu.
Qed.

Theorem sat_rename x x0 e e0 : var_of G x = Some e -> var_of G x0 = Some e0 ->
  forall s, plainf s -> forall v w, crel e e0 v w ->
    (sat G names Gamma (vmap (fun _ => x) s) v <-> sat G names Gamma (vmap (fun _ => x0) s) w).
Proof. intros Ex Ex0 s Pl. exact (sat_rename_gen x x0 e e0 Ex Ex0 s (or_introl Pl)). Qed.

End Subst.

Lemma supported_occurs G t y : supported G t -> occurs y t -> var_of G y <> None.
Proof.
  induction t as [a | o c IH | o l IHl r IHr | o x d c IH]; cbn [supported occurs].
  - destruct a as [p | x | | | w]; [intros _ [] | intros H ->; exact H | intros _ [] ..].
  - exact IH.
  - intros [Hl Hr] [H | H]; [apply IHl | apply IHr]; assumption.
  - intros [Hx Hc] [-> | H]; [exact Hx | apply IH; assumption].
Qed.

Lemma in_amem {B} (k : key) (l : list (key * B)) :
  amem key_eqb k l = true -> exists v, In (k, v) l.
Proof.
  unfold amem. destruct (alookup key_eqb k l) as [v|] eqn:E; [|discriminate].
  intros _. exists v. apply alookup_key_in, E.
Qed.

(** a hit only takes entries away: from the cache, and from [duplicates] up to the counter of
    its own key; the other keys are looked up as before *)
Lemma hit_ctx_sub t k c :
  (forall k' v, In (k', v) (cache (hit_ctx t k c)) -> In (k', v) (cache c))
  /\ (forall k' m, In (k', m) (duplicates (hit_ctx t k c)) -> exists m', In (k', m') (duplicates c))
  /\ (forall k', k' <> k ->
        alookup key_eqb k' (cache (hit_ctx t k c)) = alookup key_eqb k' (cache c)
        /\ amem key_eqb k' (duplicates (hit_ctx t k c)) = amem key_eqb k' (duplicates c)).
Proof.
  unfold hit_ctx.
  destruct (is_wild_terminal t); [|destruct (alookup key_eqb k (duplicates c)) as [[|[|m]]|] eqn:E];
    cbn [cache duplicates set_cache set_dups].
  1,5: (split; [intros k' v IN; exact IN | split; [intros k' m IN; exists m; exact IN | intros k' _; split; reflexivity]]).
  1,2: (split; [intros k' v IN; eapply in_aremove; exact IN | split;
          [ intros k' m' IN; exists m'; eapply in_aremove; exact IN
          | intros k' NE; unfold amem; rewrite !(alookup_aremove_other key_eqb key_eqb_eq) by exact NE;
            split; reflexivity ]]).
  split; [intros k' v IN; exact IN|]. split.
  - intros k' m' [EQ | IN].
    + injection EQ as <- _. exists (S (S m)). apply alookup_key_in, E.
    + exists m'. eapply in_aremove; exact IN.
  - intros k' NE. split; [reflexivity|]. unfold amem.
    rewrite (alookup_ainsert_other key_eqb key_eqb_eq) by exact NE. reflexivity.
Qed.

(** Two sub-formulae of preprocessed formulae with the same canonical text, one of them with an
    at most one-entry renaming map: they are the same tree, or the same tree up to the name of
    their only variable, and [rename_back] moves the copy of the one name to that of the other. *)
Lemma hit_names ea ext G d d0 t t0 canon ren rn (S : tt) :
  well_named ea ext t -> well_named ea ext t0 -> depth_named d t -> depth_named d0 t0 ->
  supported G t -> supported G t0 ->
  canonize (render t) = (canon, ren) -> canonize (render t0) = (canon, rn) -> length rn <= 1 ->
  (rn = [] /\ ren = [] /\ t = t0)
  \/ exists x0 x cn e0 e, rn = [(x0, cn)] /\ ren = [(x, cn)]
       /\ hctl_var_id G x0 = Ok e0 /\ hctl_var_id G x = Ok e
       /\ rename_back G rn ren S = Ok (substitute_hctl_var G S e0 e)
       /\ vmap (fun _ => x0) t0 = t0 /\ t = vmap (fun _ => x) t0 /\ (e0 = e -> t = t0).
Proof.
  intros W W0 DN DN0 Su Su0 CT CT0 LEN.
  assert (fst (canonize (render t)) = fst (canonize (render t0))) as E by (rewrite CT, CT0; reflexivity).
  assert (length (snd (canonize (render t0))) <= 1) as LEN0 by (rewrite CT0; exact LEN).
  destruct (hit_shape ea ext d d0 t t0 W W0 DN DN0 E LEN0)
    as [[M0 ->] | (x0 & x & cn & M0 & M & O0 & O & OV0 & ET)];
    rewrite CT0 in M0; cbn [snd] in M0; subst rn.
  - left. rewrite CT in CT0. injection CT0 as ->. auto.
  - right. rewrite CT in M. cbn [snd] in M. subst ren.
    destruct (var_of G x0) as [e0|] eqn:V0; [|exfalso; exact (supported_occurs G t0 x0 Su0 O0 V0)].
    destruct (var_of G x) as [e|] eqn:V; [|exfalso; exact (supported_occurs G t x Su O V)].
    pose proof (var_of_id G x0 e0 V0) as I0. pose proof (var_of_id G x e V) as I1.
    pose proof (only_var_vmap x0 t0 OV0) as ET0.
    exists x0, x, cn, e0, e. do 4 (split; [assumption || reflexivity|]).
    split; [cbn [rename_back find snd]; rewrite str_eqb_refl, I0, I1; reflexivity|].
    do 2 (split; [assumption|]). intros <-.
    (* the same copy: the names are [xs j0], [xs j] with [j0 = j] *)
    destruct (occurs_depth_named t0 d0 x0 DN0 O0) as [j0 ->].
    destruct (occurs_depth_named t d x DN O) as [j ->].
    unfold var_of in V0, V. cbn [xs repeat_n] in V0, V. fold (xs j0) in V0. fold (xs j) in V.
    rewrite xs_length in V0, V.
    destruct (Nat.ltb j0 (g_k G)); [|discriminate]. destruct (Nat.ltb j (g_k G)); [|discriminate].
    assert (j0 = j) by congruence. subst j0. rewrite ET. exact ET0.
Qed.

(** a miss at an operator node whose arguments have been evaluated: the operator, then the
    continuation *)
Section Miss.
Variable G : genv.
Variable names : list str.
Variable sw : switches.
Variable steady : tt.

Lemma eval_miss_unary F o a U c A c1 :
  eval_node G names sw steady a U c = Ok (A, c1) ->
  eval_miss G names sw steady F (Unary o a) U c = let* r := eval_unary G U steady o A in F (r, c1).
Proof.
  intro EA. unfold eval_miss. cbn [is_attractor_pattern is_fixed_point_pattern].
  rewrite !andb_false_r, EA. destruct o; reflexivity.
Qed.

Lemma eval_miss_binary F o a b U c A c1 B c2 :
  eval_node G names sw steady a U c = Ok (A, c1) -> eval_node G names sw steady b U c1 = Ok (B, c2) ->
  eval_miss G names sw steady F (Binary o a b) U c = let* r := eval_binary G U steady o A B in F (r, c2).
Proof.
  intros EA EB. unfold eval_miss. cbn [is_attractor_pattern is_fixed_point_pattern].
  rewrite !andb_false_r, EA. cbn [bind]. rewrite EB. destruct o; reflexivity.
Qed.

(** a node that succeeds with [P]: a hit on a stored entry, or the miss followed by [finish_at] *)
Lemma node_cases t U c (P : tt -> ectx -> Prop) :
  (forall cached cren, In (key_of c t, (cached, cren)) (cache c) ->
     exists R, rename_back G cren (snd (canonize (render t))) cached = Ok R
               /\ P R (hit_ctx t (key_of c t) c)) ->
  (exists R c',
     eval_miss G names sw steady
       (finish_at (key_of c t) (snd (canonize (render t)))
          (amem key_eqb (key_of c t) (duplicates c)
           && negb (foreign_restriction (free_doms c) (snd (canonize (render t))))))
       t U c = Ok (R, c') /\ P R c') ->
  exists R c', eval_node G names sw steady t U c = Ok (R, c') /\ P R c'.
Proof.
  intros HIT MISS. rewrite (eval_node_unfold G names sw). revert MISS.
  destruct (amem key_eqb (key_of c t) (duplicates c)); [|exact (fun M => M)].
  destruct (alookup key_eqb (key_of c t) (cache c)) as [[cached cren]|] eqn:E; [|exact (fun M => M)].
  intros _. apply alookup_key_in in E. destruct (HIT cached cren E) as (R & RB & HP).
  rewrite RB. exists R, (hit_ctx t (key_of c t) c). split; [reflexivity | exact HP].
Qed.

End Miss.

Section Cache.
Variable ext_alnum : N -> bool.
Variable ext : bool.
Variable G : genv.
Variable names : list str.
Variable sw : switches.
Variable U : tt.
Local Notation st := (steady_of G U).
Local Notation pev := (peval G names sw st).

(** the trees the evaluator meets: plain sub-formulae of validated, preprocessed formulae *)
Definition good (t : tree) : Prop :=
  plainf t /\ supported G t /\ props_known names t /\ well_named ext_alnum ext t
  /\ exists d, depth_named d t.

(** a cache entry is the cache-free result of some good tree with that canonical text, whose
    renaming map (stored with the set) has at most one entry *)
Definition entry_ok (k : key) (S : tt) (rn : list (str * str)) : Prop :=
  exists t0, good t0 /\ canonize (render t0) = (fst k, rn) /\ length rn <= 1
             /\ pev t0 U = Ok S.

Definition cache_okL (ca : list (key * (tt * list (str * str)))) : Prop :=
  forall k S rn, In (k, (S, rn)) ca -> entry_ok k S rn.

(** every sub-formula of a preprocessed formula with this canonical text has an at most
    one-entry renaming map *)
Definition single_text (canon : str) : Prop :=
  forall t d, well_named ext_alnum ext t -> depth_named d t ->
    fst (canonize (render t)) = canon -> length (snd (canonize (render t))) <= 1.

Definition dups_okL (du : list (key * nat)) : Prop :=
  forall k m, In (k, m) du -> single_text (fst k).

Definition cache_ok (c : ectx) : Prop := cache_okL (cache c).
Definition dups_ok (c : ectx) : Prop := dups_okL (duplicates c).

(** one witness is enough *)
Lemma single_text_witness t d :
  well_named ext_alnum ext t -> depth_named d t -> length (snd (canonize (render t))) <= 1 ->
  single_text (fst (canonize (render t))).
Proof.
  intros W DN LEN t' d' W' DN' E.
  apply (single_transfer ext_alnum ext d' d t' t); assumption.
Qed.

Lemma good_sub_unary o a : good (Unary o a) -> good a.
Proof. intros (A & B & C & D & d & E). repeat split; try assumption. exists d. exact E. Qed.

Lemma good_sub_binary o a b : good (Binary o a b) -> good a /\ good b.
Proof.
  intros ([A A'] & [B B'] & [C C'] & [D D'] & d & [E E']).
  split; (repeat split; try assumption); exists d; assumption.
Qed.

Lemma good_sub_hybrid o x dm a : good (Hybrid o x dm a) -> good a.
Proof.
  intros ([_ A] & [_ B] & C & (_ & _ & D) & d & E). repeat split; try assumption.
  cbn [depth_named] in E. destruct (is_quantifier o); [exists (S d) | exists d]; apply E.
Qed.

Lemma save_single t c :
  good t -> dups_ok c ->
  amem key_eqb (key_of c t) (duplicates c)
  && negb (foreign_restriction (free_doms c) (snd (canonize (render t)))) = true ->
  length (snd (canonize (render t))) <= 1.
Proof.
  intros (_ & _ & _ & W & d & DN) DO H. apply andb_true_iff in H. destruct H as [H _].
  destruct (in_amem _ _ H) as [m IN]. apply (DO _ _ IN t d W DN). reflexivity.
Qed.

End Cache.

(** every reported key is the key of a node whose renaming map has at most one entry *)
Definition dups_wit (roots : list tree) (dups : list (key * nat)) : Prop :=
  forall k m, In (k, m) dups ->
    exists t doms, occ roots (t, doms) /\ fst (node_key t doms) = k
                   /\ length (snd (node_key t doms)) <= 1.

Theorem mark_duplicates_wit roots : dups_wit roots (mark_duplicates roots).
Proof.
  intros k m IN.
  destruct (mark_duplicates_positions roots k m IN) as (_ & p & _ & _ & _ & (t & doms & AT & K & LE) & _).
  exists t, doms. split; [exact (node_at_occ roots p _ AT) | split; [exact K | exact LE]].
Qed.

Lemma subtree_well_named ea ext s t : subtree s t -> well_named ea ext t -> well_named ea ext s.
Proof.
  intro H. induction H; intro W; cbn [well_named] in W; try exact W; apply IHsubtree, W.
Qed.

Lemma subtree_depth_named s t : subtree s t -> forall d, depth_named d t -> exists d', depth_named d' s.
Proof.
  intro H. induction H; intros d0 DN; cbn [depth_named] in DN.
  - exists d0. exact DN.
  - eapply IHsubtree; exact DN.
  - eapply IHsubtree; apply DN.
  - eapply IHsubtree; apply DN.
  - destruct (is_quantifier o); eapply IHsubtree; apply DN.
Qed.

Lemma subtree_plainf s t : subtree s t -> plainf t -> plainf s.
Proof. intro H. induction H; intro W; cbn [plainf] in W; try exact W; apply IHsubtree, W. Qed.

Lemma subtree_supported G s t : subtree s t -> supported G t -> supported G s.
Proof. intro H. induction H; intro W; cbn [supported] in W; try exact W; apply IHsubtree, W. Qed.

Lemma subtree_props_known names s t : subtree s t -> props_known names t -> props_known names s.
Proof. intro H. induction H; intro W; cbn [props_known] in W; try exact W; apply IHsubtree, W. Qed.

(** the context built by the entry points satisfies the invariant on [duplicates] *)
Theorem mark_duplicates_dups_ok ext_alnum ext roots :
  List.Forall (fun t => well_named ext_alnum ext t /\ exists d, depth_named d t) roots ->
  dups_ok ext_alnum ext (ctx_new (mark_duplicates roots)).
Proof.
  intros F k m IN. cbn [ctx_new duplicates] in IN.
  destruct (mark_duplicates_wit roots k m IN) as (t & doms & OCC & KEY & LEN).
  destruct (occ_subtree roots _ OCC) as (r & INr & SUB). cbn [fst] in SUB.
  rewrite Forall_forall in F. destruct (F r INr) as [W [d DN]].
  pose proof (subtree_well_named _ _ _ _ SUB W) as Wt.
  destruct (subtree_depth_named _ _ SUB d DN) as [d' DNt].
  unfold node_key in KEY, LEN. destruct (canonize (render t)) as [cn ren] eqn:CT.
  cbn [fst snd] in KEY, LEN. subst k. cbn [fst].
  replace cn with (fst (canonize (render t))) by (rewrite CT; reflexivity).
  apply (single_text_witness ext_alnum ext t d' Wt DNt). rewrite CT. exact LEN.
Qed.

(** ... also when the mode asks for no duplicate marking *)
Lemma entry_dups_ok ext_alnum ext (nocache : bool) roots :
  List.Forall (fun t => well_named ext_alnum ext t /\ exists d, depth_named d t) roots ->
  dups_ok ext_alnum ext (ctx_new (if nocache then [] else mark_duplicates roots)).
Proof. destruct nocache; [intros _ k m [] | apply mark_duplicates_dups_ok]. Qed.

Fixpoint mapM {A B} (f : A -> res B) (l : list A) : res (list B) :=
  match l with
  | [] => Ok []
  | x :: r => let* y := f x in let* ys := mapM f r in Ok (y :: ys)
  end.

Lemma mapM_Forall2 {A B} (f : A -> res B) l rs :
  mapM f l = Ok rs <-> List.Forall2 (fun x r => f x = Ok r) l rs.
Proof.
  revert rs. induction l as [|x l IH]; intro rs; cbn [mapM].
  - split; [intro H; injection H as <-; constructor | intro H; inversion H; reflexivity].
  - split.
    + destruct (f x) as [y| | |] eqn:E; cbn [bind]; try discriminate.
      destruct (mapM f l) as [ys| | |] eqn:E'; cbn [bind]; try discriminate.
      intro H. injection H as <-. constructor; [exact E | apply IH; reflexivity].
    + intro H. inversion H as [|? y ? ys E F]; subst. rewrite E. cbn [bind].
      rewrite (proj2 (IH ys) F). reflexivity.
Qed.

Lemma Forall2_fun {A B} (P : A -> B -> Prop) l rs rs' :
  (forall x r r', P x r -> P x r' -> r = r') ->
  List.Forall2 P l rs -> List.Forall2 P l rs' -> rs = rs'.
Proof.
  intros FN H. revert rs'. induction H as [|x r l rs HP _ IH]; intros rs' H'; inversion H'; subst;
    [reflexivity|]. f_equal; [eapply FN; eassumption | apply IH; assumption].
Qed.

Lemma Forall2_nth {A B} (P : A -> B -> Prop) l rs i da db :
  List.Forall2 P l rs -> i < length l -> P (nth i l da) (nth i rs db).
Proof.
  intro H. revert i. induction H as [|x r l rs HP _ IH]; intros i LT; cbn [length] in LT; [lia|].
  destruct i as [|i]; cbn [nth]; [exact HP | apply IH; lia].
Qed.

(** the result of a batch as a function of the formula *)
Lemma mapM_map {A B} (f : A -> res B) (g : A -> B) l :
  (forall x, In x l -> f x = Ok (g x)) -> mapM f l = Ok (map g l).
Proof.
  induction l as [|x l IH]; intro H; cbn [mapM map]; [reflexivity|].
  rewrite (H x (or_introl eq_refl)). cbn [bind]. rewrite IH by (intros y IN; apply H; right; exact IN).
  reflexivity.
Qed.

Lemma combine_map_r {A B} (g : A -> B) l : combine l (map g l) = map (fun x => (x, g x)) l.
Proof. induction l as [|x l IH]; cbn [combine map]; [reflexivity | rewrite IH; reflexivity]. Qed.

Theorem mapM_permutation {A B} (f : A -> res B) (d : B) l l' rs :
  Permutation l l' -> mapM f l = Ok rs ->
  exists rs', mapM f l' = Ok rs' /\ Permutation (combine l rs) (combine l' rs').
Proof.
  intros PM H.
  set (g := fun x => match f x with Ok r => r | _ => d end).
  assert (forall x, In x l -> f x = Ok (g x)) as FG.
  { apply mapM_Forall2 in H. intros x IN. clear PM.
    induction H as [|y r l rs E _ IH]; [destruct IN|].
    destruct IN as [<- | IN]; [|apply IH, IN]. unfold g. rewrite E. reflexivity. }
  assert (rs = map g l) as ->.
  { pose proof (mapM_map f g l FG) as H'. congruence. }
  exists (map g l'). split.
  - apply mapM_map. intros x IN. apply FG. eapply Permutation_in; [apply Permutation_sym; exact PM | exact IN].
  - rewrite !combine_map_r. apply Permutation_map, PM.
Qed.

Lemma mapM_position {A B} (f : A -> res B) ts rs i dt dr :
  mapM f ts = Ok rs -> i < length ts -> mapM f [nth i ts dt] = Ok [nth i rs dr].
Proof.
  intros H LT. apply mapM_Forall2 in H. cbn [mapM].
  rewrite (Forall2_nth _ ts rs i dt dr H LT). reflexivity.
Qed.

Lemma mapM_repetition {A B} (f : A -> res B) t ts r1 r2 rs :
  mapM f (t :: t :: ts) = Ok (r1 :: r2 :: rs) -> r1 = r2 /\ mapM f (t :: ts) = Ok (r1 :: rs).
Proof.
  intro H. apply mapM_Forall2 in H.
  inversion H as [|? ? ? ? E1 H']; subst. inversion H' as [|? ? ? ? E2 H'']; subst.
  split; [congruence|]. apply mapM_Forall2. constructor; assumption.
Qed.

(** a computation over lists that is [mapM f] on the lists whose members satisfy [P]: one
    position, a permutation, a repeated member *)
Section MapMRun.
Context {A B : Type} (run : list A -> res (list B)) (f : A -> res B) (P : A -> Prop).
Hypothesis run_mapM : forall l, List.Forall P l -> run l = mapM f l.

Lemma run_position ts rs i dt dr :
  List.Forall P ts -> run ts = Ok rs -> i < length ts -> run [nth i ts dt] = Ok [nth i rs dr].
Proof.
  intros F H LT. rewrite (run_mapM ts F) in H.
  assert (P (nth i ts dt)) as GI by (rewrite Forall_forall in F; apply F, nth_In, LT).
  rewrite (run_mapM [nth i ts dt] (Forall_cons _ GI (Forall_nil _))).
  exact (mapM_position _ ts rs i dt dr H LT).
Qed.

Lemma run_permutation (d : B) ts ts' rs :
  List.Forall P ts -> Permutation ts ts' -> run ts = Ok rs ->
  exists rs', run ts' = Ok rs' /\ Permutation (combine ts rs) (combine ts' rs').
Proof.
  intros F PM H. rewrite (run_mapM ts F) in H.
  assert (List.Forall P ts') as F'.
  { rewrite Forall_forall in *. intros t IN. apply F.
    eapply Permutation_in; [apply Permutation_sym; exact PM | exact IN]. }
  rewrite (run_mapM ts' F'). exact (mapM_permutation f d ts ts' rs PM H).
Qed.

Lemma run_repetition t ts r1 r2 rs :
  List.Forall P (t :: t :: ts) -> run (t :: t :: ts) = Ok (r1 :: r2 :: rs) ->
  r1 = r2 /\ run (t :: ts) = Ok (r1 :: rs).
Proof.
  intros F H. rewrite (run_mapM _ F) in H.
  assert (List.Forall P (t :: ts)) as F' by (inversion F; assumption).
  rewrite (run_mapM _ F'). exact (mapM_repetition _ t ts r1 r2 rs H).
Qed.
End MapMRun.

(** a batch under an invariant of the context that every node keeps *)
Lemma eval_all_inv G names sw steady U (Inv : ectx -> Prop) (P : tree -> Prop) (Q : tree -> tt -> Prop) :
  (forall t c, P t -> Inv c ->
     exists R c', eval_node G names sw steady t U c = Ok (R, c') /\ Q t R /\ Inv c') ->
  forall ts c, List.Forall P ts -> Inv c ->
    exists rs, eval_all G names sw steady U ts c = Ok rs /\ List.Forall2 Q ts rs.
Proof.
  intro STEP. induction ts as [|t ts IH]; intros c F I; cbn [eval_all].
  - exists []. split; [reflexivity | constructor].
  - inversion F as [|? ? Pt F']; subst. destruct (STEP t c Pt I) as (R & c' & -> & HQ & I'). cbn [bind].
    destruct (IH c' F' I') as (rs & -> & F2). cbn [bind]. exists (R :: rs). split; [reflexivity|].
    constructor; assumption.
Qed.

(** the tail of [check_trees]: sanitising the list of results is sanitising each *)
Lemma post_map_gen G (p : tree -> res tt) (b : bool) ts rs :
  List.Forall2 (fun t R => p t = Ok R) ts rs ->
  (if b then sanitize_all G rs else Ok rs)
  = mapM (fun t => let* r := p t in if b then sanitize G r else Ok r) ts.
Proof.
  intro F. induction F as [|t R ts rs E _ IH]; cbn [mapM sanitize_all].
  - destruct b; reflexivity.
  - rewrite E. cbn [bind]. rewrite <- IH. destruct b; [|reflexivity].
    destruct (sanitize G R); cbn [bind]; reflexivity.
Qed.

Section World.
Variable w : world.
Variable k : nat.

Let G := genv_of w k.
Let U := unit_of w k.

(** what the entry point returns for one formula: the cache-free evaluator, then the
    sanitiser if the mode asks for it *)
Definition single (m : mode) (t : tree) : res tt :=
  let* r := peval G (w_names w) {| use_patterns := negb (m_nopatterns m) |} (steady_of G U) t U in
  if m_sanitize m then sanitize G r else Ok r.

End World.

Lemma good_named ea ext G names t :
  good ea ext G names t -> well_named ea ext t /\ exists d, depth_named d t.
Proof. intros (_ & _ & _ & W & D). split; assumption. Qed.

(** the trees returned by [validate_all] satisfy the side conditions of the invariant *)
Lemma prepared_good ea Gv props f t' :
  prepared ea props (g_k Gv) f t' -> good ea false Gv props t'.
Proof.
  intro P. destruct (prepared_evaluable ea Gv props f t' P) as (A & B & C & D).
  split; [exact A|]. split; [exact C|]. split; [exact B|].
  split; [eapply prepared_well_named; exact P | exists 0; exact D].
Qed.

Theorem validate_all_good ea (w : world) k ctx fs r :
  validate_all ea false (w_names w) k ctx fs = Ok r ->
  exists ts', r = (ts', [], []) /\ List.Forall (good ea false (genv_of w k) (w_names w)) ts'.
Proof.
  intro H. apply validate_all_ok_iff in H. destruct H as (ts' & -> & F).
  exists ts'. split; [reflexivity|].
  exact (Forall2_right _ _ _ _ (prepared_good ea (genv_of w k) (w_names w)) F).
Qed.

Lemma aremove_sinsert {B} (x : str) (v : B) (l : list (str * B)) :
  aremove str_eqb x (sinsert x v l) = aremove str_eqb x l.
Proof.
  induction l as [|[k' v'] l IH]; cbn [sinsert aremove].
  - rewrite str_eqb_refl. reflexivity.
  - destruct (str_eqb x k') eqn:E.
    + cbn [aremove]. rewrite str_eqb_refl. reflexivity.
    + destruct (str_ltb x k'); cbn [aremove]; rewrite ?str_eqb_refl, E; [reflexivity|].
      rewrite IH. reflexivity.
Qed.

Lemma aremove_absent {B} (x : str) (l : list (str * B)) :
  alookup str_eqb x l = None -> aremove str_eqb x l = l.
Proof.
  induction l as [|[k' v'] l IH]; cbn [alookup aremove]; [reflexivity|].
  destruct (str_eqb x k'); [discriminate|]. intro H. rewrite (IH H). reflexivity.
Qed.

Lemma alookup_sinsert_if {B} (x y : str) (v : B) (l : list (str * B)) :
  alookup str_eqb y (sinsert x v l) = if str_eqb y x then Some v else alookup str_eqb y l.
Proof.
  induction l as [|[k' v'] l IH]; cbn [sinsert alookup]; [reflexivity|].
  destruct (str_eqb x k') eqn:E.
  - str_eq. subst k'. cbn [alookup]. destruct (str_eqb y x); reflexivity.
  - destruct (str_ltb x k'); cbn [alookup]; [reflexivity|]. rewrite IH.
    destruct (str_eqb y k') eqn:Q; [|reflexivity]. str_eq. subst k'.
    destruct (str_eqb y x) eqn:Q'; [|reflexivity]. str_eq. congruence.
Qed.

Lemma alookup_sinsert {B} (x y : str) (v : B) (l : list (str * B)) :
  y <> x -> alookup str_eqb y (sinsert x v l) = alookup str_eqb y l.
Proof. intro NE. rewrite alookup_sinsert_if. apply str_eqb_neq in NE. rewrite NE. reflexivity. Qed.

Lemma alookup_sinsert_same {B} (x : str) (v : B) (l : list (str * B)) :
  alookup str_eqb x (sinsert x v l) = Some v.
Proof. rewrite alookup_sinsert_if, str_eqb_refl. reflexivity. Qed.

Section Frame.
Variable G : genv.
Variable names : list str.
Variable sw : switches.
Variable steady : tt.

(* CacheExt.v defines [frame] as this conjunction; C04c states the result with it *)
Local Notation frame c c' := (free_doms c' = free_doms c /\ domain_sets c' = domain_sets c).

Lemma frame_refl c : frame c c.
Proof. split; reflexivity. Qed.

Lemma frame_trans c1 c2 c3 : frame c1 c2 -> frame c2 c3 -> frame c1 c3.
Proof. intros [A B] [A' B']. split; congruence. Qed.

Lemma frame_close c x dm c1 :
  alookup str_eqb x (free_doms c) = None ->
  frame (set_free c (sinsert x dm (free_doms c))) c1 ->
  frame c (set_free c1 (aremove str_eqb x (free_doms c1))).
Proof.
  intros FX [F1 F2]. cbn [free_doms domain_sets set_free] in *. split; cbn [free_doms domain_sets set_free].
  - rewrite F1, aremove_sinsert. apply aremove_absent, FX.
  - exact F2.
Qed.

Lemma open_fresh (fd : dommap) d dm :
  (forall j, d <= j -> alookup str_eqb (xs (S j)) fd = None) ->
  forall j, S d <= j -> alookup str_eqb (xs (S j)) (sinsert (xs (S d)) dm fd) = None.
Proof.
  intros FR j LE. rewrite alookup_sinsert; [apply FR; lia|]. intro EQ. apply xs_inj in EQ. lia.
Qed.

Lemma finish_at_frame k ren save r c1 R c' : finish_at k ren save (r, c1) = Ok (R, c') -> frame c1 c'.
Proof. unfold finish_at. destruct save; intro H; injection H as _ <-; split; reflexivity. Qed.

Lemma hit_ctx_frame t k c : frame c (hit_ctx t k c).
Proof.
  unfold hit_ctx. destruct (is_wild_terminal t); [apply frame_refl|].
  destruct (alookup key_eqb k (duplicates c)) as [[|[|m]]|]; split; reflexivity.
Qed.

(** a node is a cache hit, or its own computation followed by [finish_at] *)
Lemma node_frame t U c R c' :
  (forall F, (forall r c1, frame c c1 -> F (r, c1) = Ok (R, c') -> frame c c') ->
     eval_miss G names sw steady F t U c = Ok (R, c') -> frame c c') ->
  eval_node G names sw steady t U c = Ok (R, c') -> frame c c'.
Proof.
  intros M E. rewrite (eval_node_unfold G names sw) in E.
  destruct (amem key_eqb (key_of c t) (duplicates c));
    [destruct (alookup key_eqb (key_of c t) (cache c)) as [[cached cren]|]|];
    try (refine (M _ _ E); intros r c1 F1 H; exact (frame_trans _ _ _ F1 (finish_at_frame _ _ _ _ _ _ _ H))).
  apply bind_ok_inv in E. destruct E as (r & _ & E). injection E as _ <-. apply hit_ctx_frame.
Qed.

Theorem eval_node_frame : forall t d U c R c', depth_named d t ->
  (forall j, d <= j -> alookup str_eqb (xs (S j)) (free_doms c) = None) ->
  eval_node G names sw steady t U c = Ok (R, c') -> frame c c'.
Proof.
  (* Induction on the formula; by [node_frame] only the miss is left, and [FIN] says that the
     final [finish_at] keeps the frame.  Each case inverts the successful binds of [eval_miss]
     and chains the frames of the arguments.  A quantifier inserts its name [xs (S d)], which by
     the freshness hypothesis is not in scope, and removes it again ([frame_close]); the
     hypothesis holds for the body at depth [S d] ([open_fresh]). *)
  induction t as [a | o a IH | o a IHa b IHb | o x dm a IH]; intros d U c R c' DN FR;
    apply node_frame; intros Fn FIN E.
  - unfold eval_miss in E. cbn [is_attractor_pattern is_fixed_point_pattern] in E. rewrite !andb_false_r in E.
    destruct a as [nm | y | | | w];
      [ destruct (index_of nm names 0); [|discriminate E]
      | apply bind_ok_inv in E; destruct E as (e & _ & E) | | | discriminate E ];
      exact (FIN _ c (frame_refl c) E).
  - unfold eval_miss in E. cbn [is_attractor_pattern is_fixed_point_pattern] in E. rewrite !andb_false_r in E.
    apply bind_ok_inv in E. destruct E as ([x1 c1] & E1 & E).
    apply bind_ok_inv in E. destruct E as (r & _ & E).
    exact (FIN r c1 (IH d U c x1 c1 DN FR E1) E).
  - unfold eval_miss in E. cbn [is_attractor_pattern is_fixed_point_pattern] in E. rewrite !andb_false_r in E.
    destruct DN as [DNa DNb].
    apply bind_ok_inv in E. destruct E as ([x1 c1] & E1 & E).
    apply bind_ok_inv in E. destruct E as ([x2 c2] & E2 & E).
    apply bind_ok_inv in E. destruct E as (r & _ & E).
    pose proof (IHa d U c x1 c1 DNa FR E1) as F1.
    assert (frame c1 c2) as F2 by (apply (IHb d U c1 x2 c2 DNb); [rewrite (proj1 F1); exact FR | exact E2]).
    exact (FIN r c2 (frame_trans _ _ _ F1 F2) E).
  - destruct (use_patterns sw && is_attractor_pattern (Hybrid o x dm a)) eqn:PA.
    { unfold eval_miss in E. rewrite PA in E.
      apply bind_ok_inv in E. destruct E as (e & _ & E). apply bind_ok_inv in E. destruct E as (r & _ & E).
      exact (FIN r c (frame_refl c) E). }
    destruct (use_patterns sw && is_fixed_point_pattern (Hybrid o x dm a)) eqn:PF.
    { unfold eval_miss in E. rewrite PA, PF in E. injection E as _ <-. apply frame_refl. }
    destruct (jump_or_quantifier o) as [-> | [Ho IQ]].
    { unfold eval_miss in E. rewrite PA, PF in E. destruct DN as [_ DNa].
      apply bind_ok_inv in E. destruct E as ([x1 c1] & E1 & E).
      apply bind_ok_inv in E. destruct E as (e & _ & E).
      exact (FIN _ c1 (IH d U c x1 c1 DNa FR E1) E). }
    rewrite (eval_miss_quant G names sw steady _ o x dm a U c Ho PA PF) in E. cbn zeta in E.
    cbn [depth_named] in DN. rewrite IQ in DN. destruct DN as [-> DNa].
    pose proof (FR d (le_n d)) as FX. pose proof (open_fresh _ d dm FR) as FR'.
    destruct dm as [dl|].
    + cbn [domain_sets set_free] in E.
      destruct (alookup str_eqb dl (domain_sets c)) as [dset|]; [|discriminate E].
      apply bind_ok_inv in E. destruct E as (e & _ & E).
      destruct (is_empty (tand U (compute_valid_domain_for_var G U dset e))).
      * injection E as _ <-. apply (frame_close c _ (Some dl)); [exact FX | apply frame_refl].
      * apply bind_ok_inv in E. destruct E as ([x1 c1] & E1 & E).
        apply bind_ok_inv in E. destruct E as (r & _ & E).
        exact (FIN r _ (frame_close c _ (Some dl) c1 FX (IH (S d) _ (set_free c (sinsert _ (Some dl) (free_doms c))) x1 c1 DNa FR' E1)) E).
    + apply bind_ok_inv in E. destruct E as ([x1 c1] & E1 & E).
      apply bind_ok_inv in E. destruct E as (e & _ & E).
      apply bind_ok_inv in E. destruct E as (r & _ & E).
      exact (FIN r _ (frame_close c _ None c1 FX (IH (S d) _ (set_free c (sinsert _ None (free_doms c))) x1 c1 DNa FR' E1)) E).
Qed.

(** in particular the open scopes of a plain sub-formula *)
Theorem eval_node_free_doms : forall t d U c R c',
  plainf t -> depth_named d t ->
  (forall j, d <= j -> alookup str_eqb (xs (S j)) (free_doms c) = None) ->
  eval_node G names sw steady t U c = Ok (R, c') -> free_doms c' = free_doms c.
Proof. intros t d U c R c' _ DN FR E. exact (proj1 (eval_node_frame t d U c R c' DN FR E)). Qed.

End Frame.
