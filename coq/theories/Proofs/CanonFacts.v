(** Facts about the character-level canoniser [canonize] of Model/Canon.v (property C09).

    - a tree-level canoniser [ctree] and the commutation [canonize (render t) = render (ctree t)];
    - the renaming map is injective and contains every variable met;
    - canonisation is idempotent; canonical trees satisfy the side conditions again.
    The characterisation of equal canonical texts (alpha-equivalence) is in CanonAlpha.v. *)
From HCTL Require Import Base Syntax Preprocess Canon.
From HCTL Require Import PrepFacts RoundTrip.
From HCTL Require Import BaseFacts.

(** * Characters *)

(** the loop copies a character that is none of '(' ')' '{' ... *)
Definition plain_char (c : N) : Prop := c <> c_lpar /\ c <> c_rpar /\ c <> c_lbrace.
(** ... if it is none of '!' '3' 'V', the first characters of a binder, or no '{' follows *)
Definition not_binder_head (c : N) : Prop := c <> c_bang /\ c <> c_three /\ c <> c_V.

Definition plain (s : str) : Prop := List.Forall plain_char s.

Definition plainb (c : N) : bool :=
  negb (N.eqb c c_lpar) && negb (N.eqb c c_rpar) && negb (N.eqb c c_lbrace).

Lemma plainb_sound (c : N) : plainb c = true -> plain_char c.
Proof.
  unfold plainb, plain_char. rewrite !andb_true_iff, !negb_true_iff, !N.eqb_neq. tauto.
Qed.

Lemma plain_of_forallb (s : str) : forallb plainb s = true -> plain s.
Proof.
  intro H. apply Forall_forall. intros c IN.
  apply plainb_sound. exact (proj1 (forallb_forall _ _) H c IN).
Qed.

Lemma plain_app (a b : str) : plain a -> plain b -> plain (a ++ b).
Proof. intros Ha Hb. apply Forall_app. split; assumption. Qed.

Definition no_lbrace_next (cs : str) : Prop :=
  match cs with c :: _ => c <> c_lbrace | [] => True end.

Lemma no_lbrace_next_plain_app (s rest : str) :
  plain s -> no_lbrace_next rest -> no_lbrace_next (s ++ rest).
Proof.
  intros Hs Hr. destruct s as [|c s]; [exact Hr|].
  cbn [app no_lbrace_next]. inversion Hs as [|c' s' Hc Hs' E]; subst. apply Hc.
Qed.

(** * [read_to_rbrace] *)

Definition var_ok (x : str) : Prop := ~ In c_rbrace x.

Lemma rtr_app (x rest : str) :
  var_ok x -> read_to_rbrace (x ++ c_rbrace :: rest) = (x, rest).
Proof.
  unfold var_ok. induction x as [|c x IH]; intro NIN.
  - cbn [app read_to_rbrace]. rewrite N.eqb_refl. reflexivity.
  - cbn [app read_to_rbrace]. cbn [In] in NIN.
    destruct (N.eqb_spec c c_rbrace) as [E|NE]; [exfalso; apply NIN; left; congruence|].
    rewrite IH by (intro IN; apply NIN; right; exact IN). reflexivity.
Qed.

Lemma rtr_len (cs : str) : length (snd (read_to_rbrace cs)) <= length cs.
Proof.
  induction cs as [|c cs IH]; cbn [read_to_rbrace]; [cbn [snd length]; lia|].
  destruct (N.eqb c c_rbrace); [cbn [snd length]; lia|].
  destruct (read_to_rbrace cs) as [n r]. cbn [snd length] in *. lia.
Qed.

(** * The loop with enough fuel *)

Lemma canon_loop_fuel :
  forall f1 f2 cs ren out cnt depth,
    length cs < f1 -> length cs < f2 ->
    canon_loop f1 cs ren out cnt depth = canon_loop f2 cs ren out cnt depth.
Proof.
  induction f1 as [|f1 IH]; intros f2 cs ren out cnt depth L1 L2; [lia|].
  destruct f2 as [|f2]; [lia|].
  destruct cs as [|c rest]; [reflexivity|].
  cbn [length] in L1, L2. cbn [canon_loop].
  destruct (N.eqb c c_lpar); [apply IH; lia|].
  destruct (N.eqb c c_rpar).
  { destruct depth as [|d]; [reflexivity | apply IH; lia]. }
  destruct ((N.eqb c c_bang || N.eqb c c_three || N.eqb c c_V)
            && match rest with c2 :: _ => N.eqb c2 c_lbrace | [] => false end).
  { pose proof (rtr_len (tl rest)) as LEN.
    assert (length (tl rest) <= length rest) as LT by (destruct rest; cbn [tl length]; lia).
    destruct (read_to_rbrace (tl rest)) as [name rest']. cbn [snd] in LEN.
    apply IH; lia. }
  destruct (N.eqb c c_lbrace).
  { pose proof (rtr_len rest) as LEN.
    destruct (read_to_rbrace rest) as [name rest']. cbn [snd] in LEN.
    destruct (alookup str_eqb name ren); apply IH; lia. }
  apply IH; lia.
Qed.

(** the loop with enough fuel, the output so far given in reading order *)
Definition cl (cs : str) (ren : list (str * str)) (pre : str) (cnt : N) (depth : nat)
  : str * list (str * str) :=
  canon_loop (S (length cs)) cs ren (rev pre) cnt depth.

Lemma cl_of_loop fuel cs ren pre cnt depth :
  length cs < fuel -> canon_loop fuel cs ren (rev pre) cnt depth = cl cs ren pre cnt depth.
Proof. intro LT. apply canon_loop_fuel; lia. Qed.

Lemma cl_nil ren pre cnt depth : cl [] ren pre cnt depth = (pre, ren).
Proof. unfold cl. cbn [length canon_loop]. rewrite rev_involutive. reflexivity. Qed.

(** one iteration, as [canon_loop] is written *)
Lemma cl_step c rest ren pre cnt depth :
  cl (c :: rest) ren pre cnt depth =
  if N.eqb c c_lpar then cl rest ren (pre ++ [c]) cnt (S depth)
  else if N.eqb c c_rpar then
    match depth with
    | O => (pre ++ [c], ren)
    | S d => cl rest ren (pre ++ [c]) cnt d
    end
  else if (N.eqb c c_bang || N.eqb c c_three || N.eqb c c_V)
          && match rest with c2 :: _ => N.eqb c2 c_lbrace | [] => false end then
    let (name, rest') := read_to_rbrace (tl rest) in
    cl rest' (ainsert str_eqb name (canon_name cnt) ren)
       (pre ++ c :: c_lbrace :: canon_name cnt ++ [c_rbrace]) (cnt + 1)%N depth
  else if N.eqb c c_lbrace then
    let (name, rest') := read_to_rbrace rest in
    match alookup str_eqb name ren with
    | Some cn => cl rest' ren (pre ++ c_lbrace :: cn ++ [c_rbrace]) cnt depth
    | None =>
        cl rest' (ainsert str_eqb name (canon_name cnt) ren)
           (pre ++ c_lbrace :: canon_name cnt ++ [c_rbrace]) (cnt + 1)%N depth
    end
  else cl rest ren (pre ++ [c]) cnt depth.
Proof.
  unfold cl at 1. cbn [length]. remember (S (length rest)) as f eqn:F. cbn [canon_loop].
  subst f. rewrite <- !rev_unit.
  destruct (N.eqb c c_lpar); [reflexivity|].
  destruct (N.eqb c c_rpar); [destruct depth; [rewrite rev_involutive|]; reflexivity|].
  destruct ((N.eqb c c_bang || N.eqb c c_three || N.eqb c c_V)
            && match rest with c2 :: _ => N.eqb c2 c_lbrace | [] => false end).
  { pose proof (rtr_len (tl rest)) as LEN.
    assert (length (tl rest) <= length rest) as LT by (destruct rest; cbn [tl length]; lia).
    destruct (read_to_rbrace (tl rest)) as [name rest']. cbn [snd] in LEN.
    rewrite <- rev_app_distr. apply cl_of_loop. lia. }
  destruct (N.eqb c c_lbrace); [|reflexivity].
  pose proof (rtr_len rest) as LEN.
  destruct (read_to_rbrace rest) as [name rest']. cbn [snd] in LEN.
  destruct (alookup str_eqb name ren); rewrite <- rev_app_distr; apply cl_of_loop; lia.
Qed.

Lemma cl_lpar rest ren pre cnt depth :
  cl (c_lpar :: rest) ren pre cnt depth = cl rest ren (pre ++ [c_lpar]) cnt (S depth).
Proof. rewrite cl_step. reflexivity. Qed.

Lemma cl_rpar rest ren pre cnt depth :
  cl (c_rpar :: rest) ren pre cnt (S depth) = cl rest ren (pre ++ [c_rpar]) cnt depth.
Proof. rewrite cl_step. reflexivity. Qed.

Lemma cl_plain1 c rest ren pre cnt depth :
  plain_char c -> not_binder_head c \/ no_lbrace_next rest ->
  cl (c :: rest) ren pre cnt depth = cl rest ren (pre ++ [c]) cnt depth.
Proof.
  intros (N1 & N2 & N3) NB. rewrite cl_step.
  apply N.eqb_neq in N1, N2, N3. rewrite N1, N2, N3.
  assert ((N.eqb c c_bang || N.eqb c c_three || N.eqb c c_V)
          && match rest with c2 :: _ => N.eqb c2 c_lbrace | [] => false end = false) as ->;
    [|reflexivity].
  destruct NB as [(B1 & B2 & B3) | NL].
  - apply N.eqb_neq in B1, B2, B3. rewrite B1, B2, B3. reflexivity.
  - destruct rest as [|c2 r]; [apply andb_false_r|].
    cbn [no_lbrace_next] in NL. apply N.eqb_neq in NL. rewrite NL. apply andb_false_r.
Qed.

Lemma cl_copy s : forall rest ren pre cnt depth,
  plain s -> no_lbrace_next rest ->
  cl (s ++ rest) ren pre cnt depth = cl rest ren (pre ++ s) cnt depth.
Proof.
  induction s as [|c s IH]; intros rest ren pre cnt depth Hs Hr.
  - cbn [app]. rewrite app_nil_r. reflexivity.
  - inversion Hs as [|c' s' Hc Hs' E]; subst. cbn [app].
    rewrite cl_plain1; [|exact Hc | right; apply no_lbrace_next_plain_app; assumption].
    rewrite IH by assumption. rewrite <- app_assoc. reflexivity.
Qed.

(** * The tree-level canoniser *)

(** counter and renaming map *)
Definition cstate := (N * list (str * str))%type.

(** a binder: always a fresh canonical name, the map entry is overwritten *)
Definition cbind (x : str) (s : cstate) : str * cstate :=
  (canon_name (fst s),
   ((fst s + 1)%N, ainsert str_eqb x (canon_name (fst s)) (snd s))).

(** an occurrence or a jump target: the mapped name, a fresh one if there is none *)
Definition cocc (x : str) (s : cstate) : str * cstate :=
  match alookup str_eqb x (snd s) with
  | Some cn => (cn, s)
  | None => cbind x s
  end.

(** visit order = order of the rendered text (the variable of a jump is printed first) *)
Fixpoint ctree (t : tree) (s : cstate) : tree * cstate :=
  match t with
  | Terminal (AVar x) => let (cn, s') := cocc x s in (Terminal (AVar cn), s')
  | Terminal _ => (t, s)
  | Unary o c => let (c', s') := ctree c s in (Unary o c', s')
  | Binary o l r =>
      let (l', s1) := ctree l s in
      let (r', s2) := ctree r s1 in
      (Binary o l' r', s2)
  | Hybrid o x d c =>
      let (cn, s1) := if is_quantifier o then cbind x s else cocc x s in
      let (c', s2) := ctree c s1 in
      (Hybrid o cn d c', s2)
  end.

Definition canon_tree (t : tree) : tree := fst (ctree t (0%N, [])).
Definition canon_map (t : tree) : list (str * str) := snd (snd (ctree t (0%N, []))).

(** [x] is the name of a binder, of a variable occurrence or of a jump target of [t] *)
Fixpoint occurs (x : str) (t : tree) : Prop :=
  match t with
  | Terminal (AVar y) => x = y
  | Terminal _ => False
  | Unary _ c => occurs x c
  | Binary _ l r => occurs x l \/ occurs x r
  | Hybrid _ y _ c => x = y \/ occurs x c
  end.

(** the step at a variable name: of a binder ([b = true]), or of an occurrence or jump target *)
Definition cstep (b : bool) (x : str) (s : cstate) : str * cstate :=
  if b then cbind x s else cocc x s.

Lemma ctree_atom a s : (forall x, a <> AVar x) -> ctree (Terminal a) s = (Terminal a, s).
Proof. destruct a; intro H; try reflexivity. destruct (H _ eq_refl). Qed.

Lemma ctree_var x s :
  ctree (Terminal (AVar x)) s
  = (Terminal (AVar (fst (cstep false x s))), snd (cstep false x s)).
Proof. cbn [ctree]. rewrite let_pair. reflexivity. Qed.

Lemma ctree_unary o c s : ctree (Unary o c) s = (Unary o (fst (ctree c s)), snd (ctree c s)).
Proof. cbn [ctree]. rewrite let_pair. reflexivity. Qed.

Lemma ctree_binary o l r s :
  ctree (Binary o l r) s
  = (Binary o (fst (ctree l s)) (fst (ctree r (snd (ctree l s)))),
     snd (ctree r (snd (ctree l s)))).
Proof. cbn [ctree]. rewrite !let_pair. reflexivity. Qed.

Lemma ctree_hybrid o x d c s :
  ctree (Hybrid o x d c) s
  = (Hybrid o (fst (cstep (is_quantifier o) x s)) d
       (fst (ctree c (snd (cstep (is_quantifier o) x s)))),
     snd (ctree c (snd (cstep (is_quantifier o) x s)))).
Proof. cbn [ctree]. rewrite !let_pair. reflexivity. Qed.

(** induction over the graph of [ctree]: input tree and state, output tree and state *)
Lemma ctree_graph (P : tree -> cstate -> tree -> cstate -> Prop) :
  (forall a s, (forall x, a <> AVar x) -> P (Terminal a) s (Terminal a) s) ->
  (forall x s,
      P (Terminal (AVar x)) s (Terminal (AVar (fst (cstep false x s)))) (snd (cstep false x s))) ->
  (forall o c s c' s', P c s c' s' -> P (Unary o c) s (Unary o c') s') ->
  (forall o l r s l' s1 r' s2,
      P l s l' s1 -> P r s1 r' s2 -> P (Binary o l r) s (Binary o l' r') s2) ->
  (forall o x d c s c' s2,
      P c (snd (cstep (is_quantifier o) x s)) c' s2 ->
      P (Hybrid o x d c) s (Hybrid o (fst (cstep (is_quantifier o) x s)) d c') s2) ->
  forall t s, P t s (fst (ctree t s)) (snd (ctree t s)).
Proof.
  intros HA HV HU HB HH.
  induction t as [a | o c IH | o l IHl r IHr | o x d c IH]; intro s.
  - destruct a as [p | x | | | w]; try (apply HA; discriminate).
    rewrite ctree_var. apply HV.
  - rewrite ctree_unary. apply HU, IH.
  - rewrite ctree_binary. eapply HB; [apply IHl | apply IHr].
  - rewrite ctree_hybrid. apply HH, IH.
Qed.

(** a step is the step of a binder, or finds the name in the map and changes nothing *)
Lemma cstep_cases b x s :
  cstep b x s = cbind x s
  \/ exists cn, alookup str_eqb x (snd s) = Some cn /\ cstep b x s = (cn, s).
Proof.
  destruct b; [left; reflexivity|]. unfold cstep, cocc.
  destruct (alookup str_eqb x (snd s)) as [cn|]; [right; exists cn; auto | left; reflexivity].
Qed.

(** a property of the state that the step of a binder keeps is kept by every step ... *)
Lemma cstep_inv (I : cstate -> Prop) b x s :
  (I s -> I (snd (cbind x s))) -> I s -> I (snd (cstep b x s)).
Proof.
  intros B H. destruct (cstep_cases b x s) as [-> | (cn & _ & ->)]; [exact (B H) | exact H].
Qed.

(** ... and by [ctree] *)
Lemma ctree_inv (I : cstate -> Prop) (t : tree) :
  (forall x s, occurs x t -> I s -> I (snd (cbind x s))) ->
  forall s, I s -> I (snd (ctree t s)).
Proof.
  intros B s. revert B.
  apply (ctree_graph (fun t s _ s' =>
           (forall x s, occurs x t -> I s -> I (snd (cbind x s))) -> I s -> I s'));
    clear t s; cbn [occurs].
  - intros a s _ _ H. exact H.
  - intros x s B H. apply cstep_inv; [apply B; reflexivity | exact H].
  - intros o c s c' s' IH. exact IH.
  - intros o l r s l' s1 r' s2 IHl IHr B H. apply IHr; [|apply IHl]; auto.
  - intros o x d c s c' s2 IH B H. apply IH; [auto|]. apply cstep_inv; auto.
Qed.

(** * The commutation with the character-level loop *)

(** the side condition: variable names do not contain '}', the names printed bare or between
    '%' (propositions, wild-cards, domains) contain none of '(' ')' '{' *)
Definition atom_cok (a : atom) : Prop :=
  match a with
  | AProp p => plain p
  | AVar x => var_ok x
  | AWild p => plain p
  | ATrue | AFalse => True
  end.

Definition dom_cok (d : option str) : Prop :=
  match d with Some l => plain l | None => True end.

Fixpoint canon_ok (t : tree) : Prop :=
  match t with
  | Terminal a => atom_cok a
  | Unary _ c => canon_ok c
  | Binary _ l r => canon_ok l /\ canon_ok r
  | Hybrid _ x d c => var_ok x /\ dom_cok d /\ canon_ok c
  end.

Lemma plain_space : plain_char c_space.
Proof. apply plainb_sound. reflexivity. Qed.

Lemma space_not_binder_head : not_binder_head c_space.
Proof. repeat split; discriminate. Qed.

Lemma plain_atom a : (forall x, a <> AVar x) -> atom_cok a -> plain (atom_str a).
Proof.
  destruct a as [p | x | | | w]; cbn [atom_cok atom_str]; intros NV OK;
    [exact OK | destruct (NV _ eq_refl) | apply plain_of_forallb; reflexivity ..|].
  change (plain ([c_pct] ++ w ++ [c_pct])).
  repeat apply plain_app; try exact OK; apply plain_of_forallb; reflexivity.
Qed.

Lemma plain_domain d : dom_cok d -> plain (domain_str d ++ [c_colon]).
Proof.
  intro H. destruct d as [l|]; cbn [domain_str dom_cok] in *;
    [|apply plain_of_forallb; reflexivity].
  change (plain (([c_space; c_i; c_n; c_space; c_pct] ++ l ++ [c_pct]) ++ [c_colon])).
  repeat apply plain_app; try exact H; apply plain_of_forallb; reflexivity.
Qed.

(** the text between '(' and the operand of a unary operator ([RoundTrip.un_pre]) is a plain
    word and one more character, which is not the first of a binder *)
Lemma un_pre_ok o :
  plain (fst (un_pre o)) /\ plain_char (snd (un_pre o)) /\ not_binder_head (snd (un_pre o)).
Proof.
  destruct o; (split; [apply plain_of_forallb; reflexivity|]);
    (split; [apply plainb_sound; reflexivity | repeat split; discriminate]).
Qed.

(** the loop at a variable name does the step of [ctree] *)
Lemma cl_occ x rest s pre depth :
  var_ok x ->
  cl (c_lbrace :: x ++ c_rbrace :: rest) (snd s) pre (fst s) depth =
  cl rest (snd (snd (cocc x s))) (pre ++ c_lbrace :: fst (cocc x s) ++ [c_rbrace])
     (fst (snd (cocc x s))) depth.
Proof.
  intros OK. rewrite cl_step, (rtr_app x rest OK). unfold cocc.
  destruct (alookup str_eqb x (snd s)); reflexivity.
Qed.

Lemma cl_head o x rest s pre depth :
  var_ok x ->
  cl (hybop_str o ++ c_lbrace :: x ++ c_rbrace :: rest) (snd s) pre (fst s) depth =
  cl rest (snd (snd (cstep (is_quantifier o) x s)))
     (pre ++ hybop_str o ++ c_lbrace :: fst (cstep (is_quantifier o) x s) ++ [c_rbrace])
     (fst (snd (cstep (is_quantifier o) x s))) depth.
Proof.
  intros OK. destruct o; cbn [hybop_str is_quantifier app cstep];
    try (rewrite cl_step; cbn [tl]; rewrite (rtr_app x rest OK); reflexivity).
  rewrite cl_plain1; [|apply plainb_sound; reflexivity | left; repeat split; discriminate].
  rewrite cl_occ, <- app_assoc by exact OK. reflexivity.
Qed.

Section Render.
Variables (c c' : tree) (s1 s2 : cstate).
Hypothesis IH : forall rest pre depth, no_lbrace_next rest ->
  cl (render c ++ rest) (snd s1) pre (fst s1) depth
  = cl rest (snd s2) (pre ++ render c') (fst s2) depth.

(** the last operand of a node: after a plain word and a character that is not the first of
    a binder, and before the closing parenthesis *)
Lemma cl_wrap s0 c0 rest pre depth :
  plain s0 -> plain_char c0 -> not_binder_head c0 ->
  cl (s0 ++ c0 :: render c ++ c_rpar :: rest) (snd s1) pre (fst s1) (S depth) =
  cl rest (snd s2) (pre ++ s0 ++ c0 :: render c' ++ [c_rpar]) (fst s2) depth.
Proof.
  intros Hs Hc Hn. rewrite cl_copy; [|exact Hs | apply Hc].
  rewrite cl_plain1; [|exact Hc | left; exact Hn].
  rewrite IH by (cbn [no_lbrace_next]; discriminate). rewrite cl_rpar. f_equal.
  repeat rewrite <- app_assoc. reflexivity.
Qed.
End Render.

Lemma cl_render (t : tree) :
  canon_ok t ->
  forall rest ren pre cnt depth, no_lbrace_next rest ->
    cl (render t ++ rest) ren pre cnt depth =
    cl rest (snd (snd (ctree t (cnt, ren))))
       (pre ++ render (fst (ctree t (cnt, ren))))
       (fst (snd (ctree t (cnt, ren)))) depth.
Proof.
  intros OK rest ren pre cnt depth. revert OK rest pre depth.
  refine (ctree_graph (fun t s t' s' =>
            canon_ok t -> forall rest pre depth, no_lbrace_next rest ->
              cl (render t ++ rest) (snd s) pre (fst s) depth
              = cl rest (snd s') (pre ++ render t') (fst s') depth) _ _ _ _ _ t (cnt, ren));
    clear; cbn [canon_ok].
  - intros a s NV OK rest pre depth NL. apply cl_copy; [apply plain_atom|]; assumption.
  - intros x s OK rest pre depth NL. cbn [render atom_str atom_cok] in *.
    cbn [app]. rewrite <- app_assoc. apply cl_occ, OK.
  - intros o c s c' s' IH OK rest pre depth NL. destruct (un_pre_ok o) as (A & B & C).
    rewrite render_unary_pre, cl_lpar, (cl_wrap c c' s s') by auto.
    f_equal. rewrite <- (app_nil_r (render (Unary _ _))), render_unary_pre, <- app_assoc. reflexivity.
  - intros o l r s l' s1 r' s2 IHl IHr [OKl OKr] rest pre depth NL.
    rewrite render_binary_app, cl_lpar, IHl by (exact OKl || (cbn [no_lbrace_next]; discriminate)).
    change (c_space :: binop_str o ++ ?x) with ((c_space :: binop_str o) ++ x).
    rewrite (cl_wrap r r' s1 s2) by
      (auto using plain_space, space_not_binder_head; apply plain_of_forallb; destruct o; reflexivity).
    f_equal. rewrite <- (app_nil_r (render (Binary _ _ _))), render_binary_app.
    repeat (rewrite <- app_assoc; cbn [app]). reflexivity.
  - intros o x d c s c' s2 IH (OKx & OKd & OKc) rest pre depth NL.
    rewrite render_hybrid_app, cl_lpar.
    rewrite cl_head by exact OKx.
    replace (domain_str d ++ c_colon :: c_space :: render c ++ c_rpar :: rest)
      with ((domain_str d ++ [c_colon]) ++ c_space :: render c ++ c_rpar :: rest)
      by (rewrite <- app_assoc; reflexivity).
    rewrite (cl_wrap c c' _ s2) by auto using plain_domain, plain_space, space_not_binder_head.
    f_equal. rewrite <- (app_nil_r (render (Hybrid _ _ _ _))), render_hybrid_app.
    repeat (rewrite <- app_assoc; cbn [app]). reflexivity.
Qed.

(** the same statement about [canon_loop] itself, for any sufficient fuel *)
Lemma canon_loop_render (t : tree) (rest : str) (ren : list (str * str)) (pre : str) (cnt : N)
      (depth fuel : nat) :
  canon_ok t ->
  match rest with c :: _ => c <> c_lbrace | [] => True end ->
  length (render t ++ rest) < fuel ->
  canon_loop fuel (render t ++ rest) ren (rev pre) cnt depth
  = canon_loop (S (length rest)) rest (snd (snd (ctree t (cnt, ren))))
               (rev (pre ++ render (fst (ctree t (cnt, ren)))))
               (fst (snd (ctree t (cnt, ren)))) depth.
Proof.
  intros OK NL LT. rewrite cl_of_loop by exact LT. exact (cl_render t OK rest ren pre cnt depth NL).
Qed.

Theorem canon_commutes (t : tree) :
  canon_ok t -> canonize (render t) = (render (canon_tree t), canon_map t).
Proof.
  intro OK. change (canonize (render t)) with (cl (render t) [] [] 0%N 0).
  rewrite <- (app_nil_r (render t)).
  rewrite (cl_render t OK [] [] [] 0%N 0 I). apply cl_nil.
Qed.

(** * Canonical names *)

Lemma canon_name_inj (a b : N) : canon_name a = canon_name b -> a = b.
Proof.
  unfold canon_name. intro E. apply app_inv_head in E. apply dec_of_N_inj, E.
Qed.

Definition ascii_alnum (c : N) : Prop :=
  (48 <= c <= 57 \/ 65 <= c <= 90 \/ 97 <= c <= 122)%N.

Lemma dec_digits_alnum : forall f n acc,
  List.Forall ascii_alnum acc -> List.Forall ascii_alnum (dec_digits f n acc).
Proof.
  induction f as [|f IH]; intros n acc H; cbn [dec_digits]; [exact H|].
  assert (List.Forall ascii_alnum ((48 + n mod 10)%N :: acc)) as H'.
  { constructor; [|exact H]. unfold ascii_alnum.
    assert (n mod 10 < 10)%N as LT by (apply N.mod_lt; discriminate).
    generalize dependent (n mod 10)%N. intros m LT. lia. }
  destruct (N.eqb (n / 10) 0); [exact H' | apply IH, H'].
Qed.

Lemma canon_name_alnum (n : N) : List.Forall ascii_alnum (canon_name n).
Proof.
  unfold canon_name. apply Forall_app. split.
  - unfold s_var, ascii_alnum. repeat (apply Forall_cons; [right; right; lia|]). apply Forall_nil.
  - apply dec_digits_alnum. constructor.
Qed.

Lemma canon_name_name_ok (ext_alnum : N -> bool) (n : N) : name_ok ext_alnum (canon_name n).
Proof.
  split; [unfold canon_name, s_var; discriminate|].
  eapply Forall_impl; [|apply canon_name_alnum].
  intros c H. unfold ascii_alnum in H.
  unfold Tokenizer.is_name_char, Tokenizer.is_alnum, Tokenizer.in_range.
  destruct (N.ltb_spec c 128) as [LT|GE]; [|lia].
  apply orb_true_iff. left.
  destruct H as [[H1 H2]|[[H1 H2]|[H1 H2]]]; apply N.leb_le in H1, H2; rewrite H1, H2;
    cbn [andb orb]; [reflexivity | rewrite orb_true_r; reflexivity | apply orb_true_r].
Qed.

Lemma name_ok_plain (ext_alnum : N -> bool) (n : str) :
  name_ok ext_alnum n -> plain n /\ var_ok n.
Proof.
  assert (forall c, Tokenizer.is_name_char ext_alnum c = true -> plain_char c /\ c <> c_rbrace) as C.
  { intros c H. apply name_char_cases in H.
    unfold plain_char, c_lpar, c_rpar, c_lbrace, c_rbrace. lia. }
  intros [_ H]. split.
  - eapply Forall_impl; [|exact H]. intros c Hc. apply (C c Hc).
  - intro IN. apply (proj2 (C _ (proj1 (Forall_forall _ _) H _ IN))). reflexivity.
Qed.

Lemma canon_name_var_ok (n : N) : var_ok (canon_name n).
Proof. exact (proj2 (name_ok_plain (fun _ => false) _ (canon_name_name_ok _ n))). Qed.

(** * The renaming map: every value is an issued canonical name, distinct keys have
      distinct values, the keys are the names met *)

(** [alookup_ainsert_same] and [alookup_ainsert_other] of BaseFacts.v as one rewrite rule *)
Lemma alookup_ainsert (x y v : str) (l : list (str * str)) :
  alookup str_eqb y (ainsert str_eqb x v l)
  = if str_eqb y x then Some v else alookup str_eqb y l.
Proof.
  destruct (str_eqb y x) eqn:E; str_eq.
  - subst y. apply (alookup_ainsert_same str_eqb str_eqb_eq).
  - apply (alookup_ainsert_other str_eqb str_eqb_eq), E.
Qed.

Definition map_inv (s : cstate) : Prop :=
  (forall x cn, alookup str_eqb x (snd s) = Some cn ->
                exists i, (i < fst s)%N /\ cn = canon_name i)
  /\ (forall x y cn, alookup str_eqb x (snd s) = Some cn ->
                     alookup str_eqb y (snd s) = Some cn -> x = y).

Lemma map_inv_init : map_inv (0%N, []).
Proof. split; cbn [snd alookup]; intros; discriminate. Qed.

(** a name in the map is not the one issued next *)
Lemma map_inv_old (s : cstate) (x cn : str) :
  map_inv s -> alookup str_eqb x (snd s) = Some cn -> cn <> canon_name (fst s).
Proof.
  intros [VAL _] L E. destruct (VAL x cn L) as (i & LT & ->). apply canon_name_inj in E. lia.
Qed.

Lemma map_inv_cbind (x : str) (s : cstate) : map_inv s -> map_inv (snd (cbind x s)).
Proof.
  intro M. pose proof M as [VAL INJ]. unfold map_inv, cbind. cbn [fst snd]. split.
  - intros y cn L. rewrite alookup_ainsert in L.
    destruct (str_eqb y x).
    + injection L as <-. exists (fst s). split; [lia | reflexivity].
    + destruct (VAL y cn L) as (i & LT & ->). exists i. split; [lia | reflexivity].
  - intros y z cn Ly Lz. rewrite alookup_ainsert in Ly, Lz.
    destruct (str_eqb y x) eqn:Ey, (str_eqb z x) eqn:Ez; str_eq.
    + congruence.
    + injection Ly as <-. destruct (map_inv_old s z _ M Lz eq_refl).
    + injection Lz as <-. destruct (map_inv_old s y _ M Ly eq_refl).
    + eapply INJ; eassumption.
Qed.

Lemma map_inv_cstep b (x : str) (s : cstate) : map_inv s -> map_inv (snd (cstep b x s)).
Proof. apply cstep_inv, map_inv_cbind. Qed.

Lemma map_inv_ctree (t : tree) : forall s, map_inv s -> map_inv (snd (ctree t s)).
Proof. apply ctree_inv. intros x s _. apply map_inv_cbind. Qed.

Lemma cstep_keys b x s y :
  alookup str_eqb y (snd (snd (cstep b x s))) <> None
  <-> y = x \/ alookup str_eqb y (snd s) <> None.
Proof.
  assert (alookup str_eqb y (snd (snd (cbind x s))) <> None
          <-> y = x \/ alookup str_eqb y (snd s) <> None) as B.
  { unfold cbind. cbn [snd]. rewrite alookup_ainsert. destruct (str_eqb y x) eqn:E; str_eq.
    - split; [left; exact E | discriminate].
    - tauto. }
  destruct (cstep_cases b x s) as [-> | (cn & L & ->)]; [exact B|]. cbn [snd].
  split; [tauto | intros [-> | H]; [rewrite L; discriminate | exact H]].
Qed.

Lemma ctree_keys (t : tree) (s : cstate) (y : str) :
  alookup str_eqb y (snd (snd (ctree t s))) <> None
  <-> alookup str_eqb y (snd s) <> None \/ occurs y t.
Proof.
  revert y.
  apply (ctree_graph (fun t s _ s' => forall y,
           alookup str_eqb y (snd s') <> None
           <-> alookup str_eqb y (snd s) <> None \/ occurs y t));
    clear t s; cbn [occurs].
  - intros a s NV y. destruct a; try (destruct (NV _ eq_refl));
      (split; [intro H; left; exact H | intros [H|[]]; exact H]).
  - intros x s y. rewrite cstep_keys. apply or_comm.
  - intros o c s c' s' IH. exact IH.
  - intros o l r s l' s1 r' s2 IHl IHr y. rewrite IHr, IHl. apply or_assoc.
  - intros o x d c s c' s2 IH y. rewrite IH, cstep_keys. split.
    + intros [[H|H]|H]; [right; left; exact H | left; exact H | right; right; exact H].
    + intros [H|[H|H]]; [left; right; exact H | left; left; exact H | right; exact H].
Qed.

Fixpoint free_in (x : str) (t : tree) : Prop :=
  match t with
  | Terminal (AVar y) => x = y
  | Terminal _ => False
  | Unary _ c => free_in x c
  | Binary _ l r => free_in x l \/ free_in x r
  | Hybrid o y _ c =>
      if is_quantifier o then x <> y /\ free_in x c else x = y \/ free_in x c
  end.

Lemma free_in_occurs (x : str) (t : tree) : free_in x t -> occurs x t.
Proof.
  induction t as [a | o c IH | o l IHl r IHr | o y d c IH]; cbn [free_in occurs].
  - destruct a; auto.
  - exact IH.
  - intros [H|H]; [left | right]; auto.
  - destruct (is_quantifier o); [intros [_ H] | intros [H|H]]; auto.
Qed.

Theorem canon_map_spec (t : tree) :
  (forall x, occurs x t -> exists i, alookup str_eqb x (canon_map t) = Some (canon_name i))
  /\ (forall x y cn, alookup str_eqb x (canon_map t) = Some cn ->
                     alookup str_eqb y (canon_map t) = Some cn -> x = y).
Proof.
  unfold canon_map.
  pose proof (map_inv_ctree t _ map_inv_init) as [VAL INJ]. split; [|exact INJ].
  intros x H. pose proof (proj2 (ctree_keys t (0%N, []) x) (or_intror H)) as K.
  destruct (alookup str_eqb x (snd (snd (ctree t (0%N, []))))) as [cn|] eqn:L; [|destruct (K eq_refl)].
  destruct (VAL x cn L) as (i & _ & ->). exists i. reflexivity.
Qed.

Theorem canon_renaming_injective (t : tree) :
  canon_ok t ->
  (forall x, free_in x t ->
     exists i, alookup str_eqb x (snd (canonize (render t))) = Some (canon_name i))
  /\ (forall x y cn, alookup str_eqb x (snd (canonize (render t))) = Some cn ->
                     alookup str_eqb y (snd (canonize (render t))) = Some cn -> x = y).
Proof.
  intro OK. rewrite (canon_commutes t OK). cbn [snd].
  destruct (canon_map_spec t) as [OCC INJ]. split; [|exact INJ].
  intros x H. apply OCC, free_in_occurs, H.
Qed.

(** * Idempotence *)

(** [ren2] is the map built when the canonical text is canonised again *)
Definition idem_inv (cnt : N) (ren ren2 : list (str * str)) : Prop :=
  (forall x cn, alookup str_eqb x ren = Some cn -> alookup str_eqb cn ren2 = Some cn)
  /\ (forall k v, alookup str_eqb k ren2 = Some v -> exists i, (i < cnt)%N /\ k = canon_name i).

Lemma idem_inv_fresh cnt ren ren2 :
  idem_inv cnt ren ren2 -> alookup str_eqb (canon_name cnt) ren2 = None.
Proof.
  intros [_ KEYS]. destruct (alookup str_eqb (canon_name cnt) ren2) as [v|] eqn:L; [|reflexivity].
  destruct (KEYS _ _ L) as (i & LT & E). apply canon_name_inj in E. lia.
Qed.

Lemma idem_inv_bind cnt ren ren2 x :
  idem_inv cnt ren ren2 ->
  idem_inv (cnt + 1) (ainsert str_eqb x (canon_name cnt) ren)
           (ainsert str_eqb (canon_name cnt) (canon_name cnt) ren2).
Proof.
  intros H. pose proof (idem_inv_fresh _ _ _ H) as FR. destruct H as [FIX KEYS]. split.
  - intros y cn L. rewrite alookup_ainsert in L. rewrite alookup_ainsert.
    destruct (str_eqb y x).
    + injection L as <-. rewrite str_eqb_refl. reflexivity.
    + specialize (FIX y cn L). destruct (str_eqb cn (canon_name cnt)) eqn:E; str_eq.
      * congruence.
      * exact FIX.
  - intros k v L. rewrite alookup_ainsert in L.
    destruct (str_eqb k (canon_name cnt)) eqn:E; str_eq.
    + exists cnt. split; [lia | exact E].
    + destruct (KEYS k v L) as (i & LT & ->). exists i. split; [lia | reflexivity].
Qed.

(** the step taken again at the name it gave gives that name again *)
Lemma cstep_idem b x s ren2 :
  idem_inv (fst s) (snd s) ren2 ->
  exists ren2',
    cstep b (fst (cstep b x s)) (fst s, ren2)
    = (fst (cstep b x s), (fst (snd (cstep b x s)), ren2'))
    /\ idem_inv (fst (snd (cstep b x s))) (snd (snd (cstep b x s))) ren2'.
Proof.
  intro H. destruct s as [cnt ren]. cbn [fst snd] in H.
  pose proof (idem_inv_fresh _ _ _ H) as FR. unfold cstep, cocc. cbn [snd].
  destruct b; [|destruct (alookup str_eqb x ren) as [cn|] eqn:L]; unfold cbind; cbn [fst snd].
  1, 3: eexists; split; [rewrite ?FR; reflexivity | apply idem_inv_bind, H].
  exists ren2. rewrite (proj1 H x cn L). auto.
Qed.

Lemma ctree_idem (t : tree) (s : cstate) (ren2 : list (str * str)) :
  idem_inv (fst s) (snd s) ren2 ->
  exists ren2',
    ctree (fst (ctree t s)) (fst s, ren2) = (fst (ctree t s), (fst (snd (ctree t s)), ren2'))
    /\ idem_inv (fst (snd (ctree t s))) (snd (snd (ctree t s))) ren2'.
Proof.
  revert ren2.
  apply (ctree_graph (fun _ s t' s' => forall ren2,
           idem_inv (fst s) (snd s) ren2 ->
           exists ren2', ctree t' (fst s, ren2) = (t', (fst s', ren2'))
                         /\ idem_inv (fst s') (snd s') ren2')); clear t s.
  - intros a s NV ren2 H. exists ren2. rewrite ctree_atom by exact NV. auto.
  - intros x s ren2 H. destruct (cstep_idem false x s ren2 H) as (r & E & H').
    exists r. rewrite ctree_var, E. auto.
  - intros o c s c' s' IH ren2 H. destruct (IH ren2 H) as (r & E & H').
    exists r. rewrite ctree_unary, E. auto.
  - intros o l r s l' s1 r' s2 IHl IHr ren2 H.
    destruct (IHl ren2 H) as (ra & El & Ha). destruct (IHr ra Ha) as (rb & Er & Hb).
    exists rb. rewrite ctree_binary, El. cbn [fst snd]. rewrite Er. auto.
  - intros o x d c s c' s2 IH ren2 H.
    destruct (cstep_idem (is_quantifier o) x s ren2 H) as (ra & Ex & Ha).
    destruct (IH ra Ha) as (rb & Ec & Hb).
    exists rb. rewrite ctree_hybrid, Ex. cbn [fst snd]. rewrite Ec. auto.
Qed.

Lemma canon_tree_idem (t : tree) : canon_tree (canon_tree t) = canon_tree t.
Proof.
  unfold canon_tree.
  destruct (ctree_idem t (0%N, []) []) as (ren2' & E & _); [|cbn [fst] in E; rewrite E; reflexivity].
  split; cbn [alookup]; intros; discriminate.
Qed.

(** * The side conditions hold of canonical trees *)

(** the names of the canonical tree: values of the map or canonical names *)
Definition vals_in (P : str -> Prop) (s : cstate) : Prop :=
  forall x cn, alookup str_eqb x (snd s) = Some cn -> P cn.

Lemma cstep_vals (P : str -> Prop) b x s :
  (forall n, P (canon_name n)) -> vals_in P s ->
  P (fst (cstep b x s)) /\ vals_in P (snd (cstep b x s)).
Proof.
  intros PN V.
  assert (vals_in P (snd (cbind x s))) as VB.
  { intros y cn L. unfold cbind in L. cbn [snd] in L. rewrite alookup_ainsert in L.
    destruct (str_eqb y x); [injection L as <-; apply PN | exact (V y cn L)]. }
  destruct (cstep_cases b x s) as [-> | (cn & L & ->)]; split;
    [apply PN | exact VB | exact (V x cn L) | exact V].
Qed.

(** the side condition follows from the one of the parser round trip *)
Lemma well_named_canon_ok (ext_alnum : N -> bool) (ext : bool) (t : tree) :
  well_named ext_alnum ext t -> canon_ok t.
Proof.
  induction t as [a | o c IH | o l IHl r IHr | o x d c IH]; intro H;
    cbn [well_named canon_ok] in *.
  - destruct a as [p | x | | | w]; cbn [atom_ok atom_cok] in *; try exact I;
      apply (name_ok_plain ext_alnum), H.
  - auto.
  - destruct H; auto.
  - destruct H as (Hx & Hd & Hc). split; [apply (name_ok_plain ext_alnum), Hx|].
    split; [|auto]. destruct d as [l|]; cbn [dom_ok dom_cok] in *; [|exact I].
    apply (name_ok_plain ext_alnum), Hd.
Qed.

(** [ctree] replaces variable names by values of the map or canonical names and changes nothing
    else: a predicate [W] on trees that looks at variable names through [P] only carries over *)
Lemma ctree_names (P : str -> Prop) (W : tree -> Prop) :
  (forall n, P (canon_name n)) ->
  (forall cn, P cn -> W (Terminal (AVar cn))) ->
  (forall o c c', W (Unary o c) -> W c /\ (W c' -> W (Unary o c'))) ->
  (forall o l r l' r',
      W (Binary o l r) -> W l /\ W r /\ (W l' -> W r' -> W (Binary o l' r'))) ->
  (forall o x d c cn c',
      W (Hybrid o x d c) -> W c /\ (P cn -> W c' -> W (Hybrid o cn d c'))) ->
  forall t s, W t -> vals_in P s -> W (fst (ctree t s)) /\ vals_in P (snd (ctree t s)).
Proof.
  intros PN WV WU WB WH.
  apply (ctree_graph (fun t s t' s' => W t -> vals_in P s -> W t' /\ vals_in P s')).
  - auto.
  - intros x s _ V. destruct (cstep_vals P false x s PN V). auto.
  - intros o c s c' s' IH OK V. destruct (WU o c c' OK) as [OKc K]. destruct (IH OKc V). auto.
  - intros o l r s l' s1 r' s2 IHl IHr OK V. destruct (WB o l r l' r' OK) as (OKl & OKr & K).
    destruct (IHl OKl V) as [A V1]. destruct (IHr OKr V1). auto.
  - intros o x d c s c' s2 IH OK V.
    destruct (cstep_vals P (is_quantifier o) x s PN V) as [A V1].
    destruct (WH o x d c (fst (cstep (is_quantifier o) x s)) c' OK) as [OKc K].
    destruct (IH OKc V1). auto.
Qed.

Lemma vals_in_init (P : str -> Prop) : vals_in P (0%N, []).
Proof. intros x cn L. discriminate L. Qed.

Lemma canon_tree_ok (t : tree) : canon_ok t -> canon_ok (canon_tree t).
Proof.
  intro OK.
  apply (ctree_names var_ok canon_ok canon_name_var_ok); cbn [canon_ok atom_cok];
    auto using vals_in_init; tauto.
Qed.

Lemma canon_tree_well_named (ext_alnum : N -> bool) (ext : bool) (t : tree) :
  well_named ext_alnum ext t -> well_named ext_alnum ext (canon_tree t).
Proof.
  intro OK.
  apply (ctree_names (name_ok ext_alnum) (well_named ext_alnum ext) (canon_name_name_ok ext_alnum));
    cbn [well_named atom_ok]; auto using vals_in_init; tauto.
Qed.

(** * Canonical texts *)

Lemma canon_text_tree (ext_alnum : N -> bool) (ext : bool) (t t1 : tree) :
  well_named ext_alnum ext t -> well_named ext_alnum ext t1 ->
  fst (canonize (render t)) = fst (canonize (render t1)) -> canon_tree t = canon_tree t1.
Proof.
  intros W W1 E.
  rewrite (canon_commutes t (well_named_canon_ok _ _ _ W)) in E.
  rewrite (canon_commutes t1 (well_named_canon_ok _ _ _ W1)) in E.
  apply (render_injective ext_alnum ext); auto using canon_tree_well_named.
Qed.

Theorem canon_idempotent (t : tree) :
  canon_ok t ->
  fst (canonize (fst (canonize (render t)))) = fst (canonize (render t)).
Proof.
  intro OK. rewrite (canon_commutes t OK). cbn [fst].
  rewrite (canon_commutes _ (canon_tree_ok t OK)). cbn [fst].
  rewrite canon_tree_idem. reflexivity.
Qed.
