(** Facts about [mark_duplicates] (Model/MarkDup.v): a reported counter [n] is witnessed by
    [n + 1] distinct positions of the input whose node has the reported key, and the node at one
    of them has a renaming map of at most one entry ([mark_duplicates_positions]); hence
    [mark_duplicates_count], and [mark_duplicates_sound]: every reported key is the key of a
    sub-formula occurrence. *)
From HCTL Require Import Base Syntax Canon MarkDup.
From HCTL Require Import PrepFacts.
From HCTL Require Import BaseFacts.

(** * Occurrences *)

(** the nodes the traversal can reach: the roots with the empty domain map, and the children
    of a reachable node with the domain map [children] computes *)
Inductive occ (roots : list tree) : hnode -> Prop :=
| occ_root : forall t, In t roots -> occ roots (t, [])
| occ_child : forall t doms ch,
    occ roots (t, doms) -> In ch (children t doms) -> occ roots ch.

Inductive subtree : tree -> tree -> Prop :=
| sub_refl : forall t, subtree t t
| sub_unary : forall s o c, subtree s c -> subtree s (Unary o c)
| sub_left : forall s o l r, subtree s l -> subtree s (Binary o l r)
| sub_right : forall s o l r, subtree s r -> subtree s (Binary o l r)
| sub_hybrid : forall s o x d c, subtree s c -> subtree s (Hybrid o x d c).

Lemma subtree_trans (a b c : tree) : subtree a b -> subtree b c -> subtree a c.
Proof.
  intros AB BC. induction BC; [exact AB | | | |].
  - apply sub_unary; auto.
  - apply sub_left; auto.
  - apply sub_right; auto.
  - apply sub_hybrid; auto.
Qed.

Lemma children_subtree (t : tree) (doms : dommap) (ch : hnode) :
  In ch (children t doms) -> subtree (fst ch) t.
Proof.
  destruct t as [a | o c | o l r | o x d c]; cbn [children In].
  - intros [].
  - intros [<- | []]. cbn [fst]. apply sub_unary, sub_refl.
  - intros [<- | [<- | []]]; cbn [fst]; [apply sub_left | apply sub_right]; apply sub_refl.
  - destruct o; cbn [In]; intros [<- | []]; cbn [fst]; apply sub_hybrid, sub_refl.
Qed.

Lemma occ_subtree (roots : list tree) (n : hnode) :
  occ roots n -> exists t, In t roots /\ subtree (fst n) t.
Proof.
  intro H. induction H as [t IN | t doms ch _ IH IN].
  - exists t. split; [exact IN | apply sub_refl].
  - destruct IH as (r & INr & SUB). exists r. split; [exact INr|].
    eapply subtree_trans; [eapply children_subtree; exact IN | exact SUB].
Qed.

(** * Positions *)

(** a position: the index of a root, then child indices *)
Definition pos := list nat.

Fixpoint walk (n : hnode) (p : list nat) : option hnode :=
  match p with
  | [] => Some n
  | i :: p' =>
      match nth_error (children (fst n) (snd n)) i with
      | Some ch => walk ch p'
      | None => None
      end
  end.

Definition node_at (roots : list tree) (p : pos) : option hnode :=
  match p with
  | [] => None
  | i :: p' =>
      match nth_error roots i with
      | Some t => walk (t, []) p'
      | None => None
      end
  end.

Definition has_key (roots : list tree) (k : key) (p : pos) : Prop :=
  exists t doms, node_at roots p = Some (t, doms) /\ fst (node_key t doms) = k.

(** the same, and the renaming map of the node has at most one entry: the condition under
    which [mark_loop] counts it *)
Definition small_key (roots : list tree) (k : key) (p : pos) : Prop :=
  exists t doms, node_at roots p = Some (t, doms) /\ fst (node_key t doms) = k
                 /\ length (snd (node_key t doms)) <= 1.

Lemma small_has_key roots k p : small_key roots k p -> has_key roots k p.
Proof. intros (t & doms & AT & K & _). exists t, doms. split; assumption. Qed.

Lemma walk_snoc (p : list nat) (i : nat) :
  forall n, walk n (p ++ [i])
            = match walk n p with
              | Some m => nth_error (children (fst m) (snd m)) i
              | None => None
              end.
Proof.
  induction p as [|j p IH]; intro n; cbn [app walk].
  - destruct (nth_error (children (fst n) (snd n)) i); reflexivity.
  - destruct (nth_error (children (fst n) (snd n)) j) as [ch|]; [apply IH | reflexivity].
Qed.

Lemma node_at_snoc (roots : list tree) (p : pos) (i : nat) :
  p <> [] ->
  node_at roots (p ++ [i])
  = match node_at roots p with
    | Some m => nth_error (children (fst m) (snd m)) i
    | None => None
    end.
Proof.
  intro NE. destruct p as [|j p]; [congruence|]. cbn [app node_at].
  destruct (nth_error roots j) as [t|]; [apply walk_snoc | reflexivity].
Qed.

Lemma walk_occ (roots : list tree) (p : list nat) :
  forall n x, occ roots n -> walk n p = Some x -> occ roots x.
Proof.
  induction p as [|i p IH]; intros n x O W; cbn [walk] in W.
  - injection W as <-. exact O.
  - destruct (nth_error (children (fst n) (snd n)) i) as [ch|] eqn:NTH; [|discriminate].
    apply (IH ch x); [|exact W]. destruct n as [t doms]. cbn [fst snd] in NTH.
    eapply occ_child; [exact O | eapply nth_error_In; exact NTH].
Qed.

Lemma node_at_occ (roots : list tree) (p : pos) (x : hnode) :
  node_at roots p = Some x -> occ roots x.
Proof.
  destruct p as [|i p]; cbn [node_at]; [discriminate|].
  destruct (nth_error roots i) as [t|] eqn:NTH; [|discriminate].
  apply walk_occ. apply occ_root. eapply nth_error_In; exact NTH.
Qed.

(** ** boolean equality of keys *)

Lemma dom_entry_eqb_eq a b : dom_entry_eqb a b = true <-> a = b.
Proof.
  destruct a as [x d], b as [y d']. unfold dom_entry_eqb. cbn [fst snd].
  rewrite andb_true_iff, str_eqb_eq, (opt_eqb_eq str_eqb str_eqb_eq).
  split; [intros [-> ->]; reflexivity | intro E; injection E; auto].
Qed.

Lemma key_eqb_eq a b : key_eqb a b = true <-> a = b.
Proof.
  destruct a as [x d], b as [y d']. unfold key_eqb. cbn [fst snd].
  rewrite andb_true_iff, str_eqb_eq, (list_eqb_eq dom_entry_eqb dom_entry_eqb_eq).
  split; [intros [-> ->]; reflexivity | intro E; injection E; auto].
Qed.

Lemma alookup_key_in {B} (k : key) (l : list (key * B)) (v : B) :
  alookup key_eqb k l = Some v -> In (k, v) l.
Proof. apply (alookup_in key_eqb key_eqb_eq). Qed.

(** ** the paths of the children *)

Definition child_paths (p : pos) (lo n : nat) : list pos :=
  map (fun i => p ++ [i]) (seq lo n).

Lemma child_paths_in (p q : pos) (lo n : nat) :
  In q (child_paths p lo n) -> exists i, q = p ++ [i].
Proof.
  unfold child_paths. intro IN. apply in_map_iff in IN. destruct IN as (i & <- & _).
  exists i. reflexivity.
Qed.

Lemma child_paths_NoDup (p : pos) (lo n : nat) : NoDup (child_paths p lo n).
Proof.
  unfold child_paths. pose proof (seq_NoDup n lo) as ND.
  induction (seq lo n) as [|i l IH]; cbn [map]; [constructor|].
  inversion ND as [|i' l' NIN ND' E]; subst. constructor; [|apply IH, ND'].
  intro IN. apply in_map_iff in IN. destruct IN as (j & E & INj).
  apply app_inj_tail in E. destruct E as [_ ->]. exact (NIN INj).
Qed.

Lemma child_paths_Forall2 {B} (R : pos -> B -> Prop) (p : pos) (l : list B) :
  forall lo, (forall i y, nth_error l i = Some y -> R (p ++ [lo + i]) y) ->
             Forall2 R (child_paths p lo (length l)) l.
Proof.
  unfold child_paths. induction l as [|a l IH]; intros lo H; cbn [length seq map]; constructor.
  - rewrite <- (Nat.add_0_r lo). apply (H 0 a). reflexivity.
  - apply IH. intros i y NTH. rewrite Nat.add_succ_comm. apply (H (S i) y). exact NTH.
Qed.

(** * The work list *)

(** [pq] are the positions of the nodes in the queue, [done] those of the nodes popped so far:
    no position is met twice, and the parent of every position met has been popped *)
Definition worklist (roots : list tree) (pq done : list pos) (queue : list hnode) : Prop :=
  Forall2 (fun p x => node_at roots p = Some x) pq queue
  /\ NoDup (done ++ pq)
  /\ forall q i, q <> [] -> In (q ++ [i]) (done ++ pq) -> In q done.

Lemma worklist_init (roots : list tree) (q : list hnode) :
  q = map (fun t => (t, [] : dommap)) roots -> worklist roots (child_paths [] 0 (length q)) [] q.
Proof.
  intros ->. split; [|split; [apply child_paths_NoDup|]].
  { apply child_paths_Forall2. intros i y NTH. cbn [app Nat.add node_at].
    rewrite nth_error_map in NTH. destruct (nth_error roots i) as [t|]; [|discriminate NTH].
    injection NTH as <-. reflexivity. }
  intros p i NE IN. apply child_paths_in in IN. destruct IN as (j & IN).
  apply app_inj_tail in IN. destruct IN as [-> _]. congruence.
Qed.

Lemma pop_height_split (h : nat) (q : list hnode) :
  forall x q', pop_height h q = Some (x, q') ->
               exists q1 q2, q = q1 ++ x :: q2 /\ q' = q1 ++ q2.
Proof.
  induction q as [|a q IH]; intros x q' H; cbn [pop_height] in H; [discriminate|].
  destruct (Nat.eqb (height (fst a)) h).
  - injection H as <- <-. exists [], q. split; reflexivity.
  - destruct (pop_height h q) as [[y r]|] eqn:P; [|discriminate].
    injection H as <- <-. destruct (IH y r eq_refl) as (q1 & q2 & -> & ->).
    exists (a :: q1), q2. split; reflexivity.
Qed.

(** popping a node moves its position [p] to [done]; the state after that, and the state after
    the children of the node have joined the queue *)
Lemma worklist_pop (roots : list tree) (pq done : list pos) (queue queue' : list hnode)
      (h : nat) (t : tree) (doms : dommap) :
  worklist roots pq done queue -> pop_height h queue = Some ((t, doms), queue') ->
  exists p pq',
    node_at roots p = Some (t, doms) /\ ~ In p done
    /\ worklist roots pq' (p :: done) queue'
    /\ worklist roots (pq' ++ child_paths p 0 (length (children t doms))) (p :: done)
           (queue' ++ children t doms).
Proof.
  intros (F & ND & PAR) P.
  destruct (pop_height_split _ _ _ _ P) as (q1 & q2 & -> & ->).
  apply Forall2_app_inv_r in F. destruct F as (pq1 & pq2' & F1 & F2 & ->).
  inversion F2 as [|p x pq2 q2' AT F2' E1 E2]; subst. exists p, (pq1 ++ pq2).
  pose proof (Forall2_app F1 F2') as F'.
  (* the positions met, before and after: [p] added to the same list at two places *)
  assert (Add p (done ++ pq1 ++ pq2) (done ++ pq1 ++ p :: pq2)) as A1
    by (rewrite !app_assoc; apply Add_app).
  destruct (Add_Add p _ _ _ A1 (Add_head p (done ++ pq1 ++ pq2))) as [ND' OLD].
  apply ND' in ND. clear ND'.
  assert (~ In p done) as NIN.
  { intro D. apply NoDup_cons_iff in ND. apply (proj1 ND), in_or_app. left. exact D. }
  assert (forall q i, q <> [] -> In (q ++ [i]) ((p :: done) ++ pq1 ++ pq2) -> In q (p :: done))
    as PAR' by (intros q i NE IN; right; exact (PAR q i NE (OLD _ IN))).
  split; [exact AT|]. split; [exact NIN|].
  split; [split; [exact F' | split; [exact ND | exact PAR']]|].
  assert (p <> []) as NEp by (intro E; subst p; discriminate AT).
  unfold worklist. rewrite app_assoc. split; [apply Forall2_app; [exact F'|] | split].
  - apply child_paths_Forall2. intros i y NTH. rewrite (node_at_snoc roots p _ NEp), AT. exact NTH.
  - apply NoDup_app_iff. split; [exact ND|]. split; [apply child_paths_NoDup|].
    intros q IN INc. apply child_paths_in in INc. destruct INc as (i & ->).
    exact (NIN (PAR p i NEp (OLD _ IN))).
  - intros q i NE IN. apply in_app_or in IN. destruct IN as [IN | INc]; [exact (PAR' q i NE IN)|].
    apply child_paths_in in INc. destruct INc as (j & E).
    apply app_inj_tail in E. destruct E as [-> _]. left. reflexivity.
Qed.

(** * Counting *)

(** [dups] is [duplicates] of mark_duplicates.rs: a counter [n] stands for [n + 1] distinct
    positions popped so far whose node has that key, one of them with a small map *)
Definition count_ok (roots : list tree) (done : list pos) (dups : list (key * nat)) : Prop :=
  forall k n, In (k, n) dups ->
    1 <= n /\ exists p ps, NoDup (p :: ps) /\ length ps = n /\ small_key roots k p
                           /\ forall q, In q (p :: ps) -> In q done /\ has_key roots k q.

(** [same] is [same_height_formulae]: each of its keys is the key of a node popped so far *)
Definition same_ok (roots : list tree) (done : list pos) (same : list key) : Prop :=
  forall k, In k same -> exists p, In p done /\ has_key roots k p.

Lemma count_ok_mono roots done done' dups :
  incl done done' -> count_ok roots done dups -> count_ok roots done' dups.
Proof.
  intros SUB H k n IN. destruct (H k n IN) as (LE & p & ps & ND & LEN & SK & ALL).
  split; [exact LE|]. exists p, ps. split; [exact ND|]. split; [exact LEN|]. split; [exact SK|].
  intros q INq. destruct (ALL q INq) as [D K]. split; [apply SUB, D | exact K].
Qed.

Lemma same_ok_mono roots done done' same :
  incl done done' -> same_ok roots done same -> same_ok roots done' same.
Proof.
  intros SUB H k IN. destruct (H k IN) as (p & D & K). exists p. split; [apply SUB, D | exact K].
Qed.

Lemma same_ok_cons roots done same k p :
  has_key roots k p -> same_ok roots done same -> same_ok roots (p :: done) (k :: same).
Proof.
  intros HK S k' [<- | IN]; [exists p; split; [left; reflexivity | exact HK]|].
  destruct (S k' IN) as (p0 & D0 & K0). exists p0. split; [right; exact D0 | exact K0].
Qed.

(** a node counted at a fresh position [p]: [p] heads the witnesses of its key, which are the
    earlier ones or, for a key counted for the first time, the one recorded in [same] *)
Lemma count_ok_incr roots done dups same k p :
  ~ In p done -> small_key roots k p ->
  existsb (key_eqb k) same = true -> same_ok roots done same ->
  count_ok roots done dups -> count_ok roots (p :: done) (incr_dup k dups).
Proof.
  intros NIN SK EX SAME CNT k' n' IN. unfold incr_dup, ainsert in IN.
  assert (forall ps, (forall q, In q ps -> In q done /\ has_key roots k q) ->
            NoDup ps -> NoDup (p :: ps)
            /\ forall q, In q (p :: ps) -> In q (p :: done) /\ has_key roots k q) as HEAD.
  { intros ps ALL ND. split; [constructor; [intro INp; apply NIN, (ALL p INp) | exact ND]|].
    intros q [<- | INq]; [split; [left; reflexivity | apply small_has_key, SK]|].
    destruct (ALL q INq) as [D K]. split; [right; exact D | exact K]. }
  destruct (alookup key_eqb k dups) as [n|] eqn:L; cbn [In] in IN; destruct IN as [E | IN];
    try (apply (count_ok_mono roots done (p :: done) dups (incl_tl p (incl_refl done)) CNT);
         eapply in_aremove; exact IN);
    injection E as <- <-; (split; [lia|]); exists p.
  - apply alookup_key_in in L. destruct (CNT k n L) as (_ & p1 & ps & ND & LEN & _ & ALL).
    exists (p1 :: ps). destruct (HEAD (p1 :: ps) ALL ND) as [ND' ALL'].
    split; [exact ND'|]. split; [cbn [length]; rewrite LEN; reflexivity|].
    split; [exact SK | exact ALL'].
  - apply existsb_exists in EX. destruct EX as (k2 & INs & EQ). apply key_eqb_eq in EQ. subst k2.
    destruct (SAME k INs) as (p0 & D0 & K0). exists [p0].
    destruct (HEAD [p0]) as [ND' ALL'];
      [intros q [<- | []]; split; assumption | constructor; [intros [] | constructor]|].
    split; [exact ND'|]. split; [reflexivity|]. split; [exact SK | exact ALL'].
Qed.

Lemma mark_loop_count (roots : list tree) :
  forall fuel queue last_h same dups pq done,
    worklist roots pq done queue -> same_ok roots done same -> count_ok roots done dups ->
    exists done', count_ok roots done' (mark_loop fuel queue last_h same dups).
Proof.
  induction fuel as [|fuel IH]; intros queue last_h same dups pq done WL SAME CNT;
    cbn [mark_loop]; [exists done; exact CNT|].
  destruct (pop_height (max_height queue) queue) as [[[t doms] queue']|] eqn:P;
    [|exists done; exact CNT].
  destruct (worklist_pop roots pq done queue queue' _ t doms WL P)
    as (p & pq' & AT & NIN & DROP & EXPAND).
  pose proof (incl_tl p (incl_refl done)) as SUB.
  pose proof (same_ok_mono roots done (p :: done) same SUB SAME) as SAME'.
  pose proof (count_ok_mono roots done (p :: done) dups SUB CNT) as CNT'.
  destruct (is_terminal t && negb (is_wild_terminal t)); [exact (IH _ _ _ _ _ _ DROP SAME' CNT')|].
  destruct (node_key t doms) as [k ren] eqn:NK.
  assert (has_key roots k p) as HK by (exists t, doms; rewrite NK; split; [exact AT | reflexivity]).
  destruct (Nat.eqb last_h (height t)).
  - destruct (Nat.leb (length ren) 1 && existsb (key_eqb k) same) eqn:C.
    + apply andb_true_iff in C. destruct C as [LE EX]. apply Nat.leb_le in LE.
      apply (IH _ _ _ _ _ _ DROP SAME').
      apply (count_ok_incr roots done dups same k p); try assumption.
      exists t, doms. rewrite NK. split; [exact AT | split; [reflexivity | exact LE]].
    + exact (IH _ _ _ _ _ _ EXPAND (same_ok_cons roots done same k p HK SAME) CNT').
  - refine (IH _ _ _ _ _ _ EXPAND (same_ok_cons roots done [] k p HK _) CNT'). intros k' [].
Qed.

Theorem mark_duplicates_positions (roots : list tree) :
  forall k n, In (k, n) (mark_duplicates roots) ->
    1 <= n /\ exists p ps, NoDup (p :: ps) /\ length ps = n /\ small_key roots k p
                           /\ forall q, In q ps -> has_key roots k q.
Proof.
  intros k n IN. unfold mark_duplicates in IN.
  destruct (mark_loop_count roots (S (sum_sizes roots)) _
              (max_height (map (fun t => (t, [] : dommap)) roots)) [] [] _ []
              (worklist_init roots _ eq_refl)) as (done & CNT); [intros k' [] | intros k' n' []|].
  destruct (CNT k n IN) as (LE & p & ps & ND & LEN & SK & ALL). split; [exact LE|].
  exists p, ps. split; [exact ND|]. split; [exact LEN|]. split; [exact SK|].
  intros q INq. apply (ALL q). right. exact INq.
Qed.

Theorem mark_duplicates_count (roots : list tree) :
  forall k n, In (k, n) (mark_duplicates roots) ->
    1 <= n /\ exists ps : list pos,
                NoDup ps /\ length ps = S n /\ forall p, In p ps -> has_key roots k p.
Proof.
  intros k n IN.
  destruct (mark_duplicates_positions roots k n IN) as (LE & p & ps & ND & LEN & SK & ALL).
  split; [exact LE|]. exists (p :: ps). split; [exact ND|].
  split; [cbn [length]; rewrite LEN; reflexivity|].
  intros q [<- | INq]; [apply small_has_key, SK | apply ALL, INq].
Qed.

Theorem mark_duplicates_sound (roots : list tree) :
  forall k n, In (k, n) (mark_duplicates roots) ->
    1 <= n /\ exists t doms, occ roots (t, doms) /\ fst (node_key t doms) = k.
Proof.
  intros k n IN.
  destruct (mark_duplicates_positions roots k n IN)
    as (LE & p & _ & _ & _ & (t & doms & AT & K & _) & _).
  split; [exact LE|]. exists t, doms. split; [exact (node_at_occ roots p _ AT) | exact K].
Qed.
