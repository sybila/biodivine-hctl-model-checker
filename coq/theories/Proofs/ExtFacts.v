(** The weak invariant needed inside restricted quantifier scopes:

      spec_in Uc A P  :=  A is shaped and, AT THE VALUATIONS OF THE CURRENT UNIT Uc,
                          membership in A is exactly P  (outside Uc: arbitrary).

    Wild-card sets and the steady-state set of the top-level unit are not subsets of a
    restricted unit, so the strong invariant [spec_of] of SemFacts.v (subset of the unit and
    exact there) does not hold for them; [spec_in] does, is preserved by every operator
    (SemFacts.v, Section On, restated here for [spec_in]), and the quantifier that closes a
    restricted scope intersects with the restricted unit before projecting, which is all that
    is needed.

    The current unit must be shaped, independent of the state bits (hence closed under
    transitions), and a subset of the top-level unit whose steady states are handed down. *)
From HCTL Require Import Base Syntax TT Ops Kripke HCTL.
From HCTL Require Import TTFacts OpsFacts FixFacts SemFacts.

Definition spec_in (G : genv) (Uc A : tt) (P : val -> Prop) : Prop :=
  shaped (g_L G) A /\
  forall w, mem (g_L G) Uc w = true -> (mem (g_L G) A w = true <-> P w).

Definition state_indep (G : genv) (A : tt) : Prop :=
  forall v w, (forall g, is_state_tag g = false -> v g = w g) ->
              mem (g_L G) A v = mem (g_L G) A w.

Definition extras_indep (G : genv) (A : tt) : Prop :=
  forall v w, (forall g, is_extra_tag g = false -> v g = w g) ->
              mem (g_L G) A v = mem (g_L G) A w.

Definition copy_indep (G : genv) (A : tt) (e : nat) : Prop :=
  forall u v, mem (g_L G) A (set_copy e u v) = mem (g_L G) A v.

Lemma state_indep_moves G A : state_indep G A ->
  forall v i, mem (g_L G) A (vflip (TS i) v) = mem (g_L G) A v.
Proof.
  intros H v i. apply H. intros g Hg. unfold vflip.
  destruct (tag_eqb g (TS i)) eqn:E; [|reflexivity].
  apply tag_eqb_eq in E. subst g. discriminate.
Qed.

Lemma state_indep_set_state G A e v : state_indep G A ->
  mem (g_L G) A (set_state e v) = mem (g_L G) A v.
Proof.
  intro H. apply H. intros g Hg. destruct g; simpl in *; try reflexivity. discriminate.
Qed.

Lemma with_state_self_mem G s v : extras_indep G s ->
  mem (g_L G) s (with_state v v) = mem (g_L G) s v.
Proof. intro H. apply H. intros g _. destruct g; reflexivity. Qed.

Section ExtFacts.
Variable G : genv.
Local Notation L := (g_L G).
Local Notation n := (g_n G).
Local Notation k := (g_k G).

Hypothesis L_nodup : NoDup L.
Hypothesis upd_shaped : forall i, shaped L (upd_of G i).
Hypothesis TS_in : forall i, i < n -> In (TS i) L.

Variable Utop Uc : tt.
Hypothesis Utop_shaped : shaped L Utop.
Hypothesis Uc_shaped : shaped L Uc.
Hypothesis Uc_state : state_indep G Uc.
Hypothesis Uc_sub : forall v, mem L Uc v = true -> mem L Utop v = true.

Local Notation st := (steady_of G Utop).
Local Notation inC v := (mem L Uc v = true).
Local Notation spec := (spec_in G Uc).

Lemma Uc_moves : forall v i, mem L Uc (vflip (TS i) v) = mem L Uc v.
Proof. apply state_indep_moves. exact Uc_state. Qed.

Lemma spec_of_in A P : spec_of G Uc A P -> spec A P.
Proof. intro H. apply spec_of_iff in H. apply H. Qed.

(** intersecting with the current unit restores the strong invariant *)
Lemma spec_in_restrict A P : spec A P -> spec_of G Uc (tand A Uc) P.
Proof.
  intros [SA EA]. split; [auto with shaped|]. intro w. rewrite mem_tand by assumption.
  rewrite andb_true_iff. split.
  - intros [Ha Hu]. split; [assumption|]. apply EA; assumption.
  - intros [Hu Hp]. split; [apply EA|]; assumption.
Qed.

Lemma in_ext A P P' : spec A P -> (forall w, inC w -> (P w <-> P' w)) -> spec A P'.
Proof. exact (on_ext G Uc A P P'). Qed.

Lemma in_dec A P w : spec A P -> inC w -> P w \/ ~ P w.
Proof. exact (on_dec G Uc A P w). Qed.

Lemma in_unit : spec Uc (fun _ => True).
Proof. exact (on_unit G Uc Uc_shaped). Qed.

Lemma in_empty : spec (empty G) (fun _ => False).
Proof. exact (on_empty G Uc). Qed.

Lemma in_neg A P : spec A P -> spec (eval_neg Uc A) (fun w => ~ P w).
Proof. exact (on_neg G Uc Uc_shaped A P). Qed.

(** negation relative to the current unit yields the strong invariant *)
Lemma in_neg_strong A P : spec A P -> spec_of G Uc (eval_neg Uc A) (fun w => ~ P w).
Proof. intro HA. apply spec_of_iff. split; [apply in_neg, HA | apply inU_neg]. Qed.

Lemma in_and A B P Q : spec A P -> spec B Q -> spec (tand A B) (fun w => P w /\ Q w).
Proof. exact (on_and G Uc A B P Q). Qed.

Lemma in_or A B P Q : spec A P -> spec B Q -> spec (tor A B) (fun w => P w \/ Q w).
Proof. exact (on_or G Uc A B P Q). Qed.

Lemma in_imp A B P Q : spec A P -> spec B Q -> spec (eval_imp Uc A B) (fun w => P w -> Q w).
Proof. exact (on_imp G Uc Uc_shaped A B P Q). Qed.

Lemma in_equiv A B P Q : spec A P -> spec B Q -> spec (eval_equiv Uc A B) (fun w => P w <-> Q w).
Proof. exact (on_equiv G Uc Uc_shaped A B P Q). Qed.

Lemma in_xor A B P Q : spec A P -> spec B Q -> spec (eval_xor Uc A B) (fun w => ~ (P w <-> Q w)).
Proof. exact (on_xor G Uc Uc_shaped A B P Q). Qed.

Lemma in_ex A P : spec A P -> spec (eval_ex G A st) (EXs G P).
Proof. exact (on_ex G L_nodup upd_shaped TS_in Utop Uc Utop_shaped Uc_moves Uc_sub A P). Qed.

Lemma in_ax A P : spec A P -> spec (eval_ax G Uc A st) (AXs G P).
Proof. exact (on_ax G L_nodup upd_shaped TS_in Utop Uc Utop_shaped Uc_shaped Uc_moves Uc_sub A P). Qed.

Lemma in_eu A B P Q R : spec A P -> spec B Q ->
  eval_eu_saturated G A B = Ok R -> spec R (EUs G P Q).
Proof. exact (on_eu G L_nodup upd_shaped TS_in Uc Uc_moves A B P Q R). Qed.

Lemma in_ef A P R : spec A P -> eval_ef_saturated G Uc A = Ok R -> spec R (EFs G P).
Proof. exact (on_ef G L_nodup upd_shaped TS_in Uc Uc_shaped Uc_moves A P R). Qed.

Lemma in_au A B P Q R : spec A P -> spec B Q ->
  eval_au G Uc A B st = Ok R -> spec R (AUs G P Q).
Proof.
  exact (on_au G L_nodup upd_shaped TS_in Utop Uc Utop_shaped Uc_shaped Uc_moves Uc_sub A B P Q R).
Qed.

Lemma in_eg A P R : spec A P -> eval_eg G A st = Ok R -> spec R (EGs G P).
Proof. exact (on_eg G L_nodup upd_shaped TS_in Utop Uc Utop_shaped Uc_moves Uc_sub A P R). Qed.

Lemma in_ag A P R : spec A P -> eval_ag G Uc A = Ok R -> spec R (AGs G P).
Proof. exact (on_ag G L_nodup upd_shaped TS_in Uc Uc_shaped Uc_moves A P R). Qed.

Lemma in_af A P R : spec A P -> eval_af G Uc A st = Ok R -> spec R (AFs G P).
Proof.
  exact (on_af G L_nodup upd_shaped TS_in Utop Uc Utop_shaped Uc_shaped Uc_moves Uc_sub A P R).
Qed.

Lemma in_ew A B P Q R : spec A P -> spec B Q ->
  eval_ew G Uc A B st = Ok R -> spec R (EWs G P Q).
Proof.
  exact (on_ew G L_nodup upd_shaped TS_in Utop Uc Utop_shaped Uc_shaped Uc_moves Uc_sub A B P Q R).
Qed.

Lemma in_aw A B P Q R : spec A P -> spec B Q ->
  eval_aw G Uc A B = Ok R -> spec R (AWs G P Q).
Proof. exact (on_aw G L_nodup upd_shaped TS_in Uc Uc_shaped Uc_moves A B P Q R). Qed.

Lemma in_unary o A P R : spec A P -> eval_unary G Uc st o A = Ok R -> spec R (sat_unary G o P).
Proof.
  exact (unary_on G L_nodup upd_shaped TS_in Utop Uc Utop_shaped Uc_shaped Uc_moves Uc_sub o A P R).
Qed.

Lemma in_binary o A B P Q R : spec A P -> spec B Q ->
  eval_binary G Uc st o A B = Ok R -> spec R (sat_binary G o P Q).
Proof.
  exact (binary_on G L_nodup upd_shaped TS_in Utop Uc Utop_shaped Uc_shaped Uc_moves Uc_sub o A B P Q R).
Qed.


(** a set that is exact on the top-level unit is exact on the current unit *)
Lemma in_of_top A P : spec_of G Utop A P -> spec A P.
Proof.
  intros [SA EA]. split; [assumption|]. intros w Hw. rewrite EA.
  apply Uc_sub in Hw. tauto.
Qed.

(** a user set denotes its own membership predicate, whatever the unit *)
Lemma in_user_set A : shaped L A -> spec A (fun v => mem L A v = true).
Proof. intro SA. split; [assumption|]. intros w _. tauto. Qed.

End ExtFacts.
