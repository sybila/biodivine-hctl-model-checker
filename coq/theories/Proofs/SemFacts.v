(** Every operator of the model meets its specification: if the argument sets denote
    predicates, the result denotes the CTL operator applied to them.  Includes the dualities
    the code relies on (AF = not EG not, AG = not EF not, EW / AW through AU / EU), proved
    here for sets, where membership is decidable.

    The facts are proved once, for a current unit [Uc] inside a top-level unit [Utop] whose
    steady states are handed down, and about sets that are exact AT THE VALUATIONS OF [Uc]
    only (outside: arbitrary).  The invariant [spec_of] of the plain evaluator (one unit,
    results inside it) is that plus [inU]. *)
From HCTL Require Import Base Syntax TT Ops Kripke KripkeFacts TTFacts OpsFacts FixFacts ExtFix.

(** The dispatch on the operator and the corresponding clause of [sat].  No evaluator calls
    these functions: eval_node and the cache-free evaluators have the same [match] inline, and
    their unfolding equations (EvalPure, ExtEval) fold it into [eval_unary] / [eval_binary]. *)
Definition eval_unary (G : genv) (U st : tt) (o : unop) (x : tt) : res tt :=
  match o with
  | Not => Ok (eval_neg U x)
  | EX => Ok (eval_ex G x st)
  | AX => Ok (eval_ax G U x st)
  | EF => eval_ef_saturated G U x
  | AF => eval_af G U x st
  | EG => eval_eg G x st
  | AG => eval_ag G U x
  end.

Definition eval_binary (G : genv) (U st : tt) (o : binop) (a b : tt) : res tt :=
  match o with
  | And => Ok (tand a b)
  | Or => Ok (tor a b)
  | Xor => Ok (eval_xor U a b)
  | Imp => Ok (eval_imp U a b)
  | Iff => Ok (eval_equiv U a b)
  | EU => eval_eu_saturated G a b
  | AU => eval_au G U a b st
  | EW => eval_ew G U a b st
  | AW => eval_aw G U a b
  end.

Definition sat_unary (G : genv) (o : unop) (P : val -> Prop) (v : val) : Prop :=
  match o with
  | Not => ~ P v
  | EX => EXs G P v
  | AX => AXs G P v
  | EF => EFs G P v
  | AF => AFs G P v
  | EG => EGs G P v
  | AG => AGs G P v
  end.

Definition sat_binary (G : genv) (o : binop) (P Q : val -> Prop) (v : val) : Prop :=
  match o with
  | And => P v /\ Q v
  | Or => P v \/ Q v
  | Xor => ~ (P v <-> Q v)
  | Imp => P v -> Q v
  | Iff => P v <-> Q v
  | EU => EUs G P Q v
  | AU => AUs G P Q v
  | EW => EWs G P Q v
  | AW => AWs G P Q v
  end.

(** A weak until and the strong until of the complements exclude each other: the run that the
    strong until follows never leaves the post-fixed point, which has no exit state.  No unit
    and no decidability is involved; the converses below need both. *)
Lemma EWs_AUs_excl G (P Q : val -> Prop) v :
  EWs G P Q v -> AUs G (fun w => ~ Q w) (fun w => ~ P w /\ ~ Q w) v -> False.
Proof.
  intros [X [Xv HX]] HA. revert Xv.
  induction HA as [v [Hnp Hnq] | v Hnq Hm IHm Hs IHs]; intro Xv.
  - destruct (HX v Xv) as [Hq|[Hp _]]; contradiction.
  - destruct (HX v Xv) as [Hq|[Hp [[i [Hi [He Xi]]]|[Hst _]]]]; [contradiction| |].
    + exact (IHm i Hi He Xi).
    + exact (IHs Hst Xv).
Qed.

Lemma AWs_EUs_excl G (P Q : val -> Prop) v :
  AWs G P Q v -> EUs G (fun w => ~ Q w) (fun w => ~ P w /\ ~ Q w) v -> False.
Proof.
  intros [X [Xv HX]] HE. revert Xv.
  induction HE as [v [Hnp Hnq] | v i Hnq Hi He _ IH]; intro Xv.
  - destruct (HX v Xv) as [Hq|[Hp _]]; contradiction.
  - destruct (HX v Xv) as [Hq|[Hp [A1 _]]]; [contradiction|]. exact (IH (A1 i Hi He)).
Qed.

Section SemFacts.
Variable G : genv.
Local Notation L := (g_L G).
Local Notation n := (g_n G).

Hypothesis L_nodup : NoDup L.
Hypothesis upd_shaped : forall i, shaped L (upd_of G i).
Hypothesis TS_in : forall i, i < n -> In (TS i) L.

Variable U : tt.
Hypothesis U_shaped : shaped L U.
Hypothesis U_moves : forall v i, mem L U (vflip (TS i) v) = mem L U v.

Local Notation inUnit v := (mem L U v = true).

(** the moves stay inside the unit: the [_mono_on] lemmas of KripkeFacts apply with [D] the unit *)
Lemma inUnit_flip v i : inUnit v -> inUnit (vflip (TS i) v).
Proof. intro H. rewrite U_moves. exact H. Qed.

Section Congruence.
Variables P P' : val -> Prop.
Hypothesis HP : forall w, inUnit w -> P w -> P' w.

Lemma AGs_congr v : inUnit v -> AGs G P v -> AGs G P' v.
Proof. exact (AGs_mono_on G _ inUnit_flip P P' HP v). Qed.
End Congruence.

Lemma finite_search (D : nat -> Prop) m :
  (forall i, i < m -> D i \/ ~ D i) -> (forall i, i < m -> D i) \/ (exists i, i < m /\ ~ D i).
Proof.
  induction m as [|m IH]; intro Hd.
  - left. intros i Hi. lia.
  - destruct IH as [All|[i [Hi Hn]]].
    + intros i Hi. apply Hd. lia.
    + destruct (Hd m (Nat.lt_succ_diag_r m)) as [Dm|Dm].
      * left. intros i Hi. destruct (Nat.eq_dec i m); [subst; assumption | apply All; lia].
      * right. exists m. split; [lia | assumption].
    + right. exists i. split; [lia | assumption].
Qed.

Lemma vsteady_dec v : vsteady G v \/ ~ vsteady G v.
Proof.
  destruct (move_or_steady G v) as [[i [Hi He]]|Hs]; [right | left; exact Hs].
  intro Hs. rewrite (Hs i Hi) in He. discriminate.
Qed.

Section WeakUntil.
Variables P Q : val -> Prop.
Hypothesis P_dec : forall w, inUnit w -> P w \/ ~ P w.
Hypothesis Q_dec : forall w, inUnit w -> Q w \/ ~ Q w.
Let nQ := fun w => ~ Q w.
Let nPQ := fun w => ~ P w /\ ~ Q w.

Lemma EW_dual v : (forall w, inUnit w -> AUs G nQ nPQ w \/ ~ AUs G nQ nPQ w) ->
  inUnit v -> (~ AUs G nQ nPQ v <-> EWs G P Q v).
Proof.
  intros A_dec Hv. split.
  - intro Hn. exists (fun u => inUnit u /\ ~ AUs G nQ nPQ u). split; [split; assumption|].
    intros u [Hu Hnu]. destruct (Q_dec u Hu) as [Hq|Hq]; [left; assumption|right].
    assert (Hp : P u).
    { destruct (P_dec u Hu) as [Hp|Hp]; [assumption|]. exfalso. apply Hnu. apply AUs_here. split; assumption. }
    split; [assumption|].
    destruct (finite_search (fun i => enabled G i u = true -> AUs G nQ nPQ (vflip (TS i) u)) n) as [All|[i [Hi Hni]]].
    + intros i Hi. destruct (enabled G i u) eqn:He.
      * destruct (A_dec (vflip (TS i) u)) as [X|X]; [rewrite U_moves; exact Hu | left; intros _; exact X | right; intro Y; apply X, Y; reflexivity].
      * left. discriminate.
    + (* every successor satisfies the strong until: then u must be steady and outside *)
      destruct (vsteady_dec u) as [Hs|Hs].
      * right. split; [assumption|]. split; assumption.
      * exfalso. apply Hnu. apply AUs_step; [exact Hq | exact All | intro; contradiction].
    + left. destruct (enabled G i u) eqn:He.
      * exists i. split; [assumption|]. split; [assumption|]. split; [rewrite U_moves; exact Hu|].
        intro X. apply Hni. intros _. exact X.
      * exfalso. apply Hni. discriminate.
  - intros HE HA. exact (EWs_AUs_excl G P Q v HE HA).
Qed.

Lemma AW_dual v : inUnit v -> (~ EUs G nQ nPQ v <-> AWs G P Q v).
Proof.
  intro Hv. split.
  - intro Hn. exists (fun u => inUnit u /\ ~ EUs G nQ nPQ u). split; [split; assumption|].
    intros u [Hu Hnu]. destruct (Q_dec u Hu) as [Hq|Hq]; [left; assumption|right].
    assert (Hp : P u).
    { destruct (P_dec u Hu) as [Hp|Hp]; [assumption|]. exfalso. apply Hnu. apply EUs_here. split; assumption. }
    split; [assumption|]. split.
    + intros i Hi He. split; [rewrite U_moves; exact Hu|]. intro X. apply Hnu.
      eapply EUs_step; [exact Hq | exact Hi | exact He | exact X].
    + intro Hs. split; assumption.
  - intros HA HE. exact (AWs_EUs_excl G P Q v HA HE).
Qed.
End WeakUntil.

End SemFacts.

(** the operators, for sets exact at the valuations of a current unit *)
Section On.
Variable G : genv.
Local Notation L := (g_L G).
Local Notation n := (g_n G).

Hypothesis L_nodup : NoDup L.
Hypothesis upd_shaped : forall i, shaped L (upd_of G i).
Hypothesis TS_in : forall i, i < n -> In (TS i) L.

Variable Utop Uc : tt.
Hypothesis Utop_shaped : shaped L Utop.
Hypothesis Uc_shaped : shaped L Uc.
Hypothesis Uc_moves : forall v i, mem L Uc (vflip (TS i) v) = mem L Uc v.
Hypothesis Uc_sub : forall v, mem L Uc v = true -> mem L Utop v = true.

Local Notation st := (steady_of G Utop).
Local Notation inC v := (mem L Uc v = true).
Local Notation Mem A := (fun v0 : val => mem L A v0 = true).

(** [A] is a shaped set and, at the valuations of [Uc], membership in [A] is exactly [P]
    (the body of ExtFacts.spec_in) *)
Local Notation on A P := (shaped L A /\ forall w, inC w -> (mem L A w = true <-> P w)).

Lemma on_ext A P P' : on A P -> (forall w, inC w -> (P w <-> P' w)) -> on A P'.
Proof.
  intros [SA EA] H. split; [assumption|]. intros w Hw. rewrite (EA w Hw). apply H. exact Hw.
Qed.

Lemma on_dec A P w : on A P -> inC w -> P w \/ ~ P w.
Proof.
  intros [SA EA] Hu. destruct (mem L A w) eqn:E.
  - left. apply EA in E; assumption.
  - right. intro Hp. apply (EA w Hu) in Hp. congruence.
Qed.

Lemma on_unit : on Uc (fun _ => True).
Proof. split; [assumption|]. intros w Hw. tauto. Qed.

Lemma on_empty : on (empty G) (fun _ => False).
Proof. split; [apply shaped_const|]. intros w _. rewrite mem_empty. split; [discriminate|tauto]. Qed.

Lemma on_neg A P : on A P -> on (eval_neg Uc A) (fun w => ~ P w).
Proof.
  intros [SA EA]. split; [auto with shaped|]. intros w Hw.
  rewrite mem_eval_neg, Hw by assumption. simpl. rewrite negb_true_iff, <- (EA w Hw).
  destruct (mem L A w); split; congruence.
Qed.

Lemma on_and A B P Q : on A P -> on B Q -> on (tand A B) (fun w => P w /\ Q w).
Proof.
  intros [SA EA] [SB EB]. split; [auto with shaped|]. intros w Hw.
  rewrite mem_tand by assumption. rewrite andb_true_iff, (EA w Hw), (EB w Hw). tauto.
Qed.

Lemma on_or A B P Q : on A P -> on B Q -> on (tor A B) (fun w => P w \/ Q w).
Proof.
  intros [SA EA] [SB EB]. split; [auto with shaped|]. intros w Hw.
  rewrite mem_tor by assumption. rewrite orb_true_iff, (EA w Hw), (EB w Hw). tauto.
Qed.

Lemma on_imp A B P Q : on A P -> on B Q -> on (eval_imp Uc A B) (fun w => P w -> Q w).
Proof.
  intros HA HB. unfold eval_imp.
  eapply on_ext; [apply on_or; [apply on_neg; exact HA | exact HB]|].
  intros w Hu. simpl. split.
  - intros [Hn|Hq] Hp; [contradiction | exact Hq].
  - intro H. destruct (on_dec A P w HA Hu) as [Hp|Hp]; [right; exact (H Hp) | left; exact Hp].
Qed.

Lemma on_equiv A B P Q : on A P -> on B Q -> on (eval_equiv Uc A B) (fun w => P w <-> Q w).
Proof.
  intros HA HB. unfold eval_equiv.
  eapply on_ext; [apply on_or; [apply on_and; [exact HA|exact HB] | apply on_and; apply on_neg; [exact HA|exact HB]]|].
  intros w Hu. simpl. split.
  - intros [[Hp Hq]|[Hp Hq]]; split; intro X; first [assumption | contradiction].
  - intros [H1 H2]. destruct (on_dec A P w HA Hu) as [Hp|Hp].
    + left. split; [exact Hp | exact (H1 Hp)].
    + right. split; [exact Hp | intro Hq; exact (Hp (H2 Hq))].
Qed.

Lemma on_xor A B P Q : on A P -> on B Q -> on (eval_xor Uc A B) (fun w => ~ (P w <-> Q w)).
Proof. intros HA HB. unfold eval_xor. apply on_neg. apply on_equiv; assumption. Qed.

(** the fixed-point theorems speak of membership in the argument sets; inside the unit
    that is the denoted predicate, and the operators are monotone there *)
Lemma on_ex A P : on A P -> on (eval_ex G A st) (EXs G P).
Proof.
  intros [SA EA]. split; [auto with shaped|]. intros w Hw.
  rewrite (ex_in G L_nodup upd_shaped TS_in Utop Uc Utop_shaped Uc_sub A w SA Hw).
  split; apply (EXs_mono_on G (fun u => mem L Uc u = true) (fun v i H => eq_trans (Uc_moves v i) H));
    try assumption; intros u Hu; apply (EA u Hu).
Qed.

Lemma on_ax A P : on A P -> on (eval_ax G Uc A st) (AXs G P).
Proof.
  intros [SA EA]. split; [auto with shaped|]. intros w Hw.
  rewrite (ax_in G L_nodup upd_shaped TS_in Utop Uc Utop_shaped Uc_shaped Uc_moves Uc_sub A w SA Hw).
  split; apply (AXs_mono_on G (fun u => mem L Uc u = true) (fun v i H => eq_trans (Uc_moves v i) H));
    try assumption; intros u Hu; apply (EA u Hu).
Qed.

Lemma on_eu A B P Q R : on A P -> on B Q ->
  eval_eu_saturated G A B = Ok R -> on R (EUs G P Q).
Proof.
  intros [SA EA] [SB EB] H.
  destruct (eu_correct G L_nodup upd_shaped TS_in A SA B R SB H) as [SR ER].
  split; [assumption|]. intros w Hw. rewrite ER.
  split; intro HE; (eapply (EUs_mono_on G _ (inUnit_flip G Uc Uc_moves)); [| |exact Hw|exact HE]);
    intros u Hu; first [apply (EA u Hu) | apply (EB u Hu)].
Qed.

Lemma on_ef A P R : on A P -> eval_ef_saturated G Uc A = Ok R -> on R (EFs G P).
Proof. intros HA H. exact (on_eu Uc A _ _ R on_unit HA H). Qed.

Lemma on_au A B P Q R : on A P -> on B Q ->
  eval_au G Uc A B st = Ok R -> on R (AUs G P Q).
Proof.
  intros [SA EA] [SB EB] H.
  destruct (au_in G L_nodup upd_shaped TS_in Utop Uc Utop_shaped Uc_shaped Uc_moves Uc_sub
              A SA B R SB H) as [SR [_ ER]].
  split; [assumption|]. intros w Hw. rewrite (ER w Hw).
  split; intro HE; (eapply (AUs_mono_on G _ (inUnit_flip G Uc Uc_moves)); [| |exact Hw|exact HE]);
    intros u Hu; first [apply (EA u Hu) | apply (EB u Hu)].
Qed.

Lemma on_eg A P R : on A P -> eval_eg G A st = Ok R -> on R (EGs G P).
Proof.
  intros [SA EA] H.
  destruct (eg_in G L_nodup upd_shaped TS_in Utop Uc Utop_shaped Uc_moves Uc_sub A R SA H)
    as [SR [_ ER]].
  split; [assumption|]. intros w Hw. rewrite (ER w Hw).
  split; apply (EGs_mono_on G _ (inUnit_flip G Uc Uc_moves)); try assumption; intros u Hu; apply (EA u Hu).
Qed.

(** AG = not EF not: AG P is A[P W false], and EF not P is E[not false U (not P and not false)] *)
Lemma on_ag A P R : on A P -> eval_ag G Uc A = Ok R -> on R (AGs G P).
Proof.
  intros HA H. unfold eval_ag in H.
  destruct (eval_ef_saturated G Uc (eval_neg Uc A)) as [r| | |] eqn:E; simpl in H; try discriminate.
  injection H as <-.
  eapply on_ext; [apply on_neg; exact (on_ef _ _ _ (on_neg _ _ HA) E)|].
  intros w Hu. simpl. rewrite AGs_AWs.
  rewrite <- (AW_dual G Uc Uc_moves P (fun _ => False) (fun u Hu' => on_dec A P u HA Hu')
                (fun _ _ => or_intror (fun x => x)) w Hu).
  split; intros Hn HE; apply Hn; (eapply (EUs_mono_on G _ (inUnit_flip G Uc Uc_moves)); [| |exact Hu|exact HE]);
    simpl; tauto.
Qed.

(** AF = not EG not *)
Lemma on_af A P R : on A P -> eval_af G Uc A st = Ok R -> on R (AFs G P).
Proof.
  intros HA H. unfold eval_af in H.
  destruct (eval_eg G (eval_neg Uc A) st) as [r| | |] eqn:E; simpl in H; try discriminate.
  injection H as <-.
  pose proof (on_neg _ _ HA) as HN.
  destruct (on_eg _ _ _ HN E) as [Sr Er].
  split; [auto with shaped|]. intros w Hw. rewrite mem_eval_neg, Hw by assumption. simpl.
  rewrite negb_true_iff.
  destruct HA as [SA EA]. split.
  - intro Hn. unfold AFs.
    pose proof (eg_compl_in G L_nodup upd_shaped TS_in Utop Uc Utop_shaped Uc_moves Uc_sub
                  _ _ (proj1 HN) E w Hw Hn) as X.
    eapply (AUs_mono_on G _ (inUnit_flip G Uc Uc_moves)); [| |exact Hw|exact X]; intros u Hu'; simpl; [tauto|].
    rewrite mem_eval_neg, Hu' by assumption. simpl. rewrite negb_false_iff.
    intros [_ Hm]. apply (EA u Hu'). exact Hm.
  - (* AF P excludes EG not P, which is E[not P W false] *)
    intro HA'. destruct (mem L r w) eqn:E2; [exfalso|reflexivity].
    apply (Er w Hw), EGs_EWs in E2. apply (EWs_AUs_excl G _ _ w E2).
    eapply (AUs_mono_on G _ (inUnit_flip G Uc Uc_moves)); [| |exact Hw|exact HA']; simpl; tauto.
Qed.

(** weak until through the strong until of the complements *)
Lemma on_ew A B P Q R : on A P -> on B Q ->
  eval_ew G Uc A B st = Ok R -> on R (EWs G P Q).
Proof.
  intros HA HB H. unfold eval_ew in H.
  destruct (eval_au G Uc (eval_neg Uc B) (tand (eval_neg Uc A) (eval_neg Uc B)) st) as [r| | |] eqn:E;
    simpl in H; try discriminate.
  injection H as <-.
  pose proof (on_au _ _ _ _ _ (on_neg _ _ HB) (on_and _ _ _ _ (on_neg _ _ HA) (on_neg _ _ HB)) E) as Hr.
  eapply on_ext; [apply on_neg; exact Hr|].
  intros w Hu. simpl. apply (EW_dual G Uc Uc_moves); try exact Hu; intros u Hu'; eapply on_dec; eassumption.
Qed.

Lemma on_aw A B P Q R : on A P -> on B Q ->
  eval_aw G Uc A B = Ok R -> on R (AWs G P Q).
Proof.
  intros HA HB H. unfold eval_aw in H.
  destruct (eval_eu_saturated G (eval_neg Uc B) (tand (eval_neg Uc A) (eval_neg Uc B))) as [r| | |] eqn:E;
    simpl in H; try discriminate.
  injection H as <-.
  pose proof (on_eu _ _ _ _ _ (on_neg _ _ HB) (on_and _ _ _ _ (on_neg _ _ HA) (on_neg _ _ HB)) E) as Hr.
  eapply on_ext; [apply on_neg; exact Hr|].
  intros w Hu. simpl. apply (AW_dual G Uc Uc_moves); try exact Hu; intros u Hu'; eapply on_dec; eassumption.
Qed.

Lemma unary_on o A P R : on A P -> eval_unary G Uc st o A = Ok R -> on R (sat_unary G o P).
Proof.
  intros HA H. destruct o; simpl in H; try (injection H as <-).
  - apply on_neg; assumption.
  - apply on_ex; assumption.
  - apply on_ax; assumption.
  - eapply on_ef; eassumption.
  - eapply on_af; eassumption.
  - eapply on_eg; eassumption.
  - eapply on_ag; eassumption.
Qed.

Lemma binary_on o A B P Q R : on A P -> on B Q ->
  eval_binary G Uc st o A B = Ok R -> on R (sat_binary G o P Q).
Proof.
  intros HA HB H. destruct o; simpl in H; try (injection H as <-).
  - apply on_and; assumption.
  - apply on_or; assumption.
  - apply on_xor; assumption.
  - apply on_imp; assumption.
  - apply on_equiv; assumption.
  - eapply on_eu; eassumption.
  - eapply on_au; eassumption.
  - eapply on_ew; eassumption.
  - eapply on_aw; eassumption.
Qed.

End On.

(** one unit: [spec_of] is "exact on the unit" plus "inside the unit" *)
Section Plain.
Variable G : genv.
Local Notation L := (g_L G).
Local Notation n := (g_n G).

Hypothesis L_nodup : NoDup L.
Hypothesis upd_shaped : forall i, shaped L (upd_of G i).
Hypothesis TS_in : forall i, i < n -> In (TS i) L.

Variable U : tt.
Hypothesis U_shaped : shaped L U.
Hypothesis U_moves : forall v i, mem L U (vflip (TS i) v) = mem L U v.

Local Notation st := (steady_of G U).
Local Notation inUnit v := (mem L U v = true).

(** [A] denotes the predicate [P] inside the unit *)
Definition spec_of (A : tt) (P : val -> Prop) : Prop :=
  shaped L A /\ forall w, mem L A w = true <-> (inUnit w /\ P w).
Local Notation spec := spec_of.

Lemma spec_of_iff A P :
  spec A P <->
  (shaped L A /\ forall w, inUnit w -> (mem L A w = true <-> P w)) /\ inU G U A.
Proof.
  split.
  - intros [SA EA]. split; [split; [exact SA|]|].
    + intros w Hw. rewrite EA. tauto.
    + intros v Hv. apply EA in Hv. tauto.
  - intros [[SA EA] HI]. split; [exact SA|]. intro w. split.
    + intro Hm. pose proof (HI w Hm) as Hu. split; [exact Hu | apply (EA w Hu); exact Hm].
    + intros [Hu Hp]. apply (EA w Hu). exact Hp.
Qed.

Lemma spec_inU A P : spec A P -> inU G U A.
Proof. intro H. apply spec_of_iff in H. apply H. Qed.

Lemma spec_shaped A P : spec A P -> shaped L A.
Proof. intros [H _]; exact H. Qed.

Lemma spec_ext A P P' : spec A P -> (forall w, inUnit w -> (P w <-> P' w)) -> spec A P'.
Proof.
  intros [SA EA] H. split; [assumption|]. intro w. rewrite EA.
  split; intros [Hu Hp]; (split; [assumption|]); apply (H w Hu); assumption.
Qed.

Lemma inU_neg A : inU G U (eval_neg U A).
Proof. intros v Hv. exact (mem_tminus_sub L U A v Hv). Qed.

Lemma spec_unit : spec U (fun _ => True).
Proof. split; [assumption|]. intro w. tauto. Qed.

Lemma spec_neg A P : spec A P -> spec (eval_neg U A) (fun w => ~ P w).
Proof.
  intro HA. apply spec_of_iff in HA. apply spec_of_iff.
  split; [apply (on_neg G U U_shaped), HA | apply inU_neg].
Qed.

Lemma spec_and A B P Q : spec A P -> spec B Q -> spec (tand A B) (fun w => P w /\ Q w).
Proof.
  intros HA HB. apply spec_of_iff in HA, HB. apply spec_of_iff.
  split; [apply (on_and G U); [apply HA | apply HB]|].
  intros v Hv. rewrite mem_tand in Hv by (apply HA || apply HB).
  apply andb_true_iff in Hv. apply HA, Hv.
Qed.

Lemma spec_or A B P Q : spec A P -> spec B Q -> spec (tor A B) (fun w => P w \/ Q w).
Proof.
  intros HA HB. apply spec_of_iff in HA, HB. apply spec_of_iff.
  split; [apply (on_or G U); [apply HA | apply HB]|].
  intros v Hv. rewrite mem_tor in Hv by (apply HA || apply HB).
  apply orb_true_iff in Hv. destruct Hv as [Hv|Hv]; [apply HA, Hv | apply HB, Hv].
Qed.

Lemma spec_eu A B P Q R : spec A P -> spec B Q ->
  eval_eu_saturated G A B = Ok R -> spec R (EUs G P Q).
Proof.
  intros HA HB H. apply spec_of_iff in HA, HB. destruct HA as [HA IA], HB as [HB IB].
  apply spec_of_iff. split; [exact (on_eu G L_nodup upd_shaped TS_in U U_moves A B P Q R HA HB H)|].
  destruct (eu_correct G L_nodup upd_shaped TS_in A (proj1 HA) B R (proj1 HB) H) as [_ E].
  intros v Hv. apply E in Hv. destruct Hv as [v Hq | v i Hp _ _ _]; [apply IB, Hq | apply IA, Hp].
Qed.

(** all operators at once: exact on the unit by [unary_on] / [binary_on], and the result of
    every operator stays inside the unit *)
Lemma unary_spec o A P R : spec A P -> eval_unary G U st o A = Ok R -> spec R (sat_unary G o P).
Proof.
  intros HA H. apply spec_of_iff. pose proof (proj1 (spec_of_iff A P) HA) as [HO IA]. split.
  - exact (unary_on G L_nodup upd_shaped TS_in U U U_shaped U_shaped U_moves (fun _ h => h) o A P R HO H).
  - destruct o; simpl in H.
    + injection H as <-. apply inU_neg.
    + injection H as <-. apply ex_inU; [assumption.. | apply HO | exact IA].
    + injection H as <-. apply inU_neg.
    + exact (spec_inU _ _ (spec_eu U A _ _ R spec_unit HA H)).
    + unfold eval_af in H. destruct (eval_eg G (eval_neg U A) st); try discriminate.
      injection H as <-. apply inU_neg.
    + destruct (eg_in G L_nodup upd_shaped TS_in U U U_shaped U_moves (fun _ h => h) A R (proj1 HO) H)
        as [_ [Sub _]]. intros v Hv. apply IA, Sub, Hv.
    + unfold eval_ag in H. destruct (eval_ef_saturated G U (eval_neg U A)); try discriminate.
      injection H as <-. apply inU_neg.
Qed.

Lemma binary_spec o A B P Q R : spec A P -> spec B Q ->
  eval_binary G U st o A B = Ok R -> spec R (sat_binary G o P Q).
Proof.
  intros HA HB H. apply spec_of_iff.
  pose proof (proj1 (spec_of_iff A P) HA) as [HOA IA]. pose proof (proj1 (spec_of_iff B Q) HB) as [HOB IB].
  split.
  - exact (binary_on G L_nodup upd_shaped TS_in U U U_shaped U_shaped U_moves (fun _ h => h) o A B P Q R HOA HOB H).
  - destruct o; simpl in H.
    + injection H as <-. exact (spec_inU _ _ (spec_and _ _ _ _ HA HB)).
    + injection H as <-. exact (spec_inU _ _ (spec_or _ _ _ _ HA HB)).
    + injection H as <-. apply inU_neg.
    + injection H as <-. exact (spec_inU _ _ (spec_or _ _ _ _ (spec_neg _ _ HA) HB)).
    + injection H as <-.
      exact (spec_inU _ _ (spec_or _ _ _ _ (spec_and _ _ _ _ HA HB)
                                           (spec_and _ _ _ _ (spec_neg _ _ HA) (spec_neg _ _ HB)))).
    + exact (spec_inU _ _ (spec_eu A B _ _ R HA HB H)).
    + destruct (au_in G L_nodup upd_shaped TS_in U U U_shaped U_shaped U_moves (fun _ h => h)
                  A (proj1 HOA) B R (proj1 HOB) H) as [_ [Sub _]].
      intros v Hv. destruct (Sub v Hv) as [Hb|Hu]; [apply IB, Hb | exact Hu].
    + unfold eval_ew in H. destruct (eval_au G U _ _ st); try discriminate.
      injection H as <-. apply inU_neg.
    + unfold eval_aw in H. destruct (eval_eu_saturated G _ _); try discriminate.
      injection H as <-. apply inU_neg.
Qed.

Lemma spec_ex A P : spec A P -> spec (eval_ex G A st) (EXs G P).
Proof. intro HA. exact (unary_spec EX A P _ HA eq_refl). Qed.

Lemma spec_ax A P : spec A P -> spec (eval_ax G U A st) (AXs G P).
Proof. intro HA. exact (unary_spec AX A P _ HA eq_refl). Qed.

Lemma spec_ef A P R : spec A P -> eval_ef_saturated G U A = Ok R -> spec R (EFs G P).
Proof. exact (unary_spec EF A P R). Qed.

Lemma spec_af A P R : spec A P -> eval_af G U A st = Ok R -> spec R (AFs G P).
Proof. exact (unary_spec AF A P R). Qed.

Lemma spec_eg A P R : spec A P -> eval_eg G A st = Ok R -> spec R (EGs G P).
Proof. exact (unary_spec EG A P R). Qed.

Lemma spec_ag A P R : spec A P -> eval_ag G U A = Ok R -> spec R (AGs G P).
Proof. exact (unary_spec AG A P R). Qed.

Lemma spec_au A B P Q R : spec A P -> spec B Q ->
  eval_au G U A B st = Ok R -> spec R (AUs G P Q).
Proof. exact (binary_spec AU A B P Q R). Qed.

Lemma spec_ew A B P Q R : spec A P -> spec B Q ->
  eval_ew G U A B st = Ok R -> spec R (EWs G P Q).
Proof. exact (binary_spec EW A B P Q R). Qed.

Lemma spec_aw A B P Q R : spec A P -> spec B Q ->
  eval_aw G U A B = Ok R -> spec R (AWs G P Q).
Proof. exact (binary_spec AW A B P Q R). Qed.

End Plain.
