(** Facts about the shell model (Model/Shell.v): string library functions, paths, the
    formula-file loader, the archive writer / loader round trip, the result labels
    (Properties/C16.v, C17.v); at the end, test vectors for the modelled library functions. *)
From HCTL Require Import Base Tokenizer TT Shell.
From HCTL Require Import BaseFacts.

(** * [strip_prefix], [strip_suffix] *)

Lemma strip_prefix_spec : forall p s r, strip_prefix p s = Some r <-> s = p ++ r.
Proof.
  induction p as [|x p IH]; intros s r; cbn [strip_prefix app].
  - split; intros H; [inversion H; reflexivity | subst; reflexivity].
  - destruct s as [|y s].
    + split; intros H; discriminate.
    + destruct (N.eqb x y) eqn:E.
      * apply N.eqb_eq in E. subst y. rewrite IH. split; intros H; [subst; reflexivity|].
        inversion H. reflexivity.
      * apply N.eqb_neq in E. split; [discriminate|]. intros H. inversion H. subst. contradiction.
Qed.

Lemma strip_suffix_spec : forall p s r, strip_suffix p s = Some r <-> s = r ++ p.
Proof.
  intros p s r. unfold strip_suffix. destruct (strip_prefix (rev p) (rev s)) as [q|] eqn:E.
  - apply strip_prefix_spec in E. split; intros H.
    + inversion H; subst. rewrite <- (rev_involutive s), E, rev_app_distr, rev_involutive.
      reflexivity.
    + subst s. rewrite rev_app_distr in E. apply app_inv_head in E. subst q.
      rewrite rev_involutive. reflexivity.
  - split; [discriminate|]. intros H. subst s. rewrite rev_app_distr in E.
    assert (Hs : strip_prefix (rev p) (rev p ++ rev r) = Some (rev r))
      by (apply strip_prefix_spec; reflexivity).
    rewrite Hs in E. discriminate.
Qed.

Lemma strip_suffix_app : forall p r, strip_suffix p (r ++ p) = Some r.
Proof. intros p r. apply strip_suffix_spec. reflexivity. Qed.

Lemma strip_suffix_none_neq : forall p s r, strip_suffix p s = None -> s <> r ++ p.
Proof. intros p s r Hs He. rewrite He, strip_suffix_app in Hs. discriminate. Qed.

Lemma strip_suffix_none : forall p s, (forall r, s <> r ++ p) -> strip_suffix p s = None.
Proof.
  intros p s H. destruct (strip_suffix p s) as [r|] eqn:E; [|reflexivity].
  apply strip_suffix_spec in E. exfalso. exact (H r E).
Qed.

(** * [split] *)

Lemma split_nonempty : forall sep s, split sep s <> [].
Proof.
  intros sep [|c s]; cbn [split]; [discriminate|].
  destruct (N.eqb c sep); [discriminate|]. destruct (split sep s); discriminate.
Qed.

Lemma split_nosep : forall sep b, ~ In sep b -> split sep b = [b].
Proof.
  induction b as [|c b IH]; intros Hn; cbn [split]; [reflexivity|].
  destruct (N.eqb c sep) eqn:E.
  - apply N.eqb_eq in E. subst. exfalso. apply Hn. left. reflexivity.
  - rewrite IH; [reflexivity|]. intros Hi. apply Hn. right. exact Hi.
Qed.

Lemma split_app_sep : forall sep a b, split sep (a ++ sep :: b) = split sep a ++ split sep b.
Proof.
  induction a as [|c a IH]; intros b; cbn [split app].
  - rewrite N.eqb_refl. reflexivity.
  - destruct (N.eqb c sep); [rewrite IH; reflexivity|].
    rewrite IH. destruct (split sep a) as [|seg segs] eqn:E; [|reflexivity].
    exfalso. exact (split_nonempty _ _ E).
Qed.

(** appending a separator-free string extends the last segment *)
Lemma split_app_nosep : forall sep a b, ~ In sep b ->
  exists pre lst, split sep a = pre ++ [lst] /\ split sep (a ++ b) = pre ++ [lst ++ b].
Proof.
  induction a as [|c a IH]; intros b Hn.
  - exists [], []. cbn [app split]. split; [reflexivity | apply split_nosep; exact Hn].
  - destruct (IH b Hn) as [pre [lst [Ha Hab]]]. cbn [split app]. destruct (N.eqb c sep).
    + exists ([] :: pre), lst. rewrite Ha, Hab. split; reflexivity.
    + rewrite Ha, Hab. destruct pre as [|p pre]; cbn [app].
      * exists [], (c :: lst). split; reflexivity.
      * exists ((c :: p) :: pre), lst. split; reflexivity.
Qed.

Lemma split_singleton_nil : forall sep s, split sep s = [[]] -> s = [].
Proof.
  intros sep [|c s] H; [reflexivity|]. cbn [split] in H. destruct (N.eqb c sep).
  - inversion H as [Hs]. exfalso. exact (split_nonempty _ _ Hs).
  - destruct (split sep s); discriminate.
Qed.

(** * Paths: the extension of "label.bdd" *)

Lemma admissible_dec : forall l, {admissible l} + {~ admissible l}.
Proof.
  intros l. unfold admissible. destruct l as [|c l].
  - right. intros [H _]. apply H. reflexivity.
  - destruct (N.eq_dec (last (c :: l) 0%N) c_slash) as [He | Hne].
    + right. intros [_ H]. contradiction.
    + left. split; [discriminate | exact Hne].
Qed.

Lemma not_in_slash_dot_bdd : ~ In c_slash s_dot_bdd.
Proof. cbv. intros H. repeat (destruct H as [H | H]; [discriminate|]). exact H. Qed.

Lemma not_in_dot_bdd : ~ In c_dot s_bdd.
Proof. cbv. intros H. repeat (destruct H as [H | H]; [discriminate|]). exact H. Qed.

Lemma file_name_bdd : forall l pre lst, split c_slash l = pre ++ [lst] ->
  file_name (l ++ s_dot_bdd) = Some (lst ++ s_dot_bdd).
Proof.
  intros l pre lst Hs.
  destruct (split_app_nosep c_slash l s_dot_bdd not_in_slash_dot_bdd) as [pre' [lst' [Ha Hab]]].
  rewrite Hs in Ha. apply app_inj_tail in Ha. destruct Ha as [Hp Hl]. subst pre' lst'.
  unfold file_name. rewrite Hab, rev_app_distr. cbn [rev app skip_trivial].
  assert (Hlen : forall t : str, length t < 4 -> str_eqb (lst ++ s_dot_bdd) t = false).
  { intros t Ht. apply str_eqb_neq. intros He. apply (f_equal (@length N)) in He.
    rewrite app_length in He. cbn [length s_dot_bdd s_bdd] in He. lia. }
  assert (He : is_empty (lst ++ s_dot_bdd) = false) by (destruct lst; reflexivity).
  rewrite He, (Hlen s_dot) by (cbn; lia). cbn [orb].
  rewrite (Hlen s_dotdot) by (cbn; lia). reflexivity.
Qed.

Lemma extension_of_file_name_bdd : forall lst,
  extension_of_file_name (lst ++ s_dot_bdd) = if is_empty lst then None else Some s_bdd.
Proof.
  intros lst. unfold extension_of_file_name, s_dot_bdd.
  rewrite split_app_sep, (split_nosep c_dot s_bdd not_in_dot_bdd), rev_app_distr.
  cbn [rev app]. destruct (rev (split c_dot lst)) as [|bl rest] eqn:E.
  - exfalso. apply (f_equal (@rev str)) in E. rewrite rev_involutive in E.
    exact (split_nonempty _ _ E).
  - destruct lst as [|c lst]; [cbn in E; inversion E; reflexivity|].
    cbn [is_empty]. destruct bl as [|x bl]; [|reflexivity]. destruct rest as [|r rest]; [|reflexivity].
    exfalso. apply (f_equal (@rev str)) in E. rewrite rev_involutive in E. cbn [rev app] in E.
    apply split_singleton_nil in E. discriminate.
Qed.

Lemma split_ends : forall sep a, exists pre lst, split sep a = pre ++ [lst].
Proof.
  intros sep a. assert (Hn : ~ In sep []) by (intros []).
  destruct (split_app_nosep sep a [] Hn) as [pre [lst [H _]]]. exists pre, lst. exact H.
Qed.

Lemma extension_bdd : forall l pre lst, split c_slash l = pre ++ [lst] ->
  extension (l ++ s_dot_bdd) = if is_empty lst then None else Some s_bdd.
Proof.
  intros l pre lst Hs. unfold extension. rewrite (file_name_bdd l pre lst Hs).
  apply extension_of_file_name_bdd.
Qed.

(** a label is admissible exactly if the last '/'-separated segment of it is not empty *)
Lemma last_segment_admissible : forall l, last (split c_slash l) [] <> [] <-> admissible l.
Proof.
  unfold admissible. induction l as [|x a _] using rev_ind.
  - cbn. split; [intros H | intros [H _]]; exfalso; apply H; reflexivity.
  - rewrite (last_last a x). destruct (N.eq_dec x c_slash) as [-> | Hne].
    + rewrite split_app_sep. cbn [split]. rewrite last_last.
      split; [intros H | intros [_ H]]; exfalso; apply H; reflexivity.
    + destruct (split_app_nosep c_slash a [x]) as [pre [lst [_ Hab]]].
      { intros [H | []]. exact (Hne H). }
      rewrite Hab, last_last. split; intros _.
      * split; [destruct a; discriminate | exact Hne].
      * destruct lst; discriminate.
Qed.

(** the exact condition under which the entry written for a label is read back *)
Lemma extension_bdd_iff : forall l, extension (l ++ s_dot_bdd) = Some s_bdd <-> admissible l.
Proof.
  intros l. destruct (split_ends c_slash l) as [pre [lst Hs]].
  rewrite (extension_bdd l pre lst Hs), <- last_segment_admissible, Hs, last_last.
  destruct lst; cbn [is_empty]; split; congruence.
Qed.

Lemma is_bdd_label : forall l,
  opt_eqb str_eqb (extension (l ++ s_dot_bdd)) (Some s_bdd) = true <-> admissible l.
Proof.
  intros l. rewrite <- extension_bdd_iff. destruct (extension (l ++ s_dot_bdd)) as [e|]; cbn [opt_eqb].
  - rewrite str_eqb_eq. split; intros H; [subst; reflexivity | inversion H; reflexivity].
  - split; discriminate.
Qed.

(** * The archive writer / loader round trip *)

Lemma bdd_name_inj : forall l l', l ++ s_dot_bdd = l' ++ s_dot_bdd -> l = l'.
Proof. intros l l' H. apply app_inv_tail in H. exact H. Qed.

(** the two metadata entries cannot be mistaken for the entry of a label *)
Lemma metadata_not_bdd : forall n l, n = s_model_aeon \/ n = s_formulae_txt -> n <> l ++ s_dot_bdd.
Proof. intros n l [H | H]; subst n; apply strip_suffix_none_neq; reflexivity. Qed.

Lemma model_aeon_ext : opt_eqb str_eqb (extension s_model_aeon) (Some s_bdd) = false.
Proof. reflexivity. Qed.

Lemma formulae_txt_ext : opt_eqb str_eqb (extension s_formulae_txt) (Some s_bdd) = false.
Proof. reflexivity. Qed.

Lemma by_name_In : forall (a : archive) n c, NoDup (map fst a) -> In (n, c) a ->
  by_name n a = Some c.
Proof.
  intros a n c Hnd Hin. unfold by_name. apply (In_alookup str_eqb str_eqb_eq).
  - rewrite map_rev. apply NoDup_rev. exact Hnd.
  - apply in_rev in Hin. exact Hin.
Qed.

Lemma dedup_NoDup_id : forall l, NoDup l -> dedup l = l.
Proof.
  induction l as [|x l IH]; intros Hnd; cbn [dedup]; [reflexivity|].
  inversion Hnd as [|? ? Hnotin Hnd']; subst.
  destruct (existsb (str_eqb x) l) eqn:E.
  - apply existsb_str_in in E. contradiction.
  - rewrite IH; [reflexivity | exact Hnd'].
Qed.

Lemma dedup_In : forall l x, In x (dedup l) <-> In x l.
Proof.
  induction l as [|y l IH]; intros x; cbn [dedup]; [reflexivity|].
  destruct (existsb (str_eqb y) l) eqn:E.
  - rewrite IH. apply existsb_str_in in E. split; [intros H; right; exact H|].
    intros [He | H]; [subst; exact E | exact H].
  - cbn [In]. rewrite IH. reflexivity.
Qed.

Lemma dedup_NoDup : forall l, NoDup (dedup l).
Proof.
  induction l as [|y l IH]; cbn [dedup]; [constructor|].
  destruct (existsb (str_eqb y) l) eqn:E; [exact IH|].
  constructor; [|exact IH]. rewrite dedup_In. intros H. apply existsb_str_in in H.
  rewrite H in E. discriminate.
Qed.

(** the executable [file_names] is one of the possible results of [ZipArchive::file_names] *)
Lemma file_names_ok : forall a, is_file_names a (file_names a).
Proof. intros a. split; [apply dedup_NoDup | intros n; apply dedup_In]. Qed.

Section RoundTrip.
  Variable print : tt -> str.
  Variable parse : str -> option tt.
  Hypothesis parse_print : forall b, parse (print b) = Some b.

  Local Notation build := (build_result_archive print).
  Local Notation loadn := (load_names parse).

  Lemma build_names : forall (sets : setmap) model fs,
    map fst (build sets model fs)
    = map (fun l => l ++ s_dot_bdd) (map fst sets) ++ [s_model_aeon; s_formulae_txt].
  Proof.
    intros sets model fs. unfold build_result_archive. rewrite map_app, !map_map. reflexivity.
  Qed.

  Lemma bdd_names_NoDup : forall ls : list str, NoDup ls ->
    NoDup (map (fun l => l ++ s_dot_bdd) ls ++ [s_model_aeon; s_formulae_txt]).
  Proof.
    induction ls as [|l ls IH]; intros Hnd; cbn [map app].
    - constructor; [intros [H | []]; discriminate|]. constructor; [intros []|constructor].
    - inversion Hnd as [|? ? Hnotin Hnd']; subst. constructor; [|apply IH; exact Hnd'].
      intros Hin. apply in_app_or in Hin. destruct Hin as [Hin | [He | [He | []]]].
      + apply in_map_iff in Hin. destruct Hin as [l' [He Hl']]. apply bdd_name_inj in He.
        subst l'. contradiction.
      + exact (metadata_not_bdd _ l (or_introl eq_refl) He).
      + exact (metadata_not_bdd _ l (or_intror eq_refl) He).
  Qed.

  Lemma build_names_NoDup : forall (sets : setmap) model fs, NoDup (map fst sets) ->
    NoDup (map fst (build sets model fs)).
  Proof. intros sets model fs Hnd. rewrite build_names. apply bdd_names_NoDup. exact Hnd. Qed.

  Lemma by_name_build_set : forall (sets : setmap) model fs l b, NoDup (map fst sets) ->
    In (l, b) sets -> by_name (l ++ s_dot_bdd) (build sets model fs) = Some (print b).
  Proof.
    intros sets model fs l b Hnd Hin. apply by_name_In; [apply build_names_NoDup; exact Hnd|].
    unfold build_result_archive. apply in_or_app. left.
    apply in_map_iff. exists (l, b). split; [reflexivity | exact Hin].
  Qed.

  (** the two metadata entries are found whatever the labels are (they are the last two
      entries and no "*.bdd" name can hide them) *)
  Lemma by_name_build_model : forall (sets : setmap) model fs,
    by_name s_model_aeon (build sets model fs) = Some model.
  Proof.
    intros sets model fs. unfold by_name, build_result_archive. rewrite rev_app_distr.
    cbn [rev app alookup].
    assert (H : str_eqb s_model_aeon s_formulae_txt = false) by reflexivity.
    rewrite H, str_eqb_refl. reflexivity.
  Qed.

  Lemma by_name_build_formulae : forall (sets : setmap) model fs,
    by_name s_formulae_txt (build sets model fs) = Some (formulae_txt fs).
  Proof.
    intros sets model fs. unfold by_name, build_result_archive. rewrite rev_app_distr.
    cbn [rev app alookup]. rewrite str_eqb_refl. reflexivity.
  Qed.

  (** entries that are not "*.bdd" files are skipped, whatever the archive *)
  Lemma load_names_skip : forall n names a acc,
    opt_eqb str_eqb (extension n) (Some s_bdd) = false ->
    loadn (n :: names) a acc = loadn names a acc.
  Proof. intros n names a acc H. cbn [load_names]. rewrite H. reflexivity. Qed.

  Lemma load_names_skip_metadata : forall n names a acc,
    n = s_model_aeon \/ n = s_formulae_txt -> loadn (n :: names) a acc = loadn names a acc.
  Proof.
    intros n names a acc [H | H]; subst n; apply load_names_skip; reflexivity.
  Qed.

  (** the entry of an admissible label of [sets] is read back and inserted *)
  Lemma load_names_entry : forall (sets : setmap) model fs l b names acc,
    NoDup (map fst sets) -> In (l, b) sets -> admissible l ->
    loadn ((l ++ s_dot_bdd) :: names) (build sets model fs) acc
    = loadn names (build sets model fs) (ainsert str_eqb l b acc).
  Proof.
    intros sets model fs l b names acc Hsets Hin Ha. cbn [load_names].
    rewrite (proj2 (is_bdd_label l) Ha), strip_suffix_app,
      (by_name_build_set sets model fs l b Hsets Hin), parse_print. reflexivity.
  Qed.

  (** every other entry name of the archive is skipped *)
  Lemma entry_name_cases : forall (sets : setmap) model fs n,
    In n (map fst (build sets model fs)) ->
    (exists l b, n = l ++ s_dot_bdd /\ In (l, b) sets /\ admissible l) \/
    ((forall l, n = l ++ s_dot_bdd -> ~ admissible l) /\
     forall names a acc, loadn (n :: names) a acc = loadn names a acc).
  Proof.
    intros sets model fs n Hn. rewrite build_names in Hn. apply in_app_or in Hn.
    destruct Hn as [Hn | Hn].
    - apply in_map_iff in Hn. destruct Hn as [l [He Hl]]. subst n.
      apply in_map_iff in Hl. destruct Hl as [[l' b] [He Hin]]. cbn [fst] in He. subst l'.
      destruct (admissible_dec l) as [Ha | Hna]; [left; exists l, b; auto|]. right. split.
      + intros l' He. apply bdd_name_inj in He. subst l'. exact Hna.
      + intros names a acc. apply load_names_skip.
        destruct (opt_eqb str_eqb (extension (l ++ s_dot_bdd)) (Some s_bdd)) eqn:E; [|reflexivity].
        apply is_bdd_label in E. contradiction.
    - assert (Hmeta : n = s_model_aeon \/ n = s_formulae_txt).
      { destruct Hn as [H | [H | []]]; [left | right]; symmetry; exact H. }
      right. split.
      + intros l He. exfalso. exact (metadata_not_bdd n l Hmeta He).
      + intros names a acc. apply load_names_skip_metadata. exact Hmeta.
  Qed.

  (** The loop over the entry names of a written archive, started with an accumulator that
      binds none of the labels still to come: it succeeds, and it adds to the accumulator
      exactly the entries of [sets] with an admissible label whose name is visited. *)
  Lemma load_names_build : forall (sets : setmap) model fs, NoDup (map fst sets) ->
    forall names acc, NoDup names ->
      (forall n, In n names -> In n (map fst (build sets model fs))) ->
      (forall l, In (l ++ s_dot_bdd) names -> ~ In l (map fst acc)) ->
      exists m, loadn names (build sets model fs) acc = LOk m /\
        (NoDup (map fst acc) -> NoDup (map fst m)) /\
        forall l b, In (l, b) m <->
          In (l, b) acc \/ (In (l, b) sets /\ admissible l /\ In (l ++ s_dot_bdd) names).
  Proof.
    intros sets model fs Hsets. induction names as [|n rest IH]; intros acc Hnd Hsub Hfresh.
    - exists acc. split; [reflexivity|]. split; [intros H; exact H|].
      intros l b. split; [intros H; left; exact H | intros [H | [_ [_ []]]]; exact H].
    - inversion Hnd as [|? ? Hnotin Hnd']; subst.
      assert (Hsub' : forall n', In n' rest -> In n' (map fst (build sets model fs)))
        by (intros n' Hn'; apply Hsub; right; exact Hn').
      destruct (entry_name_cases sets model fs n (Hsub n (or_introl eq_refl)))
        as [[l0 [b0 [-> [Hin0 Ha0]]]] | [Hna Hskip]].
      + assert (Hl0 : ~ In l0 (map fst acc)) by (apply Hfresh; left; reflexivity).
        destruct (IH ((l0, b0) :: acc) Hnd' Hsub') as [m [Hm [Hndm Hin]]].
        { intros l Hl [He | Hk]; [cbn [fst] in He; subst l; contradiction|].
          exact (Hfresh l (or_intror Hl) Hk). }
        exists m. split.
        { rewrite load_names_entry with (b := b0) by assumption.
          unfold ainsert. rewrite (aremove_notin str_eqb str_eqb_eq _ _ Hl0). exact Hm. }
        split; [intros Hacc; apply Hndm; cbn [map fst]; constructor; assumption|].
        intros l b. rewrite Hin. cbn [In].
        assert (H1 : (l0, b0) = (l, b) ->
                     In (l, b) sets /\ admissible l /\ l0 ++ s_dot_bdd = l ++ s_dot_bdd)
          by (intros He; inversion He; subst; auto).
        assert (H2 : l0 ++ s_dot_bdd = l ++ s_dot_bdd -> In (l, b) sets -> (l0, b0) = (l, b)).
        { intros He Hs. apply bdd_name_inj in He. subst l. f_equal.
          pose proof (In_alookup str_eqb str_eqb_eq sets l0 b0 Hsets Hin0) as E.
          rewrite (In_alookup str_eqb str_eqb_eq sets l0 b Hsets Hs) in E. inversion E. reflexivity. }
        split.
        * intros [[E | A] | (Ms & Ad & R)]; [right; destruct (H1 E) as (Ms & Ad & Eq) | left | right]; auto.
        * intros [A | (Ms & Ad & [Eq | R])]; [left; right; exact A | left; left; exact (H2 Eq Ms) | auto].
      + destruct (IH acc Hnd' Hsub') as [m [Hm [Hndm Hin]]].
        { intros l Hl. apply Hfresh. right. exact Hl. }
        exists m. split; [rewrite Hskip; exact Hm|]. split; [exact Hndm|].
        intros l b. rewrite Hin. cbn [In]. split.
        * intros [A | (Ms & Ad & R)]; auto.
        * intros [A | (Ms & Ad & [Eq | R])]; [auto | destruct (Hna l Eq Ad) | auto].
  Qed.

  (** Round trip, whatever the iteration orders: the loader succeeds and the loaded map holds
      exactly the entries of [sets] with an admissible label. *)
  Theorem roundtrip_general_entries : forall (sets : setmap) model fs names,
    NoDup (map fst sets) -> is_file_names (build sets model fs) names ->
    exists m, loadn names (build sets model fs) [] = LOk m /\
      NoDup (map fst m) /\
      forall l b, In (l, b) m <-> In (l, b) sets /\ admissible l.
  Proof.
    intros sets model fs names Hsets [Hnd Hnames].
    destruct (load_names_build sets model fs Hsets names [] Hnd) as [m [Hm [Hndm Hin]]].
    { intros n Hn. apply Hnames. exact Hn. }
    { intros l _ []. }
    exists m. split; [exact Hm|]. split; [apply Hndm; constructor|].
    intros l b. rewrite Hin. split.
    - intros [[] | [Hs [Ha _]]]. split; assumption.
    - intros [Hs Ha]. right. split; [exact Hs|]. split; [exact Ha|]. apply Hnames.
      rewrite build_names. apply in_or_app. left. apply (in_map (fun l => l ++ s_dot_bdd)).
      exact (in_map fst _ _ Hs).
  Qed.

  (** Round trip for admissible labels: the same association list up to order *)
  Theorem roundtrip : forall (sets : setmap) model fs names,
    NoDup (map fst sets) -> Forall admissible (map fst sets) ->
    is_file_names (build sets model fs) names ->
    exists m, loadn names (build sets model fs) [] = LOk m /\
      NoDup (map fst m) /\
      (forall l, alookup str_eqb l m = alookup str_eqb l sets) /\
      (forall l b, In (l, b) m <-> In (l, b) sets) /\
      length m = length sets.
  Proof.
    intros sets model fs names Hsets Hadm Hnames.
    destruct (roundtrip_general_entries sets model fs names Hsets Hnames) as [m [Hm [Hndm Hin0]]].
    assert (Hin : forall l b, In (l, b) m <-> In (l, b) sets).
    { intros l b. rewrite Hin0. split; [intros [H _]; exact H|]. intros H. split; [exact H|].
      rewrite Forall_forall in Hadm. apply Hadm. exact (in_map fst _ _ H). }
    exists m. split; [exact Hm|]. split; [exact Hndm|].
    split; [exact (proj2 (same_lookup_iff_same_entries str_eqb str_eqb_eq m sets Hndm Hsets) Hin)|]. split; [exact Hin|].
    assert (Hkeys : forall k, In k (map fst m) <-> In k (map fst sets)).
    { intros k. rewrite !in_map_iff. split; intros [[l b] [He Hi]]; exists (l, b);
        (split; [exact He | apply Hin; exact Hi]). }
    rewrite <- (map_length fst m), <- (map_length fst sets).
    apply Nat.le_antisymm; apply NoDup_incl_length; try assumption; intros k Hk; apply Hkeys; exact Hk.
  Qed.

  Lemma load_names_exact : forall (sets : setmap) model fs,
    NoDup (map fst sets) -> Forall admissible (map fst sets) ->
    forall s2 s1, sets = s1 ++ s2 ->
      loadn (map (fun ls => fst ls ++ s_dot_bdd) s2 ++ [s_model_aeon; s_formulae_txt])
            (build sets model fs) (rev s1) = LOk (rev sets).
  Proof.
    intros sets model fs Hsets Hadm. induction s2 as [|[l b] s2 IH]; intros s1 He.
    - cbn [map app]. rewrite !load_names_skip_metadata by (auto). cbn [load_names].
      rewrite He, app_nil_r. reflexivity.
    - assert (Hin : In (l, b) sets) by (rewrite He; apply in_or_app; right; left; reflexivity).
      assert (Ha : admissible l).
      { rewrite Forall_forall in Hadm. apply Hadm. apply in_map_iff. exists (l, b).
        split; [reflexivity | exact Hin]. }
      cbn [map app fst]. rewrite load_names_entry with (b := b) by assumption.
      assert (Hnotin : ~ In l (map fst (rev s1))).
      { rewrite He, map_app in Hsets. cbn [map fst] in Hsets. apply NoDup_remove_2 in Hsets.
        intros Hi. apply Hsets. apply in_or_app. left. rewrite map_rev in Hi.
        apply in_rev in Hi. exact Hi. }
      unfold ainsert. rewrite (aremove_notin str_eqb str_eqb_eq _ _ Hnotin), <- rev_unit.
      apply IH. rewrite <- app_assoc. exact He.
  Qed.

  (** Round trip with the entries visited in archive order: exactly [sets], in reverse
      insertion order *)
  Theorem roundtrip_exact : forall (sets : setmap) model fs,
    NoDup (map fst sets) -> Forall admissible (map fst sets) ->
    load_bdd_bundle parse (build sets model fs) = LOk (rev sets).
  Proof.
    intros sets model fs Hsets Hadm. unfold load_bdd_bundle, file_names.
    rewrite (dedup_NoDup_id _ (build_names_NoDup sets model fs Hsets)), build_names, map_map.
    apply (load_names_exact sets model fs Hsets Hadm sets []). reflexivity.
  Qed.
End RoundTrip.

(** * [lines] *)

Lemma split_inclusive_concat : forall s, concat (split_inclusive s) = s.
Proof.
  induction s as [|c s IH]; cbn [split_inclusive]; [reflexivity|].
  destruct (N.eqb c c_nl).
  - cbn [concat app]. rewrite IH. reflexivity.
  - destruct (split_inclusive s) as [|p ps]; cbn [concat app] in *; rewrite <- IH; reflexivity.
Qed.

Lemma split_inclusive_line : forall f rest, ~ In c_nl f ->
  split_inclusive (f ++ c_nl :: rest) = (f ++ [c_nl]) :: split_inclusive rest.
Proof.
  induction f as [|c f IH]; intros rest Hn; cbn [app split_inclusive].
  - rewrite N.eqb_refl. reflexivity.
  - destruct (N.eqb c c_nl) eqn:E.
    + apply N.eqb_eq in E. exfalso. apply Hn. left. exact E.
    + rewrite IH; [reflexivity|]. intros Hi. apply Hn. right. exact Hi.
Qed.

Lemma split_inclusive_rest : forall f, ~ In c_nl f -> f <> [] -> split_inclusive f = [f].
Proof.
  induction f as [|c f IH]; intros Hn Hne; [contradiction|]. cbn [split_inclusive].
  destruct (N.eqb c c_nl) eqn:E.
  - apply N.eqb_eq in E. exfalso. apply Hn. left. exact E.
  - destruct f as [|d f]; [reflexivity|]. rewrite IH; [reflexivity | | discriminate].
    intros Hi. apply Hn. right. exact Hi.
Qed.

Lemma split_inclusive_pieces : forall s p, In p (split_inclusive s) ->
  exists body, ~ In c_nl body /\ (p = body ++ [c_nl] \/ p = body).
Proof.
  induction s as [|c s IH]; intros p Hp; cbn [split_inclusive] in Hp; [destruct Hp|].
  destruct (N.eqb c c_nl) eqn:E.
  - destruct Hp as [He | Hp]; [|apply IH; exact Hp]. apply N.eqb_eq in E. subst.
    exists []. split; [intros []|left; reflexivity].
  - apply N.eqb_neq in E. destruct (split_inclusive s) as [|q qs].
    + destruct Hp as [He | []]. subst p. exists [c]. split; [|right; reflexivity].
      intros [Hi | []]. apply E. exact Hi.
    + destruct Hp as [He | Hp]; [|apply IH; right; exact Hp]. subst p.
      destruct (IH q (or_introl eq_refl)) as [body [Hb Hq]]. exists (c :: body). split.
      * intros [Hi | Hi]; [apply E; exact Hi | exact (Hb Hi)].
      * destruct Hq as [Hq | Hq]; subst q; [left | right]; reflexivity.
Qed.

Lemma lines_map_unterminated : forall f, ~ In c_nl f -> lines_map f = f.
Proof.
  intros f Hn. unfold lines_map. rewrite strip_suffix_none; [reflexivity|].
  intros r He. apply Hn. rewrite He. apply in_or_app. right. left. reflexivity.
Qed.

Lemma lines_no_nl : forall s l, In l (lines s) -> ~ In c_nl l.
Proof.
  intros s l Hl. unfold lines in Hl. apply in_map_iff in Hl. destruct Hl as [p [He Hp]].
  destruct (split_inclusive_pieces s p Hp) as [body [Hb [Hq | Hq]]]; subst p.
  - unfold lines_map in He. rewrite strip_suffix_app in He.
    destruct (strip_suffix [c_cr] body) as [l'|] eqn:E; subst l; [|exact Hb].
    apply strip_suffix_spec in E. intros Hi. apply Hb. rewrite E. apply in_or_app. left. exact Hi.
  - rewrite (lines_map_unterminated body Hb) in He. subst l. exact Hb.
Qed.

Lemma lines_cons : forall f rest, one_line f -> lines (f ++ c_nl :: rest) = f :: lines rest.
Proof.
  intros f rest [Hnl Hcr]. unfold lines. rewrite (split_inclusive_line f rest Hnl). cbn [map].
  unfold lines_map at 1. rewrite strip_suffix_app, strip_suffix_none by exact Hcr. reflexivity.
Qed.

Lemma lines_last : forall f, ~ In c_nl f -> f <> [] -> lines f = [f].
Proof.
  intros f Hn Hne. unfold lines. rewrite (split_inclusive_rest f Hn Hne). cbn [map].
  rewrite (lines_map_unterminated f Hn). reflexivity.
Qed.

(** what [writeln!] wrote line by line is read back line by line *)
Lemma lines_formulae_txt : forall fs, Forall one_line fs -> lines (formulae_txt fs) = fs.
Proof.
  induction fs as [|f fs IH]; intros Hall; [reflexivity|].
  inversion Hall as [|? ? Hf Hfs]; subst. unfold formulae_txt. cbn [map concat].
  rewrite <- app_assoc. cbn [app]. rewrite (lines_cons f _ Hf). f_equal. apply IH. exact Hfs.
Qed.

Lemma lines_join_nl : forall fs, Forall one_line fs -> Forall (fun f => f <> []) fs ->
  lines (join_nl fs) = fs.
Proof.
  induction fs as [|f fs IH]; intros Hall Hne; [reflexivity|].
  inversion Hall as [|? ? Hf Hfs]; subst. inversion Hne as [|? ? Hfne Hfsne]; subst.
  destruct fs as [|g fs].
  - apply lines_last; [exact (proj1 Hf) | exact Hfne].
  - change (join_nl (f :: g :: fs)) with (f ++ c_nl :: join_nl (g :: fs)).
    rewrite (lines_cons f _ Hf). f_equal. apply IH; assumption.
Qed.

(** * [trim]

    [skip_ws_app_ws] and [skip_ws_all_ws] are also in SpacingFacts.v ([skip_ws_ws], for a rest that
    does not start with white space, and [skip_ws_all]); they are proved here so that the shell
    files do not depend on the tokenizer proofs. *)

Lemma skip_ws_spec : forall s, exists a, s = a ++ skip_ws s /\ forallb is_ws a = true /\
  (forall c r, skip_ws s = c :: r -> is_ws c = false).
Proof.
  induction s as [|c s IH]; cbn [skip_ws].
  - exists []. split; [reflexivity|]. split; [reflexivity | intros c r H; discriminate].
  - destruct (is_ws c) eqn:E.
    + destruct IH as [a [Hs [Ha Hh]]]. exists (c :: a). cbn [app forallb]. rewrite E, Ha.
      split; [f_equal; exact Hs|]. split; [reflexivity | exact Hh].
    + exists []. split; [reflexivity|]. split; [reflexivity|].
      intros c' r H. inversion H; subst. exact E.
Qed.

Lemma skip_ws_app_ws : forall a s, forallb is_ws a = true -> skip_ws (a ++ s) = skip_ws s.
Proof.
  induction a as [|c a IH]; intros s Ha; [reflexivity|]. cbn [forallb] in Ha.
  apply andb_true_iff in Ha. destruct Ha as [Hc Ha]. cbn [app skip_ws]. rewrite Hc.
  apply IH. exact Ha.
Qed.

Lemma skip_ws_nonws : forall c r, is_ws c = false -> skip_ws (c :: r) = c :: r.
Proof. intros c r H. cbn [skip_ws]. rewrite H. reflexivity. Qed.

Lemma skip_ws_all_ws : forall a, forallb is_ws a = true -> skip_ws a = [].
Proof.
  intros a Ha. rewrite <- (app_nil_r a). rewrite skip_ws_app_ws; [reflexivity | exact Ha].
Qed.

(** [trim s] is the middle part of a decomposition [s = a ++ t ++ b] with [a], [b] white
    space and [t] without white space at its ends ... *)
Lemma trim_spec : forall s, exists a b,
  s = a ++ trim s ++ b /\ forallb is_ws a = true /\ forallb is_ws b = true /\ no_ws_ends (trim s).
Proof.
  intros s. unfold trim, trim_end, trim_start.
  destruct (skip_ws_spec s) as [a [Hs [Ha Hh]]].
  destruct (skip_ws_spec (rev (skip_ws s))) as [b' [Hr [Hb Hh']]].
  set (u := skip_ws s) in *. set (v := skip_ws (rev u)) in *.
  assert (Hu : u = rev v ++ rev b').
  { rewrite <- (rev_involutive u), Hr, rev_app_distr. reflexivity. }
  exists a, (rev b'). split; [rewrite <- Hu; exact Hs|]. split; [exact Ha|].
  split; [rewrite forallb_rev; exact Hb|]. split.
  - intros c r Hv. apply (Hh c (r ++ rev b')). rewrite Hu, Hv. reflexivity.
  - intros r c Hv. apply (Hh' c (rev r)). rewrite <- (rev_involutive v), Hv, rev_app_distr.
    reflexivity.
Qed.

(** ... and it is the only such middle part *)
Lemma trim_unique : forall s a t b, s = a ++ t ++ b ->
  forallb is_ws a = true -> forallb is_ws b = true -> no_ws_ends t -> trim s = t.
Proof.
  intros s a t b Hs Ha Hb [Hhd Hlast]. subst s. unfold trim, trim_end, trim_start.
  rewrite (skip_ws_app_ws a _ Ha). destruct t as [|c t].
  - cbn [app]. rewrite (skip_ws_all_ws b Hb). reflexivity.
  - cbn [app]. rewrite (skip_ws_nonws c _ (Hhd c t eq_refl)).
    change (c :: t ++ b) with ((c :: t) ++ b). rewrite rev_app_distr.
    rewrite skip_ws_app_ws by (rewrite forallb_rev; exact Hb).
    assert (Hne : c :: t <> []) by discriminate.
    destruct (exists_last Hne) as [r [x Hx]]. rewrite Hx, rev_unit.
    rewrite (skip_ws_nonws x _ (Hlast r x Hx)). rewrite <- rev_unit, rev_involutive. reflexivity.
Qed.

Lemma trim_fixed : forall t, no_ws_ends t -> trim t = t.
Proof.
  intros t Ht. apply (trim_unique t [] t []); [rewrite app_nil_r; reflexivity | | | exact Ht];
    reflexivity.
Qed.

Lemma trim_no_ws_ends : forall s, no_ws_ends (trim s).
Proof. intros s. destruct (trim_spec s) as [a [b [_ [_ [_ H]]]]]. exact H. Qed.

Lemma trim_idempotent : forall s, trim (trim s) = trim s.
Proof. intros s. apply trim_fixed. apply trim_no_ws_ends. Qed.

Lemma trim_In : forall s c, In c (trim s) -> In c s.
Proof.
  intros s c Hc. destruct (trim_spec s) as [a [b [Hs _]]]. rewrite Hs.
  apply in_or_app. right. apply in_or_app. left. exact Hc.
Qed.

(** * [load_formulae] *)

Lemma keep_formula_spec : forall t,
  keep_formula t = true <-> t <> [] /\ hd_error t <> Some c_hash.
Proof.
  intros [|c t]; unfold keep_formula; cbn [is_empty negb andb peek_is hd_error].
  - split; [discriminate | intros [H _]; exfalso; apply H; reflexivity].
  - destruct (N.eqb c c_hash) eqn:E; cbn [negb].
    + apply N.eqb_eq in E. subst c. split; [discriminate|]. intros [_ H]. exfalso. apply H. reflexivity.
    + apply N.eqb_neq in E. split; [|reflexivity]. intros _. split; [discriminate|].
      intros H. inversion H. contradiction.
Qed.

Lemma increasing_map_S : forall idx, increasing idx -> increasing (map S idx).
Proof.
  induction idx as [|x idx IH]; intros H; cbn [map increasing] in *; [exact I|].
  destruct H as [Hx Hr]. split; [|apply IH; exact Hr].
  intros y Hy. apply in_map_iff in Hy. destruct Hy as [y' [He Hy']]. subst y.
  apply Hx in Hy'. lia.
Qed.

Lemma increasing_unique : forall l1 l2, increasing l1 -> increasing l2 ->
  (forall k, In k l1 <-> In k l2) -> l1 = l2.
Proof.
  induction l1 as [|x l1 IH]; intros [|y l2] H1 H2 Hk.
  - reflexivity.
  - exfalso. apply (Hk y). left. reflexivity.
  - exfalso. apply (Hk x). left. reflexivity.
  - cbn [increasing] in H1, H2. destruct H1 as [Hx H1]. destruct H2 as [Hy H2].
    assert (Hxy : x = y).
    { assert (Hx2 : In x (y :: l2)) by (apply Hk; left; reflexivity).
      assert (Hy1 : In y (x :: l1)) by (apply Hk; left; reflexivity).
      destruct Hx2 as [He | Hx2]; [symmetry; exact He|].
      destruct Hy1 as [He | Hy1]; [exact He|].
      apply Hy in Hx2. apply Hx in Hy1. lia. }
    subst y. f_equal. apply IH; [exact H1 | exact H2|]. intros k. split; intros Hin.
    + assert (H : In k (x :: l2)) by (apply Hk; right; exact Hin).
      destruct H as [He | H]; [|exact H]. subst k. apply Hx in Hin. lia.
    + assert (H : In k (x :: l1)) by (apply Hk; right; exact Hin).
      destruct H as [He | H]; [|exact H]. subst k. apply Hy in Hin. lia.
Qed.

(** [filter p (map f l)] described by the increasing list of the positions kept *)
Lemma filter_map_indices : forall {A B} (f : A -> B) (p : B -> bool) (d : A) (l : list A),
  exists idx, increasing idx /\
    (forall k, In k idx <-> k < length l /\ p (f (nth k l d)) = true) /\
    filter p (map f l) = map (fun k => f (nth k l d)) idx.
Proof.
  intros A B f p d. induction l as [|x l IH].
  - exists []. split; [exact I|]. split; [|reflexivity].
    intros k. cbn [In length]. split; [intros [] | intros [H _]; lia].
  - destruct IH as [idx [Hinc [Hmem Heq]]].
    assert (HmemS : forall k, In k (map S idx) <->
                              k < length (x :: l) /\ p (f (nth k (x :: l) d)) = true /\ k <> 0).
    { intros k. rewrite in_map_iff. split.
      - intros [k' [He Hk']]. subst k. apply Hmem in Hk'. cbn [length nth].
        split; [lia|]. split; [apply Hk' | discriminate].
      - intros [Hlt [Hp Hne]]. destruct k as [|k']; [contradiction|]. exists k'.
        split; [reflexivity|]. apply Hmem. cbn [length nth] in Hlt, Hp. split; [lia | exact Hp]. }
    assert (HeqS : filter p (map f l) = map (fun k => f (nth k (x :: l) d)) (map S idx)).
    { rewrite map_map. cbn [nth]. exact Heq. }
    cbn [map filter]. destruct (p (f x)) eqn:E.
    + exists (0 :: map S idx). split; [|split].
      * cbn [increasing]. split; [|apply increasing_map_S; exact Hinc].
        intros y Hy. apply HmemS in Hy. lia.
      * intros k. cbn [In]. rewrite HmemS. split.
        -- intros [He | [Hlt [Hp _]]]; [subst k; cbn [length nth]; split; [lia | exact E]|].
           split; assumption.
        -- intros [Hlt Hp]. destruct k as [|k']; [left; reflexivity|]. right.
           split; [exact Hlt|]. split; [exact Hp | discriminate].
      * cbn [map nth]. f_equal. exact HeqS.
    + exists (map S idx). split; [apply increasing_map_S; exact Hinc|]. split; [|exact HeqS].
      intros k. rewrite HmemS. split.
      * intros [Hlt [Hp _]]. split; assumption.
      * intros [Hlt Hp]. split; [exact Hlt|]. split; [exact Hp|].
        intros He. subst k. cbn [nth] in Hp. rewrite Hp in E. discriminate.
Qed.

(** Specification of the loader: the formulae are the trimmed kept lines, in file order.
    [idx] lists the positions (in [lines content]) of the kept lines. *)
Theorem load_formulae_spec : forall content,
  exists idx, increasing idx /\
    (forall k, In k idx <-> k < length (lines content) /\ kept_line (nth k (lines content) [])) /\
    load_formulae content = map (fun k => trim (nth k (lines content) [])) idx.
Proof.
  intros content.
  destruct (filter_map_indices trim keep_formula [] (lines content)) as [idx [Hinc [Hmem Heq]]].
  exists idx. split; [exact Hinc|]. split; [|exact Heq].
  intros k. rewrite Hmem. unfold kept_line. rewrite keep_formula_spec. reflexivity.
Qed.

Theorem load_formulae_spec_unique : forall content idx,
  increasing idx ->
  (forall k, In k idx <-> k < length (lines content) /\ kept_line (nth k (lines content) [])) ->
  load_formulae content = map (fun k => trim (nth k (lines content) [])) idx.
Proof.
  intros content idx Hinc Hmem.
  destruct (load_formulae_spec content) as [idx' [Hinc' [Hmem' Heq]]].
  rewrite Heq. f_equal. apply increasing_unique; [exact Hinc' | exact Hinc|].
  intros k. rewrite Hmem, Hmem'. reflexivity.
Qed.

Theorem load_formulae_In : forall content f,
  In f (load_formulae content) <->
  exists l, In l (lines content) /\ f = trim l /\ f <> [] /\ hd_error f <> Some c_hash.
Proof.
  intros content f. unfold load_formulae. rewrite filter_In, in_map_iff, keep_formula_spec.
  split.
  - intros [[l [He Hl]] [Hne Hhd]]. exists l. split; [exact Hl|]. split; [symmetry; exact He|].
    split; assumption.
  - intros [l [Hl [He [Hne Hhd]]]]. split; [exists l; split; [symmetry; exact He | exact Hl]|].
    split; assumption.
Qed.

Lemma clean_one_line : forall f, clean_formula f -> one_line f.
Proof.
  intros f [_ [_ [[_ Hlast] Hnl]]]. split; [exact Hnl|]. intros r He.
  apply Hlast in He. discriminate He.
Qed.

(** the loader never returns an empty string, a comment, a string with white space at
    either end or a string with a line break *)
Theorem load_formulae_clean : forall content, Forall clean_formula (load_formulae content).
Proof.
  intros content. apply Forall_forall. intros f Hf. apply load_formulae_In in Hf.
  destruct Hf as [l [Hl [He [Hne Hhd]]]]. split; [exact Hne|]. split; [exact Hhd|]. subst f.
  split; [apply trim_no_ws_ends|]. intros Hi. apply trim_In in Hi.
  exact (lines_no_nl content l Hl Hi).
Qed.

Lemma filter_trim_clean : forall fs, Forall clean_formula fs ->
  filter keep_formula (map trim fs) = fs.
Proof.
  induction fs as [|f fs IH]; intros Hall; [reflexivity|].
  inversion Hall as [|? ? Hf Hfs]; subst. destruct Hf as [Hne [Hhd [Hws Hnl]]].
  cbn [map filter]. rewrite (trim_fixed f Hws).
  rewrite (proj2 (keep_formula_spec f) (conj Hne Hhd)). f_equal. apply IH. exact Hfs.
Qed.

Lemma clean_all_one_line : forall fs, Forall clean_formula fs -> Forall one_line fs.
Proof.
  intros fs. apply Forall_impl, clean_one_line.
Qed.

(** every list of clean formulae is returned unchanged when written one per line, in
    either format ("\n"-separated or "\n"-terminated as in formulae.txt) *)
Theorem load_formulae_fixed : forall fs, Forall clean_formula fs ->
  load_formulae (join_nl fs) = fs /\ load_formulae (formulae_txt fs) = fs.
Proof.
  intros fs Hall. unfold load_formulae. split.
  - rewrite lines_join_nl; [apply filter_trim_clean; exact Hall | apply clean_all_one_line; exact Hall|].
    rewrite Forall_forall in *. intros f Hf. apply (Hall f Hf).
  - rewrite lines_formulae_txt; [apply filter_trim_clean; exact Hall|].
    apply clean_all_one_line. exact Hall.
Qed.

(** * The labels of the results *)

Lemma result_label_inj : forall i j, result_label i = result_label j -> i = j.
Proof.
  intros i j H. unfold result_label in H. apply app_inv_head in H. apply dec_of_N_inj in H.
  apply Nat2N.inj. exact H.
Qed.

Lemma result_label_admissible : forall i, admissible (result_label i).
Proof.
  intros i. unfold result_label. destruct (dec_of_N_last (N.of_nat i)) as [pre H].
  rewrite H, app_assoc. split.
  - intros He. apply app_eq_nil in He. destruct He as [_ He]. discriminate.
  - rewrite last_last. unfold c_slash. generalize (N.of_nat i mod 10)%N. intros x. lia.
Qed.

Lemma insert_results_lookup : forall rs i (acc : setmap),
  (forall k, k < length rs ->
     alookup str_eqb (result_label (i + k)) (insert_results i rs acc) = nth_error rs k) /\
  (forall l, (forall k, k < length rs -> l <> result_label (i + k)) ->
     alookup str_eqb l (insert_results i rs acc) = alookup str_eqb l acc) /\
  (NoDup (map fst acc) -> NoDup (map fst (insert_results i rs acc))).
Proof.
  induction rs as [|r rs IH]; intros i acc; cbn [insert_results length].
  - split; [intros k Hk; lia|]. split; [reflexivity | intros H; exact H].
  - destruct (IH (S i) (ainsert str_eqb (result_label i) r acc)) as [H1 [H2 H3]].
    split; [|split].
    + intros [|k] Hk.
      * rewrite Nat.add_0_r, H2; [apply (alookup_ainsert_same str_eqb str_eqb_eq)|].
        intros k Hk' He. apply result_label_inj in He. lia.
      * replace (i + S k) with (S i + k) by lia. cbn [nth_error]. apply H1. lia.
    + intros l Hl. rewrite H2.
      * apply (alookup_ainsert_other str_eqb str_eqb_eq). specialize (Hl 0). rewrite Nat.add_0_r in Hl. apply Hl. lia.
      * intros k Hk. replace (S i + k) with (i + S k) by lia. apply Hl. lia.
    + intros Hacc. apply H3. apply (ainsert_NoDup str_eqb str_eqb_eq). exact Hacc.
Qed.

(** the map built by the CLI binds "formula-i" to the i-th result and nothing else *)
Lemma analysis_results_spec : forall rs,
  NoDup (map fst (analysis_results rs)) /\
  (forall i, alookup str_eqb (result_label i) (analysis_results rs) = nth_error rs i) /\
  (forall l, (forall i, i < length rs -> l <> result_label i) ->
             alookup str_eqb l (analysis_results rs) = None).
Proof.
  intros rs. unfold analysis_results. destruct (insert_results_lookup rs 0 []) as [H1 [H2 H3]].
  split; [apply H3; constructor|]. split.
  - intros i. destruct (Nat.lt_ge_cases i (length rs)) as [Hlt | Hge]; [apply (H1 i Hlt)|].
    rewrite H2; [symmetry; apply nth_error_None; exact Hge|].
    intros k Hk He. apply result_label_inj in He. cbn [Nat.add] in He. lia.
  - intros l Hl. rewrite H2; [reflexivity|]. intros k Hk. apply Hl. exact Hk.
Qed.

Lemma analysis_results_labels : forall rs l, In l (map fst (analysis_results rs)) ->
  exists i, i < length rs /\ l = result_label i.
Proof.
  intros rs l Hin.
  destruct (in_dec str_eq_dec l (map result_label (seq 0 (length rs)))) as [Hi | Hni].
  - apply in_map_iff in Hi. destruct Hi as [i [He Hi]]. apply in_seq in Hi.
    exists i. split; [lia | symmetry; exact He].
  - exfalso. revert Hin. apply (alookup_None str_eqb str_eqb_eq). apply (analysis_results_spec rs).
    intros i Hi He. apply Hni. apply in_map_iff. exists i. split; [symmetry; exact He|].
    apply in_seq. lia.
Qed.


Section CliRoundTrip.
  Variable print : tt -> str.
  Variable parse : str -> option tt.
  Hypothesis parse_print : forall b, parse (print b) = Some b.

  (** The archive written by the CLI for the results [rs] reloads to the same results under
      the same labels.  [results] is the CLI's result map in the order in which
      [build_result_archive] happens to iterate over it, [names] the order in which the loader
      happens to visit the entries. *)
  Theorem cli_archive_reloads : forall rs (results : setmap) model fs names,
    NoDup (map fst results) ->
    (forall l b, In (l, b) results <-> In (l, b) (analysis_results rs)) ->
    is_file_names (build_result_archive print results model fs) names ->
    exists m, load_names parse names (build_result_archive print results model fs) [] = LOk m /\
      NoDup (map fst m) /\
      (forall i, alookup str_eqb (result_label i) m = nth_error rs i) /\
      (forall l, (forall i, i < length rs -> l <> result_label i) -> alookup str_eqb l m = None) /\
      (forall l b, In (l, b) m <-> In (l, b) (analysis_results rs)).
  Proof.
    intros rs results model fs names Hnd Hsame Hnames.
    destruct (analysis_results_spec rs) as [Hnd0 [Hlk0 Hother0]].
    assert (Hadm : Forall admissible (map fst results)).
    { apply Forall_forall. intros l Hl. apply in_map_iff in Hl. destruct Hl as [[l' b] [He Hin]].
      cbn [fst] in He. subst l'. apply Hsame in Hin.
      destruct (analysis_results_labels rs l) as [i [_ Hi]].
      - apply in_map_iff. exists (l, b). split; [reflexivity | exact Hin].
      - subst l. apply result_label_admissible. }
    destruct (roundtrip print parse parse_print results model fs names Hnd Hadm Hnames)
      as [m [Hm [Hndm [Hlk [Hin _]]]]].
    assert (Hlk' : forall l, alookup str_eqb l m = alookup str_eqb l (analysis_results rs)).
    { intros l. rewrite Hlk. revert l. apply (same_lookup_iff_same_entries str_eqb str_eqb_eq _ _ Hnd Hnd0), Hsame. }
    exists m. split; [exact Hm|]. split; [exact Hndm|]. split; [|split].
    - intros i. rewrite Hlk'. apply Hlk0.
    - intros l Hl. rewrite Hlk'. apply Hother0. exact Hl.
    - intros l b. rewrite Hin. apply Hsame.
  Qed.
End CliRoundTrip.

(** * Test vectors: the model against the Rust standard library on the same inputs.
    The right-hand sides are what [str::lines], [Path::file_name] and [Path::extension]
    (the functions Model/Shell.v mirrors) return on Unix for the string given in the comment
    at the end of each line; they can be checked with a three-line Rust program *)
Example lines_ex0 : lines [] = []. (* "" *)
Proof. reflexivity. Qed.
Example lines_ex1 : lines [10]%N = [[]]. (* "\n" *)
Proof. reflexivity. Qed.
Example lines_ex2 : lines [97]%N = [[97]%N]. (* "a" *)
Proof. reflexivity. Qed.
Example lines_ex3 : lines [97; 10]%N = [[97]%N]. (* "a\n" *)
Proof. reflexivity. Qed.
Example lines_ex4 : lines [97; 13]%N = [[97; 13]%N]. (* "a\r" *)
Proof. reflexivity. Qed.
Example lines_ex5 : lines [97; 13; 10]%N = [[97]%N]. (* "a\r\n" *)
Proof. reflexivity. Qed.
Example lines_ex6 : lines [97; 13; 13; 10]%N = [[97; 13]%N]. (* "a\r\r\n" *)
Proof. reflexivity. Qed.
Example lines_ex7 : lines [97; 10; 10; 98]%N = [[97]%N; []; [98]%N]. (* "a\n\nb" *)
Proof. reflexivity. Qed.
Example lines_ex8 : lines [97; 10; 10]%N = [[97]%N; []]. (* "a\n\n" *)
Proof. reflexivity. Qed.
Example lines_ex9 : lines [13]%N = [[13]%N]. (* "\r" *)
Proof. reflexivity. Qed.
Example lines_ex10 : lines [13; 10]%N = [[]]. (* "\r\n" *)
Proof. reflexivity. Qed.
Example lines_ex11 : lines [97; 13; 98; 10]%N = [[97; 13; 98]%N]. (* "a\rb\n" *)
Proof. reflexivity. Qed.
Example lines_ex12 : lines [97; 10; 13]%N = [[97]%N; [13]%N]. (* "a\n\r" *)
Proof. reflexivity. Qed.

Example path_ex0 : (file_name [46; 98; 100; 100]%N, extension [46; 98; 100; 100]%N)
  = (Some [46; 98; 100; 100]%N, None). (* ".bdd" *)
Proof. reflexivity. Qed.
Example path_ex1 : (file_name [97; 46; 98; 100; 100]%N, extension [97; 46; 98; 100; 100]%N)
  = (Some [97; 46; 98; 100; 100]%N, Some [98; 100; 100]%N). (* "a.bdd" *)
Proof. reflexivity. Qed.
Example path_ex2 : (file_name [97; 47; 46; 98; 100; 100]%N, extension [97; 47; 46; 98; 100; 100]%N)
  = (Some [46; 98; 100; 100]%N, None). (* "a/.bdd" *)
Proof. reflexivity. Qed.
Example path_ex3 : (file_name [47; 46; 98; 100; 100]%N, extension [47; 46; 98; 100; 100]%N)
  = (Some [46; 98; 100; 100]%N, None). (* "/.bdd" *)
Proof. reflexivity. Qed.
Example path_ex4 : (file_name [46; 120; 46; 98; 100; 100]%N, extension [46; 120; 46; 98; 100; 100]%N)
  = (Some [46; 120; 46; 98; 100; 100]%N, Some [98; 100; 100]%N). (* ".x.bdd" *)
Proof. reflexivity. Qed.
Example path_ex5 :
  (file_name [97; 47; 98; 46; 98; 100; 100]%N, extension [97; 47; 98; 46; 98; 100; 100]%N)
  = (Some [98; 46; 98; 100; 100]%N, Some [98; 100; 100]%N). (* "a/b.bdd" *)
Proof. reflexivity. Qed.
Example path_ex6 :
  (file_name [97; 47; 46; 47; 46; 98; 100; 100]%N, extension [97; 47; 46; 47; 46; 98; 100; 100]%N)
  = (Some [46; 98; 100; 100]%N, None). (* "a/./.bdd" *)
Proof. reflexivity. Qed.
Example path_ex7 : (file_name [46; 46; 98; 100; 100]%N, extension [46; 46; 98; 100; 100]%N)
  = (Some [46; 46; 98; 100; 100]%N, Some [98; 100; 100]%N). (* "..bdd" *)
Proof. reflexivity. Qed.
Example path_ex8 : (file_name [97; 46; 98; 100; 100; 47]%N, extension [97; 46; 98; 100; 100; 47]%N)
  = (Some [97; 46; 98; 100; 100]%N, Some [98; 100; 100]%N). (* "a.bdd/" *)
Proof. reflexivity. Qed.
Example path_ex9 :
  (file_name [97; 46; 98; 100; 100; 47; 46]%N, extension [97; 46; 98; 100; 100; 47; 46]%N)
  = (Some [97; 46; 98; 100; 100]%N, Some [98; 100; 100]%N). (* "a.bdd/." *)
Proof. reflexivity. Qed.
Example path_ex10 :
  (file_name [97; 46; 98; 100; 100; 47; 46; 46]%N, extension [97; 46; 98; 100; 100; 47; 46; 46]%N)
  = (None, None). (* "a.bdd/.." *)
Proof. reflexivity. Qed.
Example path_ex11 :
  (file_name [97; 46; 98; 100; 100; 47; 47]%N, extension [97; 46; 98; 100; 100; 47; 47]%N)
  = (Some [97; 46; 98; 100; 100]%N, Some [98; 100; 100]%N). (* "a.bdd//" *)
Proof. reflexivity. Qed.
Example path_ex12 :
  (file_name [120; 47; 97; 46; 98; 100; 100; 47; 46; 47]%N,
   extension [120; 47; 97; 46; 98; 100; 100; 47; 46; 47]%N)
  = (Some [97; 46; 98; 100; 100]%N, Some [98; 100; 100]%N). (* "x/a.bdd/./" *)
Proof. reflexivity. Qed.
Example path_ex13 : (file_name [102; 111; 111; 46]%N, extension [102; 111; 111; 46]%N)
  = (Some [102; 111; 111; 46]%N, Some []). (* "foo." *)
Proof. reflexivity. Qed.
Example path_ex14 : (file_name [46; 46]%N, extension [46; 46]%N) = (None, None). (* ".." *)
Proof. reflexivity. Qed.
Example path_ex15 : (file_name [46; 46; 46]%N, extension [46; 46; 46]%N)
  = (Some [46; 46; 46]%N, Some []). (* "..." *)
Proof. reflexivity. Qed.
Example path_ex16 : (file_name [97; 47; 46; 46]%N, extension [97; 47; 46; 46]%N) = (None, None).
  (* "a/.." *)
Proof. reflexivity. Qed.
Example path_ex17 : (file_name [46]%N, extension [46]%N) = (None, None). (* "." *)
Proof. reflexivity. Qed.
Example path_ex18 :
  (file_name [46; 47; 97; 46; 98; 100; 100]%N, extension [46; 47; 97; 46; 98; 100; 100]%N)
  = (Some [97; 46; 98; 100; 100]%N, Some [98; 100; 100]%N). (* "./a.bdd" *)
Proof. reflexivity. Qed.
Example path_ex19 : (file_name [98; 100; 100]%N, extension [98; 100; 100]%N)
  = (Some [98; 100; 100]%N, None). (* "bdd" *)
Proof. reflexivity. Qed.
Example path_ex20 :
  (file_name [97; 46; 46; 98; 100; 100]%N, extension [97; 46; 46; 98; 100; 100]%N)
  = (Some [97; 46; 46; 98; 100; 100]%N, Some [98; 100; 100]%N). (* "a..bdd" *)
Proof. reflexivity. Qed.
Example path_ex21 : (file_name [47]%N, extension [47]%N) = (None, None). (* "/" *)
Proof. reflexivity. Qed.
Example path_ex22 : (file_name [], extension []) = (None, None). (* "" *)
Proof. reflexivity. Qed.
Example path_ex23 : (file_name [32; 46; 98; 100; 100]%N, extension [32; 46; 98; 100; 100]%N)
  = (Some [32; 46; 98; 100; 100]%N, Some [98; 100; 100]%N). (* " .bdd" *)
Proof. reflexivity. Qed.
